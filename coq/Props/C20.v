(* Property C20: caches and event dispatch obey their sequential spec under any schedule. *)
From TenpyV Require Import Base.Prelude Model.Events Proofs.EventsP Model.Cache Proofs.CacheP.
From TenpyV Require Import Model.CacheThread Proofs.CacheThreadP Model.CacheClose Proofs.CacheCloseP.
From TenpyV Require Import Model.CacheCloseCheck Proofs.CacheCloseCheckP Model.CacheFile Proofs.CacheFileP.
Open Scope Z_scope.

(* after ANY history of connect/disconnect/emit/emit_until_result/copy, emit() calls exactly the
   listeners that were connected and not disconnected (spec_connected: no sorting, no state), in
   descending priority and, within a priority, in connection order *)
Theorem T20_events : forall ops,
  let h := fst (ev_run empty_handler ops) in
  exists called,
    snd (ev_step h EEmit) = OEmit (map l_id called) (map l_ret called) /\
    Permutation called (spec_connected ops 0 []) /\
    StronglySorted before called.
Proof. intros ops h. exists (sort_l (h_listeners h)). split; [reflexivity|apply call_order]. Qed.

(* emit_until_result() walks the same order and stops after the first result that is not None *)
Theorem T20_events_emit_until : forall ops,
  let h := fst (ev_run empty_handler ops) in
  exists called,
    Permutation called (spec_connected ops 0 []) /\ StronglySorted before called /\
    snd (ev_step h EEmitUntil) = OEmitUntil (fst (call_until called)) (snd (call_until called)) /\
    ((exists pre x post r, called = pre ++ x :: post /\ Forall (fun y => l_ret y = None) pre /\
        l_ret x = Some r /\ call_until called = (map l_id (pre ++ [x]), Some r)) \/
     (Forall (fun y => l_ret y = None) called /\ call_until called = (map l_id called, None))).
Proof.
  intros ops h. exists (sort_l (h_listeners h)). split; [apply call_order|]. split; [apply call_order|].
  split; [apply emit_until_out|apply call_until_spec].
Qed.

(* disconnect(i) removes exactly the listener with id i: everybody else stays, in the same order *)
Theorem T20_events_disconnect : forall ops i,
  let h := fst (ev_run empty_handler ops) in
  let h' := fst (ev_step h (EDisconnect i)) in
  h_listeners h' = filter (not_id i) (h_listeners h) /\ h_counter h' = h_counter h /\
  (forall x, In x (h_listeners h) -> l_id x <> i -> In x (h_listeners h')) /\
  (forall x, In x (h_listeners h') -> l_id x <> i /\ In x (h_listeners h)).
Proof.
  intros ops i h h'. assert (E := disconnect_filter h i (ev_run_inv ops _ ev_inv_empty)).
  split; [exact E|]. split; [reflexivity|]. unfold h'. rewrite E.
  split; intros x; rewrite filter_In, not_id_true; tauto.
Qed.

Theorem T20_events_ids_never_reused : forall ops,
  NoDup (connected_ids (snd (ev_run empty_handler ops))).
Proof. intros ops. apply (ev_run_ids ops empty_handler). Qed.

(* for every storage that meets the contract, every start state of it and every operation sequence
   (set / [] / get / del / in / preload / set_short_term_keys / keys, any keys, any length) the cache
   returns what a plain dictionary returns; in particular it never reports a storage error *)
Theorem T20_dictcache_refines_dict : forall St (o : storage_ops St) abs inv, storage_ok o abs inv ->
  forall s0, inv s0 -> forall ops, snd (c_run o (c_empty s0) ops) = snd (d_run [] ops).
Proof. exact dictcache_refines_dict. Qed.

(* the contract is satisfiable: the in-memory Storage (a dict) meets it *)
Theorem T20_dict_storage_ok : storage_ok dict_storage (fun s k => d_get k s) (fun _ => True).
Proof. exact dict_storage_ok. Qed.

(* spelled out: a read returns the latest value written, a deleted key raises KeyError *)
Theorem T20_reads_latest_write : forall St (o : storage_ops St) abs inv, storage_ok o abs inv ->
  forall s0, inv s0 -> forall pre k v mid, forallb (fun op => negb (writes_key k op)) mid = true ->
  last (snd (c_run o (c_empty s0) (pre ++ CSet k v :: mid ++ [CGetItem k]))) ONone = OVal v /\
  last (snd (c_run o (c_empty s0) (pre ++ CDel k :: mid ++ [CGetItem k]))) ONone = OKeyError.
Proof.
  intros St o abs inv Hok s0 Hi pre k v mid H. rewrite !(dictcache_refines_dict St o abs inv Hok s0 Hi).
  split; [apply dict_latest_write|apply dict_deleted_absent]; exact H.
Qed.

(* sub-caches: what cache i of a family returns depends only on the operations addressed to i *)
Theorem T20_subcache_isolated : forall ops cs i c, nth_error cs i = Some c ->
  m_proj_out i ops (snd (m_run cs ops)) = snd (c_run dict_storage c (m_proj i ops)).
Proof. exact subcache_isolated. Qed.

(* for EVERY schedule (any interleaving of caller and worker steps, any queue size), every program of
   storage calls as DictCache issues them (load/preload/delete only of saved keys): the worker never
   dies, and what the caller got back is exactly what a key-value store returns -- in particular
   load k returns the value of the latest save k before it in program order (next theorem) *)
Theorem T20_threaded_linearizable : forall qmax prog sched, wf [] prog = true ->
  let st := lts_run qmax None sched (init prog) in
  dead st = false /\
  rev (t_outs st) = firstn (length (t_outs st)) (spec_outs [] prog) /\
  (caller_finished st = true -> rev (t_outs st) = spec_outs [] prog).
Proof. exact threaded_linearizable. Qed.

Theorem T20_kv_latest_save : forall pre k v mid, forallb (fun op => negb (s_writes k op)) mid = true ->
  last (spec_outs [] (pre ++ SSave k v :: mid ++ [SLoad k])) TOk = TVal v.
Proof. exact spec_latest_save. Qed.

(* DictCache is a well-behaved client: for every operation sequence on the cache the calls that reach
   the storage are load/preload/delete of stored keys only -- so the hypothesis `wf` above is met by
   every use of the cache, and under every schedule the threaded storage answers the cache's calls
   exactly like the key-value store of T20_dictcache_refines_dict *)
Theorem T20_dictcache_calls_wellformed : forall ops, wf [] (calls_of ops) = true.
Proof. exact dictcache_calls_wellformed. Qed.

Theorem T20_threaded_under_dictcache : forall qmax ops sched,
  let st := lts_run qmax None sched (init (calls_of ops)) in
  dead st = false /\
  (caller_finished st = true -> rev (t_outs st) = spec_outs [] (calls_of ops)).
Proof.
  intros qmax ops sched st. split; apply (threaded_linearizable qmax _ sched (dictcache_calls_wellformed ops)).
Qed.

(* no deadlock, for every schedule, every program (well-formed or not), with or without a task that
   raises: a caller that has not finished can take a step after at most 3|queue|+2 worker steps
   (so it terminates under weak fairness of the worker) *)
Theorem T20_no_deadlock : forall qmax fail_at prog sched,
  let st := lts_run qmax fail_at sched (init prog) in
  caller_finished st = false ->
  exists n, (n <= 3 * length (t_queue st) + 2)%nat /\
            caller_step qmax (iter_worker fail_at n st) <> None.
Proof.
  intros qmax fail_at prog sched st Hf.
  destruct (no_deadlock_aux qmax fail_at _ st eq_refl (run_Binv qmax fail_at sched _ (Binv_init prog)) Hf) as (n & Hn & Hs).
  exists n. split; [pose proof (mu_bound st); lia|exact Hs].
Qed.

(* a worker that died never blocks the caller ... *)
Theorem T20_dead_worker_never_blocks : forall qmax fail_at prog sched,
  let st := lts_run qmax fail_at sched (init prog) in
  t_status st = WDead -> caller_finished st = false -> caller_step qmax st <> None.
Proof.
  intros qmax fail_at prog sched st Hd Hf Hc.
  exact (progress qmax fail_at st (run_Binv qmax fail_at sched _ (Binv_init prog)) Hf Hc (worker_step_dead fail_at st Hd)).
Qed.

(* ... every operation that needs it raises WorkerDied at once *)
Theorem T20_dead_worker_raises : forall qmax st op, dead st = true -> needs_worker st op = true ->
  t_outs (start_op qmax st op) = TWorkerDied :: t_outs st /\ t_pc (start_op qmax st op) = PIdle.
Proof. exact dead_worker_raises. Qed.

Example T20_events_example :
  snd (ev_run empty_handler [EConnect 0 None; EConnect 5 (Some 3); EConnect 0 None; EDisconnect 0; EEmit])
  = [OConnected 0; OConnected 1; OConnected 2; ODisconnected true; OEmit [1; 2] [Some 3; None]].
Proof. vm_compute. reflexivity. Qed.

(* the defect pattern of DictCache.__delitem__ (stale short-term copy) on the model: KeyError *)
Example T20_cache_example :
  snd (c_run dict_storage (c_empty []) [CShort [1]; CSet 1 10; CDel 1; CGetItem 1; CSet 1 11; CGetItem 1; CKeys])
  = [ONone; ONone; ONone; OKeyError; ONone; OVal 11; OKeys [1]].
Proof. vm_compute. reflexivity. Qed.

(* a well-formed program and a schedule in which the caller blocks in put (queue size 1) and in join;
   it finishes with the key-value store's answers *)
Example T20_lts_example :
  let prog := [SSave 1 10; SSave 2 20; SPreload 1; SSave 1 11; SLoad 1; SLoad 2] in
  let st := lts_run 1 None [true; true; true; false; false; true; true; false; false; true; true; false; false;
                            false; false; true; true; true; false; false; true; true; true; true; false; false; true; true] (init prog) in
  wf [] prog = true /\ caller_finished st = true /\ rev (t_outs st) = [TOk; TOk; TOk; TOk; TVal 11; TVal 20].
Proof. vm_compute. repeat split. Qed.

(* a failing task: the caller gets WorkerDied, nothing hangs *)
Example T20_lts_failure_example :
  let st := lts_run 2 (Some 1%nat) [true; true; true; false; false; false; false; false; true; true; true; true]
                    (init [SSave 1 10; SPreload 1; SLoad 1; SSave 2 5]) in
  t_status st = WDead /\ caller_finished st = true /\ rev (t_outs st) = [TOk; TOk; TWorkerDied; TWorkerDied].
Proof. vm_compute. repeat split. Qed.

Example T20_calls_example :
  calls_of [CShort [1]; CSet 1 10; CSet 2 20; CGetItem 2; CPreload [1; 2; 3] false; CDel 1; CGetItem 1]
  = [SSave 1 10; SSave 2 20; SLoad 2; SPreload 1; SPreload 2; SDelete 1].
Proof. vm_compute. reflexivity. Qed.

(* close() of ThreadedStorage / Worker: Model/CacheClose.v, the LTS of Model/CacheThread.v extended by close() calls in
   the caller's program.  Not modelled: sub-containers of the ThreadedStorage, CacheFile / DictCache layer.
   Tie to the code: stream "sched-close" of harness/c20_sched.py runs programs with close() / __exit__ calls on the real
   ThreadedStorage + Worker under schedules enforced by gates and compares with `cl_run` through `check_cl_run` of
   Model/CacheCloseCheck.v. *)

(* no deadlock on close: close() started between two operations from ANY state of the LTS (any queue content, worker
   idle / running a task / dying after a failure / dead), any queue size, any injected failure, under ANY schedule that
   gives the worker wsteps <= |queue| + 3 turns: close() returns, the storage is closed, the worker thread has
   terminated, _loaded is empty *)
Theorem T20_close_no_deadlock : forall qmax fail_at st rest sched,
  c_pc st = CNone -> t_pc (c_base st) = PIdle -> c_prog st = CClose :: rest -> c_opened st = true ->
  (wsteps (c_base st) <= count_worker sched)%nat ->
  let st' := cl_run qmax fail_at (true :: sched ++ [true]) st in
  closed_st st' /\ In CClosedOk (c_outs st') /\ worker_step_c fail_at st' = None.
Proof. exact close_no_deadlock. Qed.

(* closed is absorbing: after close() has returned, under every schedule and every further program (operations and
   close() calls) the storage stays closed, no worker step is ever enabled again, and every storage operation that
   finishes returns WorkerDied - or is the silent preload (TOk) of a key an earlier failed load left in
   _waiting_for_load; no operation returns a value *)
Theorem T20_closed_forever : forall qmax fail_at sched st, closed_st st ->
  let st' := cl_run qmax fail_at sched st in
  closed_st st' /\ worker_step_c fail_at st' = None /\
  exists l, t_outs (c_base st') = l ++ t_outs (c_base st) /\ Forall (fun o => o = TWorkerDied \/ o = TOk) l.
Proof. exact closed_forever. Qed.

(* one operation after close(), precisely: WorkerDied at once; or TOk for preload(k) with k already waiting; or a
   load(k) with k already waiting, whose next step raises WorkerDied (loadb_post) *)
Theorem T20_after_close_op : forall qmax b op, t_status b = WDead -> t_loaded b = [] ->
  let b' := start_op qmax b op in
  t_status b' = WDead /\ t_loaded b' = [] /\
  ((t_pc b' = PIdle /\ exists o, t_outs b' = o :: t_outs b /\
     (o = TWorkerDied \/ (o = TOk /\ exists k, op = SPreload k /\ ks_mem k (t_waiting b) = true))) \/
   (exists k, op = SLoad k /\ ks_mem k (t_waiting b) = true /\ t_pc b' = PLoadB k /\ t_outs b' = t_outs b)).
Proof. exact start_op_post. Qed.

(* a second close() is the documented error ValueError('storage was already closed') and changes nothing *)
Theorem T20_second_close_raises : forall qmax st rest, closed_st st -> t_pc (c_base st) = PIdle ->
  c_prog st = CClose :: rest ->
  exists st', caller_step_c qmax st = Some st' /\ c_outs st' = CAlreadyClosed :: c_outs st /\ closed_st st'.
Proof. exact second_close. Qed.

(* non-vacuity: two saves, close with both still queued (queue size 0 = unbounded), then a load and a second close;
   the worker gets 5 turns: close returns, the queued saves are dropped, the load raises WorkerDied, the second close
   is refused *)
Example T20_example_close :
  let prog := [COp (SSave 1 10); COp (SSave 2 20); CClose; COp (SLoad 1); CClose] in
  let st := cl_run 0 None [true; true; true; false; false; false; false; false; true; true; true] (cl_init prog) in
  closed_st st /\ c_outs st = [CAlreadyClosed; CClosedOk] /\ t_outs (c_base st) = [TWorkerDied; TOk; TOk] /\
  t_disk (c_base st) = [] /\ c_prog st = [].
Proof. cbn zeta. unfold closed_st, pc_quiet. vm_compute. repeat split; auto. Qed.

(* the replay used by the correspondence stream "sched-close" takes steps of the transition system only: the state it
   reaches (and compares event by event with the implementation) is cl_run of the fine-grained schedule it reports *)
Theorem T20_close_replay_is_run : forall qmax fail_at toks st st' fine es,
  cl_replay qmax fail_at st toks = (st', fine, es) -> st' = cl_run qmax fail_at fine st.
Proof. exact cl_replay_is_run. Qed.

Example T20_example_close_replay :
  let prog := [COp (SSave 1 10); COp (SSave 2 20); CClose; COp (SLoad 1); CClose] in
  cl_replay 2 None (cl_init prog) [true; true; true; false; true; true]
  = (cl_run 2 None [true; false; true; true; false; false; false; false; true; true; true] (cl_init prog),
     [true; false; true; true; false; false; false; false; true; true; true],
     [[10; 0]; [10; 0]; [16]; [21; 1; 1; 35; 0]; [10; 2]; [15; 1]]).
Proof. vm_compute. reflexivity. Qed.

(* File-backed storages with sub-containers: Model/CacheFile.v (PickleStorage; Hdf5Storage as documented).  Tie to the
   code: stream "file-storage" of harness/c20_sched.py (PickleStorage trees) through `check_fs` of
   Model/CacheFileCheck.v.  Not modelled: close() of a container with a separately closed descendant. *)

(* every container p of every file system state meets the storage contract of T20_dictcache_refines_dict
   (abstraction: the files of p while p is open, nothing once it is closed; invariant: p is open) *)
Theorem T20_file_storage_ok : forall p, storage_ok (fs_ops p) (fs_abs p) (fs_inv p).
Proof. exact file_storage_ok. Qed.

(* hence a DictCache over any open container of a file-backed storage returns what a plain dictionary returns *)
Theorem T20_dictcache_over_file_storage : forall p fs, fs_is_open p fs = true ->
  forall ops, snd (c_run (fs_ops p) (c_empty fs) ops) = snd (d_run [] ops).
Proof. intros p fs H. exact (dictcache_refines_dict _ _ _ _ (file_storage_ok p) fs H). Qed.

(* containers are isolated: load / save / delete / preload on container p change neither the content nor the open flag
   of any other container q (parent, child or unrelated), whatever the state *)
Theorem T20_file_subcontainers_isolated : forall p q fs k v k', q <> p ->
  fs_abs q (s_save (fs_ops p) fs k v) k' = fs_abs q fs k' /\
  fs_abs q (s_delete (fs_ops p) fs k) k' = fs_abs q fs k' /\
  fs_abs q (fst (s_load (fs_ops p) fs k)) k' = fs_abs q fs k' /\
  fs_abs q (s_preload (fs_ops p) fs k) k' = fs_abs q fs k' /\
  fs_is_open q (s_save (fs_ops p) fs k v) = fs_is_open q fs /\
  fs_is_open q (s_delete (fs_ops p) fs k) = fs_is_open q fs /\
  fs_is_open q (fst (s_load (fs_ops p) fs k)) = fs_is_open q fs /\
  fs_is_open q (s_preload (fs_ops p) fs k) = fs_is_open q fs.
Proof.
  intros p q fs k v k' H. cbn [s_load s_save s_delete s_preload fs_ops fst].
  repeat split; apply data_op_other_container; try exact H; exact I.
Qed.

(* close() of an open container p succeeds and closes p and EVERY container below it (any depth: every path p ++ r),
   which from then on denote the empty map and refuse to load; every container not below p keeps its flag and content;
   the top container (p = []) removes all files *)
Theorem T20_file_close_closes_subcontainers : forall p fs, fs_is_open p fs = true ->
  fs_step fs (FClose p) = (fs_close p fs, FNone) /\
  (forall r, fs_is_open (p ++ r) (fs_close p fs) = false /\
             forall k, fs_abs (p ++ r) (fs_close p fs) k = None /\
                       snd (s_load (fs_ops (p ++ r)) (fs_close p fs) k) = None) /\
  (forall q, prefix_b p q = false ->
             fs_is_open q (fs_close p fs) = fs_is_open q fs /\
             forall k, fs_abs q (fs_close p fs) k = fs_abs q fs k) /\
  (p = [] -> forall q, fs_files q (fs_close p fs) = []).
Proof.
  intros p fs H. split; [exact (fs_step_open fs (FClose p) H)|]. split; [intro r; apply close_below|].
  split; [exact (fun q => close_other p q fs)|intros -> q; apply files_close_top].
Qed.

(* closed is absorbing: a closed container stays closed under every further operation sequence on the whole tree
   (including subcontainer() and close() anywhere), and every operation addressed to it - load, save, delete, preload,
   subcontainer, a second close - raises ValueError *)
Theorem T20_file_closed_forever : forall q ops fs, fs_closed q fs = true ->
  fs_closed q (fst (fs_run fs ops)) = true /\
  Forall2 (fun op o => f_target op = q -> o = FValueError) ops (snd (fs_run fs ops)).
Proof. exact file_closed_forever. Qed.

(* non-vacuity: a tree top / 0 / 0.1; closing 0 closes 0.1 and leaves the top container alone; closing the top removes
   the files *)
Example T20_file_example :
  let ops := [FSave [] 1 10; FSub [] 0; FSub [0] 1; FSave [0; 1] 2 20; FLoad [0; 1] 2; FSub [] 0; FClose [0];
              FLoad [0; 1] 2; FLoad [] 1; FClose [0]; FLoad [0] 5; FClose []; FLoad [] 1] in
  snd (fs_run fs_init ops) = [FNone; FNone; FNone; FNone; FVal 20; FValueError; FNone;
                              FValueError; FVal 10; FValueError; FValueError; FNone; FValueError] /\
  fst (fs_run fs_init ops) = [mkFC [] [] false; mkFC [0] [] false; mkFC [0; 1] [] false] /\
  fs_inv [0; 1] (fst (fs_run fs_init (firstn 6 ops))) /\ fs_closed [0; 1] (fst (fs_run fs_init (firstn 7 ops))) = true.
Proof. vm_compute. repeat split. Qed.

Print Assumptions T20_events.
Print Assumptions T20_events_emit_until.
Print Assumptions T20_events_disconnect.
Print Assumptions T20_events_ids_never_reused.
Print Assumptions T20_dictcache_refines_dict.
Print Assumptions T20_dict_storage_ok.
Print Assumptions T20_reads_latest_write.
Print Assumptions T20_subcache_isolated.
Print Assumptions T20_threaded_linearizable.
Print Assumptions T20_kv_latest_save.
Print Assumptions T20_dictcache_calls_wellformed.
Print Assumptions T20_threaded_under_dictcache.
Print Assumptions T20_no_deadlock.
Print Assumptions T20_dead_worker_never_blocks.
Print Assumptions T20_dead_worker_raises.
Print Assumptions T20_close_no_deadlock.
Print Assumptions T20_closed_forever.
Print Assumptions T20_after_close_op.
Print Assumptions T20_second_close_raises.
Print Assumptions T20_close_replay_is_run.
Print Assumptions T20_file_storage_ok.
Print Assumptions T20_dictcache_over_file_storage.
Print Assumptions T20_file_subcontainers_isolated.
Print Assumptions T20_file_close_closes_subcontainers.
Print Assumptions T20_file_closed_forever.
