(* Property C11: MPO algebra on weighted automata: dagger, scaling of the first site, __add__,
   plus_identity, completeness of the normal-form comparison; make_U_I as a graded automaton and soundness of its
   correspondence checker. *)
From TenpyV Require Import Base.Prelude Model.Automaton Proofs.AutomatonP.
From TenpyV Require Model.PropUI Proofs.PropUIP Model.PropUICheck Proofs.PropUICheckP.
Import Model.PropUI Model.PropUICheck.
Open Scope Z_scope.

(* the conjugated graph denotes the conjugated operator (the letters of a word sit on different sites,
   so the dagger of a product is the product of the daggers in the same order) *)
Theorem T11_dagger : forall hc g, hc 0 = 0 -> (forall x, x <> 0 -> hc x <> 0) ->
  denote (gdagger hc g) = pdagger hc (denote g).
Proof. exact denote_dagger. Qed.

(* scaling all entries of the first site scales the operator (gscale0 models no tenpy method and is in no correspondence stream) *)
Theorem T11_scale_first : forall c g, g <> [] -> denote (gscale0 c g) = pscale c (denote g).
Proof. exact denote_scale0. Qed.

(* MPO.__add__ : the sum graph denotes the sum of the operators *)
Theorem T11_add : forall A B, length A = length B -> std_form A = true -> std_form B = true ->
  peq (denote (gadd A B)) (denote A ++ denote B).
Proof. exact denote_gadd. Qed.

(* MPO.plus_identity(alpha, beta, sites=[0]) denotes alpha * 1 + beta * H *)
Theorem T11_plus_identity : forall a b g, g <> [] -> std_form g = true ->
  peq (denote (gplus_id a b g)) ((a, []) :: pscale b (denote g)).
Proof. exact denote_gplus_id. Qed.

(* no false negatives: with T10_peqb_sound, peqb decides "same operator" *)
Theorem T11_peqb_complete : forall p q, peq p q -> peqb p q = true.
Proof. exact peqb_complete. Qed.

Example T11_ex_plus_identity :
  let g := from_terms 3 [mkOT 1 4 (7,0)] [mkCT 0 5 0 2 6 (3,2)] in
  let a := (2,1) in let b := (0,-1) in
  g <> [] /\ std_form g = true /\
  peqb (denote (gplus_id a b g)) ((a, []) :: pscale b (denote g)) = true /\
  normalize (denote (gplus_id a b g)) =
    [((2,1), []); ((2,-3), [(0%nat,5); (2%nat,6)]); ((0,-7), [(1%nat,4)])].
Proof. vm_compute. repeat split; try reflexivity. discriminate. Qed.

(* non-vacuity: two closed graphs built from terms are in standard sum form, and the sum is decided *)
Example T11_ex_std :
  let A := from_terms 4 [mkOT 1 4 (7,0)] [mkCT 0 5 0 2 6 (3,0); mkCT 0 5 0 3 7 (2,1)] in
  let B := from_terms 4 [mkOT 2 3 (0,1)] [mkCT 1 5 9 3 6 (1,0)] in
  std_form A = true /\ std_form B = true /\ length A = length B /\
  peqb (denote (gadd A B)) (denote A ++ denote B) = true /\
  length (normalize (denote (gadd A B))) = 5%nat.
Proof. vm_compute. repeat split; reflexivity. Qed.

Example T11_ex_dagger :
  let hc := assoc_hc [(5, 6); (6, 5)] in
  let g := from_terms 3 [] [mkCT 0 5 0 2 6 (3,2)] in
  hc 0 = 0 /\ denote (gdagger hc g) = [((3, -2), [(0%nat, 6); (2%nat, 5)])].
Proof. vm_compute. split; reflexivity. Qed.

(* MPO.make_U_I (Model/PropUI.v): an edge entering IdR is redirected to IdL with weight dt * w, so in the graded
   automaton ui_graph (degree 1 on redirected edges) ui_den d g is the coefficient of dt^d.
   Tie to the code: correspondence stream `c11_make_U_I` of harness/c11.py (checker check_UI_grid of
   Model/PropUICheck.v, evaluated inside Coq on exact data): for finite H (term lists and explicit graphs,
   standard sum form or not, virtual indices permuted so that IdL / IdR sit anywhere, integer /
   Gaussian-integer strengths) and Gaussian-integer dt, the W grid entries, IdL, IdR and chi of the
   MPO returned by H.make_U_I(dt) are compared with ui_eval dt g and with ui_graph g evaluated at dt, where g is
   the graph of the W grid of H; the operator of the result is compared with the Taylor polynomial ui_taylor.
   Numeric steps: slope oracle only. *)

(* coefficient of dt^0 is the identity, for every graph in standard sum form *)
Theorem T11_UI_order0 : forall g, std_form g = true -> ui_den 0 g = [(c1, [])].
Proof. exact PropUIP.UI_order0_eq. Qed.

(* coefficient of dt^1 is exactly H (as lists of monomials, not only up to reordering) *)
Theorem T11_UI_order1 : forall g, std_form g = true -> ui_den 1 g = denote g.
Proof. exact PropUIP.UI_order1_eq. Qed.

(* the graded semantics is the Taylor expansion of the evaluated propagator MPO, for every time
   step t (Gaussian integer) and every graph; degrees above the chain length do not occur *)
Theorem T11_UI_eval : forall t g, peq (denote_to IdL (ui_eval t g)) (ui_taylor t g).
Proof. exact PropUIP.UI_eval. Qed.

(* U_I(t) = 1 + t H + sum_{d >= 2} t^d (coefficient d) *)
Theorem T11_UI_first_order : forall t g, std_form g = true ->
  peq (denote_to IdL (ui_eval t g))
      ((c1, []) :: pscale t (denote g) ++
       flat_map (fun d => pscale (cpow t d) (ui_den d g)) (seq 2 (length g - 1))).
Proof. exact PropUIP.UI_first_order. Qed.

(* the coefficient of dt^2 is the sum over cut positions m of (terms of H entering IdR exactly on
   site m) * (terms of H on the sites > m): exactly the products of NON-overlapping terms *)
Theorem T11_UI_order2 : forall g, std_form g = true -> peq (ui_den 2 g) (ui_order2 g).
Proof. exact PropUIP.UI_order2. Qed.

(* the first factors of ui_order2 are all the terms of H, each exactly once *)
Theorem T11_UI_terms_split : forall g, std_form g = true ->
  peq (denote g) (flat_map (ui_terms_at g 0 IdL) (seq 0 (length g))).
Proof. exact PropUIP.UI_terms_split. Qed.

(* the graded automaton evaluated at t (weight * t^degree on every edge) IS the evaluated U_I graph *)
Theorem T11_UI_graded_eval : forall t g, geval t (ui_graph g) = ui_eval t g.
Proof. exact PropUICheckP.geval_ui_graph. Qed.

(* the entry-wise comparison of W grids used by the checker (per site the same function
   (keyL, keyR, operator) -> total coefficient; parallel edges add up, zero entries do not count) is sound
   for the operator, from every start state k to every final state kf, for graphs of any length *)
Theorem T11_UI_grid_sound : forall g h, grid_fun_eqb g h = true ->
  forall kf i k, peq (ending kf (paths g i k)) (ending kf (paths h i k)).
Proof. exact PropUICheckP.grid_fun_sound. Qed.

(* every case the stream accepts: the operator of the implementation's U_I (paths IdL ->* IdL through its
   W grid) is the Taylor polynomial sum_d dt^d * ui_den d (graph of H); the proof uses only the entry-wise
   W grid comparison of the checker *)
Theorem T11_UI_check_sound : forall c, check_UI_grid c = true ->
  peq (denote_to IdL (ui_case_U c)) (ui_taylor (ui_t c) (ui_case_H c)).
Proof.
  intros c H. eapply peq_trans; [apply PropUICheckP.check_UI_grid_denote, H|apply PropUIP.UI_eval].
Qed.

(* ... and equals 1 + dt H + (orders 2 .. L) when the W grid of H is in standard sum form *)
Theorem T11_UI_check_first_order : forall c, check_UI_grid c = true -> std_form (ui_case_H c) = true ->
  peq (denote_to IdL (ui_case_U c))
      ((c1, []) :: pscale (ui_t c) (denote (ui_case_H c)) ++
       flat_map (fun d => pscale (cpow (ui_t c) d) (ui_den d (ui_case_H c)))
                (seq 2 (length (ui_case_H c) - 1))).
Proof.
  intros c H Hs. eapply peq_trans; [apply PropUICheckP.check_UI_grid_denote, H|apply PropUIP.UI_first_order, Hs].
Qed.

(* non-vacuity: an accepted case in standard sum form; a wrong coefficient / a wrong IdL index is rejected *)
Example T11_ex_UI_check :
  check_UI_grid PropUICheckP.uic_ex = true /\ std_form (ui_case_H PropUICheckP.uic_ex) = true /\
  normalize (denote (ui_case_H PropUICheckP.uic_ex)) =
    [((3, 0), [(0%nat, 1)]); ((2, 1), [(0%nat, 2); (1%nat, 3)])] /\
  normalize (denote_to IdL (ui_case_U PropUICheckP.uic_ex)) =
    [((1, 0), []); ((3, 3), [(0%nat, 1)]); ((1, 3), [(0%nat, 2); (1%nat, 3)])].
Proof. vm_compute. repeat split; reflexivity. Qed.
Example T11_ex_UI_check_rejects :
  check_UI_grid PropUICheckP.uic_ex_bad1 = false /\ check_UI_grid PropUICheckP.uic_ex_bad2 = false.
Proof. vm_compute. split; reflexivity. Qed.
Example T11_ex_UI_grid_fun :
  grid_fun_eqb [[mkE IdL IdL 0 (1, 0); mkE IdL IdL 0 (2, 1); mkE IdL (Oth 1) 4 (0, 0)]]
               [[mkE IdL IdL 0 (3, 1)]] = true /\
  grid_fun_eqb [[mkE IdL IdL 0 (1, 0)]] [[mkE IdL IdL 0 (3, 1)]] = false.
Proof. vm_compute. split; reflexivity. Qed.

Example T11_ex_UI_std : std_form PropUIP.ui_ex_g = true /\ std_form PropUIP.ui_ex_g3 = true /\ PropUIP.ui_ex_g <> [].
Proof. exact PropUIP.ui_ex_std. Qed.
Example T11_ex_UI_order0 : ui_den 0 PropUIP.ui_ex_g = [(c1, [])] /\ ui_den 0 PropUIP.ui_ex_g3 = [(c1, [])].
Proof. exact PropUIP.ui_ex_order0. Qed.
Example T11_ex_UI_eval :
  peqb (denote_to IdL (ui_eval (2, 1) PropUIP.ui_ex_g)) (ui_taylor (2, 1) PropUIP.ui_ex_g) = true /\
  check_UI ((2, 1), PropUIP.ui_ex_g, ui_eval (2, 1) PropUIP.ui_ex_g) = true /\
  normalize (denote_to IdL (ui_eval (2, 1) PropUIP.ui_ex_g3)) =
    [((1, 0), []); ((4, 7), [(0%nat, 5); (2%nat, 6)]); ((14, 7), [(1%nat, 4)]);
     ((2, 1), [(1%nat, 5); (2%nat, 6)])].
Proof. exact PropUIP.ui_ex_eval. Qed.
(* the hypothesis std_form is needed *)
Example T11_ex_UI_nonstd :
  std_form PropUIP.ui_ex_bad = false /\ peqb (ui_den 0 PropUIP.ui_ex_bad) [(c1, [])] = false.
Proof. exact PropUIP.ui_ex_nonstd. Qed.

Print Assumptions T11_dagger.
Print Assumptions T11_scale_first.
Print Assumptions T11_add.
Print Assumptions T11_plus_identity.
Print Assumptions T11_peqb_complete.
Print Assumptions T11_UI_order0.
Print Assumptions T11_UI_order1.
Print Assumptions T11_UI_eval.
Print Assumptions T11_UI_first_order.
Print Assumptions T11_UI_order2.
Print Assumptions T11_UI_terms_split.
Print Assumptions T11_UI_graded_eval.
Print Assumptions T11_UI_grid_sound.
Print Assumptions T11_UI_check_sound.
Print Assumptions T11_UI_check_first_order.
