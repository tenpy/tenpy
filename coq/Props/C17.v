(* Property C17: saving and loading reproduces an equal object. *)
From TenpyV Require Import Base.Prelude Model.Heap Proofs.HeapP Proofs.HeapP2 Model.LegFormats Proofs.LegFormatsP.
From TenpyV Require Import Model.StateSpec Gen.G_states Proofs.StatesP.
From TenpyV Require Model.Pipe.
From TenpyV Require Import Model.PipeReinit Proofs.PipeReinitP.
From Coq Require Import String.
Close Scope Z_scope.
Open Scope nat_scope.

(* a memoised depth-first copy (early = memo before the children, late = after, any choice per node) of ANY heap -
   shared nodes, cycles - is isomorphic to a part of it that contains the root and all it reaches: a bijection of ids
   onto the new heap that preserves kinds, leaf values, classes, attribute names and the order of children (`iso` does
   not say that ONLY reachable nodes are in its domain) *)
Theorem T17_copy_iso : forall late fuel h r h' r',
  copy late fuel h r = Some (h', r') -> exists m, iso m h r h' r'.
Proof. exact copy_iso. Qed.

(* save (everything early) followed by load (tuples late): the loaded heap is isomorphic to the saved one, whenever
   both traversals return (fuel only bounds the recursion depth) *)
Theorem T17_roundtrip_iso : forall f1 f2 h r h2 r2,
  roundtrip f1 f2 h r = Some (h2, r2) -> exists m, iso m h r h2 r2.
Proof. exact roundtrip_iso. Qed.

(* hence: two references denote the same object after loading iff they did before saving *)
Theorem T17_identity_preserved : forall m h r h' r' x y x' y',
  iso m h r h' r' -> m x = Some x' -> m y = Some y' -> (x = y <-> x' = y').
Proof. exact iso_identity. Qed.

(* saving never runs out of fuel = number of nodes + 1, on every closed heap (cycles included) *)
Theorem T17_save_total : forall h r, closed h -> r < List.length h ->
  exists h1 r1, save (S (List.length h)) h r = Some (h1, r1).
Proof. exact save_total. Qed.

(* loading is total.  A late node (tuple: memoised AFTER its children) that is not in the memo yet is entered again
   when a cycle leads back to it, so nodes + 1 is not enough fuel (T17_load_reentry below).  On every closed heap in
   which no tuple lies on a reference cycle consisting of tuples only (late_reach x x; python cannot build such a
   tuple - a cycle has to pass through a list, dict, set or instance) fuel = (nodes + 1)^2 suffices. *)
Theorem T17_load_total : forall h r, closed h -> no_late_cycle is_tuple h -> r < List.length h ->
  exists h1 r1, load (S (List.length h) * S (List.length h)) h r = Some (h1, r1).
Proof. exact load_total. Qed.

(* the same for any choice of late nodes (pickle's and deepcopy's reductions) *)
Theorem T17_copy_total : forall late h, closed h -> no_late_cycle late h -> forall r, r < List.length h ->
  exists h1 r1, copy late (S (List.length h) * S (List.length h)) h r = Some (h1, r1).
Proof. intros late h Hc Ha. exact (copy_total late h _ Hc Ha (le_n _)). Qed.

(* total correctness of the model round trip: on every closed heap without a tuple-only cycle save-then-load returns,
   and what it returns is isomorphic (in the sense of T17_copy_iso) to the original *)
Theorem T17_roundtrip_total : forall h r, closed h -> no_late_cycle is_tuple h -> r < List.length h ->
  exists h2 r2 m, roundtrip (S (List.length h)) (S (List.length h) * S (List.length h)) h r = Some (h2, r2) /\
                  iso m h r h2 r2.
Proof.
  intros h r Hc Ha Hr. apply roundtrip_total_from_load; [exact Hc|exact Hr|]. intros m1 h1 r1 I1 Hc1 Hr1 Hle.
  apply copy_total; [exact Hc1|exact (iso_no_late_cycle _ _ _ _ _ I1 _ (node_rel_tuple m1) Ha)|apply Nat.mul_le_mono; lia|exact Hr1].
Qed.

(* Model/Heap.v:check_case calls roundtrip (S (length h)) (S (length h) * S (length h)): exactly the fuel of
   T17_roundtrip_total above, so a `None` of the model in the correspondence stream is never an artefact of the
   fuel.  For tuples whose elements are not tuples (late_flat) already the linear fuel 2 * length h + 2 suffices;
   for nested tuples on cycles it can be too small (Example T17_linear_fuel_not_general). *)
Theorem T17_roundtrip_total_flat_tuples : forall h r, closed h -> late_flat is_tuple h -> r < List.length h ->
  exists h2 r2 m, roundtrip (S (List.length h)) (2 * List.length h + 2) h r = Some (h2, r2) /\ iso m h r h2 r2.
Proof.
  intros h r Hc Hf Hr. apply roundtrip_total_from_load; [exact Hc|exact Hr|]. intros m1 h1 r1 I1 Hc1 Hr1 Hle.
  apply copy_total_flat; [exact Hc1|exact (iso_late_flat _ _ _ _ _ I1 _ (node_rel_tuple m1) Hf)|lia|exact Hr1].
Qed.

(* LegCharge encodings, any number of blocks / charges *)
Theorem T17_legcharge_formats :
  (forall l, leg_wf l -> from_compact (to_compact l) = l) /\
  (forall l, from_blocks (to_blocks l) = l) /\
  (forall srt bun l,
     to_qflat (from_flat srt bun (to_flat l)) = to_qflat l /\
     l_qconj (from_flat srt bun (to_flat l)) = l_qconj l /\
     l_ind_len (from_flat srt bun (to_flat l)) = l_ind_len l /\
     block_number (from_flat srt bun (to_flat l)) = List.length (to_qflat l)).
Proof. exact (conj compact_roundtrip (conj blocks_roundtrip flat_roundtrip)). Qed.

(* LegPipe through HDF5 (formats blocks/compact; Model/PipeReinit.v says at its head what is saved and how the model is
   tied to the code).  from_hdf5 re-initialises, `cls(legs, qconj, sorted, bunched)`, i.e. re-runs the construction
   Model/Pipe.v:pipe_init with the saved attributes.  For EVERY constructor call a = (chinfo, legs, qconj, sort, bunch),
   any number of legs/blocks/charges: the re-initialised object EQUALS the constructed one - legs, qconj, charges,
   slices, q_map, q_map_slices, the block tuples in processing order and the flags sorted/bunched - and saving it
   again gives the same saved fields.  This needs: the saved flag sorted = sort or (qnumber == 0) as `sort` argument
   gives the same pipe; for single-block legs (the fast path of __init__, which sets sorted = bunched = True) the pipe
   does not depend on sort/bunch.  That from_hdf5 reads exactly legs, qconj, sorted, bunched and that save_hdf5 writes
   them is in addition the LegPipe entry of the regenerated hdf5_table of T17_state_orders.  Format flat is outside
   (recorded defect F17.1: the loader fails). *)
Theorem T17_legpipe_reinit : forall a : pipe_args,
  let o := pipe_construct a in
  let o' := pipe_load (pipe_save a) in
  o' = o /\
  (Pipe.p_legs (po_pipe o') = a_legs a /\ Pipe.p_qconj (po_pipe o') = a_qconj a /\
   po_charges o' = po_charges o /\ po_slices o' = po_slices o /\ po_qmap o' = po_qmap o /\
   po_qmap_slices o' = po_qmap_slices o /\ po_sorted o' = po_sorted o /\ po_bunched o' = po_bunched o) /\
  pipe_save (mkPipeArgs (s_chinfo (pipe_save a)) (s_legs (pipe_save a)) (s_qconj (pipe_save a))
                        (s_sorted (pipe_save a)) (s_bunched (pipe_save a))) = pipe_save a.
Proof. exact pipe_reinit. Qed.

(* the saved fields determine the pipe: two constructor calls that save the same fields build equal pipes *)
Theorem T17_legpipe_saved_determines : forall a a', pipe_save a = pipe_save a' -> pipe_construct a = pipe_construct a'.
Proof.
  intros a a' H. destruct (pipe_reinit a) as [E _]. destruct (pipe_reinit a') as [E' _]. cbv zeta in *.
  rewrite <- E, <- E', H. reflexivity.
Qed.

(* passing the two flags in the wrong order, cls(legs, qconj, bunched, sorted) (pipe_load_swapped), is invisible when
   they are equal (pipe_swap_equal) but NOT in general: for the U(1) pipe reinit_ex (2 x 3 incoming blocks, built with
   sort=True, bunch=False) the saved flags are sorted=True, bunched=False and the swapped re-initialisation has other
   charges, slices, q_map and q_map_slices than the saved pipe, while the correct one reproduces it *)
Theorem T17_legpipe_reinit_swap_differs : exists a,
  let s := pipe_save a in
  s_sorted s = true /\ s_bunched s = false /\
  po_charges (pipe_load_swapped s) <> po_charges (pipe_load s) /\
  po_slices (pipe_load_swapped s) <> po_slices (pipe_load s) /\
  po_qmap (pipe_load_swapped s) <> po_qmap (pipe_load s) /\
  po_qmap_slices (pipe_load_swapped s) <> po_qmap_slices (pipe_load s) /\
  pipe_load s = pipe_construct a.
Proof. exact pipe_reinit_swap_differs. Qed.

(* tie T: the tables regenerated from charges.py / np_conserved.py *)
Theorem T17_state_orders :
  (forall c produced consumed, In (c, produced, consumed) state_table -> produced = consumed) /\
  (forall c f written read, In (c, f, written, read) hdf5_table ->
     pair_mem c f known_subset_exceptions = false ->
     forall x, In x read -> In x written) /\
  (forall c m given expected, In (c, m, given, expected) setstate_calls ->
     pair_mem c m known_arity_exceptions = false -> given = expected).
Proof. exact (tables_ok_spec _ _ _ tables_hold). Qed.

(* the classes the property names occur in the regenerated table: T17_state_orders is not vacuous for them *)
Theorem T17_state_classes_present :
  forallb (fun c => has_class c state_table)
          ["ChargeInfo"; "DipolarChargeInfo"; "LegCharge"; "LegPipe"; "Array"]%string = true.
Proof. vm_compute. reflexivity. Qed.

(* non-vacuity: a heap with a shared list, a cycle through a list and a dict, a tuple, an instance pointing back *)
Example T17_example_heap :
  let h := [NList [1; 2; 1; 0]%nat;            (* 0: list containing itself and node 1 twice *)
            NTuple [3; 3]%nat;                 (* 1: tuple sharing a leaf-holding list *)
            NDict [(4, 0); (5, 6)]%nat;        (* 2: dict: key 4 -> the root, key 5 -> instance *)
            NList [7]%nat; Leaf 10%Z; Leaf 11%Z;
            NObj 1%Z [(2%Z, 0%nat); (3%Z, 1%nat)]; Leaf 12%Z] in
  closed h /\ check_case (h, 0%nat, h, 0%nat) = false /\
  (exists h2 r2, roundtrip 9 18 h 0 = Some (h2, r2) /\ canon h2 r2 = canon h 0).
Proof.
  split.
  - apply closed_sound. reflexivity.
  - split; [vm_compute; reflexivity|]. vm_compute. eexists. eexists. split; reflexivity.
Qed.

(* the heap of T17_example_heap has flat tuples: T17_roundtrip_total_flat_tuples applies to it *)
Example T17_example_flat :
  late_flat is_tuple [NList [1; 2; 1; 0]; NTuple [3; 3]; NDict [(4, 0); (5, 6)]; NList [7]; Leaf 10%Z; Leaf 11%Z;
                      NObj 1%Z [(2%Z, 0); (3%Z, 1)]; Leaf 12%Z].
Proof.
  apply late_flat_sound. reflexivity.
Qed.

(* nested tuples on cycles through lists (T0 = (T1,), T1 = (L2, L3), L2 = [T0], L3 = [T0, 7]): the hypotheses of
   T17_load_total hold, the tuples are re-entered while they are being loaded - nodes + 1 is not enough fuel -, and
   the loaded heap has the canonical form of the original *)
Example T17_load_reentry :
  closed ex_reentry /\ no_late_cycle is_tuple ex_reentry /\ ~ late_flat is_tuple ex_reentry /\
  load (S (List.length ex_reentry)) ex_reentry 0 = None /\
  exists h1, load (S (List.length ex_reentry) * S (List.length ex_reentry)) ex_reentry 0 = Some (h1, 3) /\
             canon h1 3 = canon ex_reentry 0.
Proof. exact ex_reentry_ok. Qed.

(* ... and the linear fuel 2 * nodes + 2 of T17_roundtrip_total_flat_tuples is not enough for every heap with NESTED
   tuples on cycles *)
Example T17_linear_fuel_not_general :
  closed ex_deep /\ no_late_cycle is_tuple ex_deep /\
  load (2 * List.length ex_deep + 2) ex_deep 0 = None /\
  exists h1 r1, load (S (List.length ex_deep) * S (List.length ex_deep)) ex_deep 0 = Some (h1, r1).
Proof. exact ex_deep_ok. Qed.

Example T17_example_leg :
  let l := mkLeg 5%Z 1%Z [0; 2; 3; 5]%Z [[1; 0]; [-1; 1]; [0; 0]]%Z true false in
  leg_wf l /\ to_compact l = mkCompact 5%Z 1%Z 3 true false [[0; 2; 1; 0]; [2; 3; -1; 1]; [3; 5; 0; 0]]%Z /\
  to_qflat l = [[1; 0]; [1; 0]; [-1; 1]; [0; 0]; [0; 0]]%Z.
Proof. split; [split; [reflexivity|discriminate]|split; vm_compute; reflexivity]. Qed.

(* LegPipe re-initialisation, concrete: the U(1) pipe reinit_ex saved with sorted=True, bunched=False (q_map rows
   [b_j, b_{j+1}, I_s, i_1, i_2]); legs with one block each built with sort=bunch=False are saved with both flags True
   (fast path); without charges sort=False is saved as sorted=True *)
Example T17_example_legpipe :
  let s := pipe_save reinit_ex in
  (s_sorted s, s_bunched s) = (true, false) /\
  po_charges (pipe_load s) = [[0]; [0]; [1]; [1]; [1]; [2]]%Z /\
  po_charges (pipe_load_swapped s) = [[1]; [2]; [0]; [1]]%Z /\
  po_slices (pipe_load s) = [0; 2; 4; 5; 6; 10; 12]%Z /\
  po_qmap (pipe_load s) = [[0; 2; 0; 1; 0]; [0; 2; 1; 1; 1]; [0; 1; 2; 0; 0]; [0; 1; 3; 0; 1]; [0; 4; 4; 1; 2]; [0; 2; 5; 0; 2]]%Z /\
  po_qmap (pipe_load_swapped s) = [[0; 1; 0; 0; 0]; [1; 2; 0; 0; 1]; [0; 2; 1; 0; 2]; [0; 2; 2; 1; 0]; [2; 4; 2; 1; 1]; [0; 4; 3; 1; 2]]%Z /\
  po_qmap_slices (pipe_load s) = [0; 1; 2; 3; 4; 5; 6]%Z /\ po_qmap_slices (pipe_load_swapped s) = [0; 2; 3; 5; 6]%Z /\
  (a_sort reinit_ex_single, a_bunch reinit_ex_single) = (false, false) /\
  (s_sorted (pipe_save reinit_ex_single), s_bunched (pipe_save reinit_ex_single)) = (true, true) /\
  po_qmap (pipe_load (pipe_save reinit_ex_single)) = [[0; 6; 0; 0; 0]]%Z /\
  a_sort reinit_ex_q0 = false /\ s_sorted (pipe_save reinit_ex_q0) = true /\
  po_qmap (pipe_load (pipe_save reinit_ex_q0)) = [[0; 6; 0; 0; 0]; [6; 9; 0; 1; 0]]%Z.
Proof. vm_compute. repeat split. Qed.

Print Assumptions T17_copy_iso.
Print Assumptions T17_roundtrip_iso.
Print Assumptions T17_identity_preserved.
Print Assumptions T17_save_total.
Print Assumptions T17_load_total.
Print Assumptions T17_copy_total.
Print Assumptions T17_roundtrip_total.
Print Assumptions T17_roundtrip_total_flat_tuples.
Print Assumptions T17_legcharge_formats.
Print Assumptions T17_state_orders.
Print Assumptions T17_state_classes_present.
Print Assumptions T17_legpipe_reinit.
Print Assumptions T17_legpipe_saved_determines.
Print Assumptions T17_legpipe_reinit_swap_differs.
