(* Property C06: leg fusion is a lossless, consistently ordered bijection. *)
From TenpyV Require Import Base.Prelude Model.ChargeL Model.Leg Model.Pipe Model.PipeMaps Model.PipeOps
  Proofs.LegP Proofs.PipeP Proofs.PipeP2 Proofs.PipeP3 Proofs.PipeOpsP.
Open Scope Z_scope.

(* map_incoming_flat is a bijection between the index tuples prod_l [0, ind_len_l) and [0, prod_l ind_len_l),
   with the explicit inverse map_outgoing_flat *)
Theorem T06_flat_bijection : forall ci legs qconj srt bun, legs_ok legs ->
  let p := pipe_init ci legs qconj srt bun in
  let N := prodZ (map ind_len legs) in
  (forall t, idx_ok legs t -> exists k, map_incoming_flat p t = Some k /\ 0 <= k < N /\ map_outgoing_flat p k = Some t) /\
  (forall k, 0 <= k < N -> exists t, map_outgoing_flat p k = Some t /\ idx_ok legs t /\ map_incoming_flat p t = Some k).
Proof.
  intros ci legs qconj srt bun H p N. split; [apply incoming_then_outgoing, H|apply outgoing_then_incoming, H].
Qed.

(* the outgoing block that q_map assigns to an index tuple carries make_valid(qconj * sum_l qconj_l * charge_l(i_l)) *)
Theorem T06_fusion_rule : forall ci legs qconj srt bun t, legs_ok legs -> idx_ok legs t ->
  let p := pipe_init ci legs qconj srt bun in
  exists qs ws I, split_indices legs t = Some (qs, ws) /\ block_of p t = Some I /\
    nth I (map snd (p_blocks p)) [] = make_valid ci (vscale qconj (vsum (length ci) (tuple_charges legs qs))).
Proof. exact fusion_rule. Qed.

(* layout of q_map: row j = [b_j, b_{j+1}, I_s, i_1..i_n] with b_{j+1} - b_j = size of the incoming block tuple, the slice lies
   inside the outgoing block I_s, one row per (sorted) block tuple *)
Theorem T06_qmap_shape : forall ci legs qconj srt bun j, legs_ok legs ->
  let p := pipe_init ci legs qconj srt bun in
  (j < length (p_rows p))%nat ->
  let qr := nth j (p_qmap p) (mkQ 0 0 O []) in
  let osz := map fst (p_blocks p) in
  0 <= q_b0 qr /\ q_b1 qr = q_b0 qr + r_sz (nth j (p_rows p) row0) /\
  offs osz (q_Is qr) + q_b1 qr <= offs osz (S (q_Is qr)) /\ q_q qr = r_q (nth j (p_rows p) row0) /\
  length (p_qmap p) = length (p_rows p).
Proof. exact qmap_shape. Qed.

(* gap-free, disjoint tiling: for every outgoing block I, the slices q_map[:, 0:2] of the rows with I_s = I (there is at
   least one), in q_map order, run from 0 to the size of block I, every stop the next start (`tiles`).  These rows are
   the I-th group of block tuples with the running offsets inside the group, and q_map is the concatenation of the groups *)
Theorem T06_qmap_tiling : forall ci legs qconj srt bun I, legs_ok legs ->
  let p := pipe_init ci legs qconj srt bun in
  (I < length (p_blocks p))%nat ->
  let rowsI := qmap_rows_of p I in
  rowsI <> [] /\
  tiles 0 (map qslice rowsI) (fst (nth I (p_blocks p) (0, []))) /\
  Sorted Z.le (map q_b0 rowsI) /\
  rowsI = qm_group I (nth I (group_rows bun (p_rows p)) []) /\
  p_qmap p = qm_blocks 0 (group_rows bun (p_rows p)).
Proof. exact qmap_tiling. Qed.

(* q_map_slices: q_map[q_map_slices[I] : q_map_slices[I+1]] are exactly the rows with I_s = I (non-empty range) *)
Theorem T06_qmap_slices : forall ci legs qconj srt bun I,
  let p := pipe_init ci legs qconj srt bun in
  (I < length (p_blocks p))%nat ->
  let a := nth I (p_qmap_slices p) 0 in
  let b := nth (S I) (p_qmap_slices p) 0 in
  0 <= a < b /\ b <= Z.of_nat (length (p_qmap p)) /\
  qmap_rows_of p I = firstn (Z.to_nat (b - a)) (skipn (Z.to_nat a) (p_qmap p)) /\
  length (p_qmap_slices p) = S (length (p_blocks p)).
Proof. exact qmap_slices_rows. Qed.

(* the ordering clause of the LegPipe docstring ("The rows of q_map are lex-sorted first by I_s, then the i"); the order
   of the i is strict, first leg most significant *)
Theorem T06_qmap_rows_lexsorted : forall ci legs qconj srt bun,
  let p := pipe_init ci legs qconj srt bun in
  (forall i j, (i < j)%nat -> (j < length (p_qmap p))%nat ->
     let qi := nth i (p_qmap p) (mkQ 0 0 O []) in
     let qj := nth j (p_qmap p) (mkQ 0 0 O []) in
     (q_Is qi <= q_Is qj)%nat /\ (q_Is qi = q_Is qj -> lex_lt (q_q qi) (q_q qj))) /\
  (forall I, StronglySorted lex_lt (map q_q (qmap_rows_of p I))).
Proof. exact qmap_rows_lexsorted. Qed.

(* combine_legs / split_legs at the level of index maps: a dense tensor is a function of its index, f of the incoming
   index tuple, g of the outgoing flat index.  That Array.combine_legs / split_legs move the entries of the block-sparse
   tensor according to these index maps is checked by the dense oracle, not proved *)
Theorem T06_split_combine : forall ci legs qconj srt bun, legs_ok legs ->
  let p := pipe_init ci legs qconj srt bun in
  let N := prodZ (map ind_len legs) in
  (forall (f : list Z -> Z) t, idx_ok legs t -> split_fn p (combine_fn p f) t = f t) /\
  (forall (g : Z -> Z) k, 0 <= k < N -> combine_fn p (split_fn p g) k = g k) /\
  (forall (f : list Z -> Z) t, idx_ok legs t ->
     exists k, map_incoming_flat p t = Some k /\ 0 <= k < N /\ combine_fn p f k = f t) /\
  (forall (g : Z -> Z) k, 0 <= k < N ->
     exists t, map_outgoing_flat p k = Some t /\ idx_ok legs t /\ split_fn p g t = g k).
Proof. exact split_combine_fn. Qed.

(* with sort=True (and at least one charge) the rows are ordered by the np.lexsort key of their fused charge *)
Theorem T06_pipe_sorted : forall ci legs qconj, ci <> [] -> Sorted rle (pipe_rows ci legs qconj true).
Proof. exact pipe_rows_sorted. Qed.

(* get_qindex inverts the slices on [-ind_len, ind_len) and is an error outside *)
Theorem T06_get_qindex : forall l i, nonneg (bsz l) ->
  (- ind_len l <= i < ind_len l ->
     exists q w, get_qindex l i = Some (q, w) /\ (q < nblocks l)%nat /\ 0 <= w < fst (blk l q) /\
                 (if i <? 0 then i + ind_len l else i) = offs (bsz l) q + w) /\
  (i < - ind_len l \/ ind_len l <= i -> get_qindex l i = None).
Proof. exact get_qindex_spec. Qed.

Theorem T06_get_qindex_inverse : forall l q w, nonneg (bsz l) -> (q < nblocks l)%nat -> 0 <= w < fst (blk l q) ->
  get_qindex l (offs (bsz l) q + w) = Some (q, w) /\ 0 <= offs (bsz l) q + w < ind_len l.
Proof. exact get_qindex_inverse. Qed.

(* sort (bunch on or off): perm_qind is a permutation of the block numbers, the blocks are the old ones in that order
   (bunched if requested) and lexsorted; in flat-index form qflat(sorted) = qflat(leg)[perm_flat_from_perm_qind(perm_qind)],
   a permutation of the flat indices: every index keeps its charge.  That the sort keeps blocks of equal charge in their
   order (np.lexsort is stable) is not stated: stability is proved for the sort of a pipe's rows only (PipeP.rsort_stable) *)
Theorem T06_sort : forall l bun, nonneg (bsz l) ->
  let s := ssort (combine (seq 0 (nblocks l)) (blocks l)) in
  let perm := fst (sort_leg bun l) in
  let sorted := snd (sort_leg bun l) in
  perm = map fst s /\
  Permutation perm (seq 0 (nblocks l)) /\
  map snd s = map (blk l) perm /\
  Sorted kle s /\
  blocks sorted = (if bun then bunch_blocks (map (blk l) perm) else map (blk l) perm) /\
  qc sorted = qc l /\
  qflat sorted = take_flat [] (qflat l) (perm_flat l perm) /\
  Permutation (perm_flat l perm) (zrange 0 (Z.to_nat (ind_len l))) /\
  ind_len sorted = ind_len l.
Proof. exact sort_full. Qed.

(* perm_flat_from_perm_qind for ANY list of block numbers: the blocks taken in that order carry the charges found
   at the flat indices perm_flat *)
Theorem T06_perm_flat : forall l perm, nonneg (bsz l) ->
  qflat_blocks (map (blk l) perm) = take_flat [] (qflat l) (perm_flat l perm).
Proof. exact perm_flat_take. Qed.

(* bunch: the charge of every index is unchanged, no two neighbouring blocks of the result have equal charge *)
Theorem T06_bunch : forall bs, nonneg (map fst bs) ->
  qflat_blocks (bunch_blocks bs) = qflat_blocks bs /\ adj_distinct (bunch_blocks bs) = true.
Proof. intros bs H. exact (conj (bunch_qflat bs H) (bunch_distinct bs)). Qed.

(* project: the surviving indices keep their charges *)
Theorem T06_project : forall l mask, qflat (snd (project_leg l mask)) = select mask (qflat l).
Proof. intros l mask. exact (project_qflat (blocks l) mask). Qed.

(* flip_charges_qconj: same slices, opposite direction, the same physical charges: test_equal holds *)
Theorem T06_flip_charges_qconj : forall ci l,
  leg_equal ci l (flip_leg ci l) = true /\ bsz (flip_leg ci l) = bsz l /\ qc (flip_leg ci l) = - qc l.
Proof. intros ci l. exact (conj (flip_equal ci l) (flip_bsz_qc ci l)). Qed.

Theorem T06_conj_contractible : forall ci l, contractible ci l (conj_leg l) = true.
Proof. exact conj_contractible. Qed.

(* flip_charges_qconj applied to a LegPipe (the method is inherited from LegCharge; LegPipe.outer_conj has the same
   discrete content): a pipe over the SAME incoming legs, with the opposite direction of the outgoing leg and negated
   outgoing charges; q_map, q_map_slices, the block sizes and map_incoming_flat are those of the original pipe, and the
   pipe contract holds for the new direction, make_valid(-qconj * sum_l qconj_l * charge_l(i_l)).  (A flip that also
   conjugated the incoming legs, as LegPipe.conj does, would need +qconj here.) *)
Theorem T06_flip_pipe : forall ci legs qconj srt bun t, legs_ok legs -> idx_ok legs t ->
  let p := pipe_init ci legs qconj srt bun in
  let f := flip_pipe ci p in
  p_legs f = legs /\ p_qconj f = - qconj /\ p_qmap f = p_qmap p /\ p_qmap_slices f = p_qmap_slices p /\
  map fst (p_blocks f) = map fst (p_blocks p) /\
  leg_equal ci (pipe_leg p) (pipe_leg f) = true /\
  map_incoming_flat f t = map_incoming_flat p t /\
  exists qs ws I, split_indices legs t = Some (qs, ws) /\ block_of f t = Some I /\
    nth I (map snd (p_blocks f)) [] = make_valid ci (vscale (- qconj) (vsum (length ci) (tuple_charges legs qs))).
Proof. exact flip_pipe_spec. Qed.

(* non-vacuity: a pipe of two legs (a block of size 0, equal fused charges from different tuples, Z_3 x U(1)) *)
Definition ex_legs : list leg :=
  [mkLeg [(1, [0; 1]); (2, [1; 0]); (0, [0; 1])] 1; mkLeg [(2, [2; 1]); (1, [1; 0])] (-1)].
Example T06_example_hyp : legs_ok ex_legs /\ idx_ok ex_legs [2; 1].
Proof. split; repeat constructor; cbn; lia. Qed.
Example T06_example :
  let p := pipe_init [3; 1] ex_legs (-1) true true in
  map (map_incoming_flat p) (zgrid [3; 3]) = map Some [3; 4; 0; 5; 6; 1; 7; 8; 2]
  /\ map_outgoing_flat p 6 = Some [1; 1] /\ map snd (p_blocks p) = [[1; -1]; [0; 0]; [2; 0]; [1; 1]].
Proof. vm_compute. repeat split. Qed.

(* block 0 contains an empty slice [1, 1) *)
Example T06_example_tiling :
  let p := pipe_init [3; 1] ex_legs (-1) true true in
  map fst (p_blocks p) = [1; 2; 2; 4] /\ p_qmap_slices p = [0; 2; 3; 5; 6] /\
  map (fun I => map qslice (qmap_rows_of p I)) (seq 0 4) = [[(0, 1); (1, 1)]; [(0, 2)]; [(0, 2); (2, 2)]; [(0, 4)]].
Proof. vm_compute. repeat split. Qed.

(* rows of equal I_s: a Z_2 pipe of three legs (2 x 3 x 2 blocks) has two outgoing blocks with six rows each, in
   lexicographic order of the block tuples, which is NOT the grid order of q_map as a whole (the sort by charge
   interleaves the grid) *)
Definition ex_legs3 : list leg :=
  [mkLeg [(1, [0]); (1, [1])] 1; mkLeg [(1, [0]); (2, [1]); (1, [0])] 1; mkLeg [(1, [1]); (1, [0])] 1].
Example T06_example_rows_lexsorted :
  map (fun I => map q_q (qmap_rows_of (pipe_init [3; 1] ex_legs (-1) true true) I)) (seq 0 4) =
    [[[0; 1]; [2; 1]]; [[1; 1]]; [[0; 0]; [2; 0]]; [[1; 0]]]%nat /\
  map (fun r => (q_Is r, q_q r)) (p_qmap (pipe_init [2] ex_legs3 1 true true)) =
    [(0, [0; 0; 1]); (0, [0; 1; 0]); (0, [0; 2; 1]); (0, [1; 0; 0]); (0, [1; 1; 1]); (0, [1; 2; 0]);
     (1, [0; 0; 0]); (1, [0; 1; 1]); (1, [0; 2; 0]); (1, [1; 0; 1]); (1, [1; 1; 0]); (1, [1; 2; 1])]%nat /\
  lex_lt [0; 2; 1]%nat [1; 0; 0]%nat /\ ~ lex_lt [1; 0; 0]%nat [0; 2; 1]%nat.
Proof. split; [|split]; [vm_compute; reflexivity ..|]. split; [apply lex_ltb_spec; reflexivity|].
  intros H. apply lex_ltb_spec in H. discriminate. Qed.

Definition ex_f (t : list Z) : Z := 10 * nth 0 t 0 + nth 1 t 0.
Example T06_example_split_combine :
  let p := pipe_init [3; 1] ex_legs (-1) true true in
  map (combine_fn p ex_f) (zrange 0 9) = [2; 12; 22; 0; 1; 10; 11; 20; 21] /\
  map (split_fn p (combine_fn p ex_f)) (zgrid [3; 3]) = map ex_f (zgrid [3; 3]) /\
  map (combine_fn p (split_fn p (fun k => k * k))) (zrange 0 9) = map (fun k => k * k) (zrange 0 9).
Proof. vm_compute. repeat split. Qed.

(* a leg with a block of size 0 and equal charges in non-adjacent blocks *)
Definition ex_leg : leg := mkLeg [(2, [1]); (1, [0]); (0, [2]); (2, [0]); (1, [1])] 1.
Example T06_example_sort :
  nonneg (bsz ex_leg) /\
  sort_leg true ex_leg = ([1; 3; 0; 4; 2]%nat, mkLeg [(3, [0]); (3, [1]); (0, [2])] 1) /\
  perm_flat ex_leg [1; 3; 0; 4; 2]%nat = [2; 3; 4; 0; 1; 5] /\
  qflat ex_leg = [[1]; [1]; [0]; [0]; [0]; [1]] /\
  qflat (snd (sort_leg true ex_leg)) = [[0]; [0]; [0]; [1]; [1]; [1]].
Proof. split; [repeat constructor; cbn; lia|]. vm_compute. repeat split. Qed.

Example T06_example_flip_pipe :
  let p := pipe_init [3; 1] ex_legs (-1) true true in
  let f := flip_pipe [3; 1] p in
  map (map_incoming_flat f) (zgrid [3; 3]) = map Some [3; 4; 0; 5; 6; 1; 7; 8; 2] /\
  map snd (p_blocks f) = [[2; 1]; [0; 0]; [1; 0]; [2; -1]] /\ p_qconj f = 1 /\ p_legs f = ex_legs.
Proof. vm_compute. repeat split. Qed.

Print Assumptions T06_flat_bijection.
Print Assumptions T06_fusion_rule.
Print Assumptions T06_qmap_shape.
Print Assumptions T06_qmap_tiling.
Print Assumptions T06_qmap_slices.
Print Assumptions T06_qmap_rows_lexsorted.
Print Assumptions T06_split_combine.
Print Assumptions T06_pipe_sorted.
Print Assumptions T06_get_qindex.
Print Assumptions T06_get_qindex_inverse.
Print Assumptions T06_sort.
Print Assumptions T06_perm_flat.
Print Assumptions T06_bunch.
Print Assumptions T06_project.
Print Assumptions T06_flip_charges_qconj.
Print Assumptions T06_conj_contractible.
Print Assumptions T06_flip_pipe.
