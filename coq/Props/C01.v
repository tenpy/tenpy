(* Property C01: block-sparse tensor algebra agrees with dense numpy algebra.
   Entries are Gaussian integers (C = Z x Z).
   Models: Tensor.v (storage of np_conserved.Array; to_ndarray = assignment of the stored blocks in storage order, dense_sum = their
   sum), TensorOps.v (transpose, conj, scale, add, outer as the code performs them on _data/_qdata; rows/legs/qtotal of tensordot),
   TensorDot.v (block values of tensordot; np.tensordot as the finite sum d_tensordot), TensorDotFilter.v (charge look-up of
   _tensordot_worker as a filter), TakeSlice.v (take_slice on one axis, as read from the source; correspondence: stream coq2 of
   harness/c02.py), TensorProg.v (programs over these operations, dense interpreter d_run), Labels.v / LabelGrammar.v (label functions,
   nested labels as syntax trees), TensorCheck.v (boolean WF, used by the examples).
   The hypothesis `valid_ci ci` is kept in the statements as the code's precondition; the lemmas the scripts apply hold without it
   (ChargeP.mv1_mod), so the scripts discard it.
   All statements are for every rank, every number and size of charge blocks, every number of charges and every number of stored blocks.
   NOT proved here (checked by the numpy oracle of harness/c01.py only): inner, trace, combine/split_legs,
   general indexing, concatenation, scale_axis, permutations. *)
From TenpyV Require Import Base.Prelude Model.Charge Model.Tensor Model.TensorOps Model.Labels Model.TensorDot Model.LabelGrammar.
From TenpyV Require Import Model.TensorDotFilter Model.TakeSlice.
From TenpyV Require Import Proofs.TensorP Proofs.LabelsP.
From TenpyV Require Import Proofs.TensorP3 Proofs.TensorDotP Proofs.LabelsP2 Proofs.TensorDotFilterP Proofs.TakeSliceP.
From TenpyV Require Import Model.TensorProg Proofs.TensorProgP Proofs.TensorProgEx.
From Coq Require Import Ascii.
Open Scope Z_scope.

(* np.transpose(D, p)[i_p(0), i_p(1), ...] = D[i_0, i_1, ...]  (gather p i = [i_p(0); i_p(1); ...]) *)
Theorem T01_transpose : forall p a idx, Permutation p (seq 0 (rank a)) ->
  to_ndarray (transpose p a) (gather 0%nat p idx) = to_ndarray a idx /\
  dense_sum (transpose p a) (gather 0%nat p idx) = dense_sum a idx.
Proof. exact transpose_dense. Qed.

Theorem T01_conj : forall ci a idx,
  to_ndarray (conj ci a) idx = cconj (to_ndarray a idx) /\ dense_sum (conj ci a) idx = cconj (dense_sum a idx).
Proof. exact conj_dense. Qed.

Theorem T01_scale : forall s a idx,
  to_ndarray (scale s a) idx = cmul s (to_ndarray a idx) /\ dense_sum (scale s a) idx = cmul s (dense_sum a idx).
Proof. exact scale_dense. Qed.

(* with at most one stored block per combination of charge blocks (C02), the assignment semantics of to_ndarray
   is the sum of the embedded blocks *)
Theorem T01_blocks_disjoint : forall a idx, NoDup (rows a) -> rows_shape a -> to_ndarray a idx = dense_sum a idx.
Proof. exact to_ndarray_sum. Qed.

(* a + alpha * b  (iadd_prefactor_other = sorted merge of ibinary_blockwise).  THIS is where C01 needs C02:
   the merge trusts the cached claim _qdata_sorted of both operands (hypotheses WF). *)
Theorem T01_add : forall ci alpha a b idx, WF ci a -> WF ci b -> legs a = legs b -> qtot a = qtot b ->
  to_ndarray (add alpha a b) idx = cadd (to_ndarray a idx) (cmul alpha (to_ndarray b idx)).
Proof. exact add_dense. Qed.

(* ... on the level of sums of blocks the merge is correct for every order of the block lists *)
Theorem T01_add_blocksum : forall alpha a b idx, legs a = legs b ->
  dense_sum (add alpha a b) idx = cadd (dense_sum a idx) (cmul alpha (dense_sum b idx)).
Proof. exact add_dense_sum. Qed.

(* ... and with a false claim the result of the real algorithm is wrong (one block is lost in to_ndarray) *)
Theorem T01_add_needs_truthful_claim :
  (to_ndarray (add (1, 0) bad_claim_example good_claim_example) [0%nat] = (7, 0)) /\
  (cadd (to_ndarray bad_claim_example [0%nat]) (cmul (1, 0) (to_ndarray good_claim_example [0%nat])) = (14, 0)).
Proof. vm_compute. split; reflexivity. Qed.

(* outer: c[i ++ j] = a[i] * b[j] for the ASSIGNMENT semantics of to_ndarray (no block overwrites another one) *)
Theorem T01_outer : forall ci a b idx, WF ci a -> WF ci b -> (rank a <= length idx)%nat ->
  to_ndarray (outer ci a b) idx = cmul (to_ndarray a (firstn (rank a) idx)) (to_ndarray b (skipn (rank a) idx)).
Proof. exact outer_dense. Qed.

(* ... on the level of sums of blocks no well-formedness of b is needed *)
Theorem T01_outer_blocksum : forall ci a b ia ib, rows_shape a -> length ia = rank a ->
  dense_sum (outer ci a b) (ia ++ ib) = cmul (dense_sum a ia) (dense_sum b ib).
Proof. exact outer_dense_sum. Qed.

(* tensordot(a, b, axes=k) over the last k legs of a and the first k legs of b, any ranks, any k:
   the dense form of the block-sparse result (blocks = sums of block matrix products over the pairs of blocks with equal
   contracted qindices) is the finite sum over ALL contracted multi-indices c of  A[ia ++ c] * B[c ++ ib]. *)
Theorem T01_tensordot : forall ci k a b idx, WF ci a -> WF ci b -> (k <= rank a)%nat -> (k <= rank b)%nat ->
  Forall2 (contractible ci) (skipn (rank a - k) (legs a)) (firstn k (legs b)) ->
  (rank a - k <= length idx)%nat ->
  to_ndarray (tensordot ci k a b) idx
  = d_tensordot (to_ndarray a) (to_ndarray b) (map ind_len (skipn (rank a - k) (legs a))) (rank a - k) idx.
Proof. exact tensordot_dense. Qed.

(* ... on the level of sums of blocks only equal block sizes of the contracted legs are needed (no charge rule, any block order,
   duplicate rows allowed) *)
Theorem T01_tensordot_blocksum : forall ci k a b idx,
  rows_shape a -> rows_shape b -> (k <= rank a)%nat -> (k <= rank b)%nat ->
  map bsz (skipn (rank a - k) (legs a)) = map bsz (firstn k (legs b)) ->
  (rank a - k <= length idx)%nat ->
  dense_sum (tensordot ci k a b) idx
  = d_tensordot (dense_sum a) (dense_sum b) (map ind_len (skipn (rank a - k) (legs a))) (rank a - k) idx.
Proof. exact tensordot_dense_sum. Qed.

(* the value model is tied to the correspondence-checked row model of TensorOps.v: one product per row of tdot_rows *)
Theorem T01_tensordot_rows : forall ci k a b,
  map fst (tdot_pairs k a b) = tdot_rows k a b /\
  (forall r, In r (rows (tensordot ci k a b)) <-> In r (tdot_rows k a b)) /\
  legs (tensordot ci k a b) = tdot_legs k a b /\ qtot (tensordot ci k a b) = tdot_qtot ci a b.
Proof.
  intros. split; [apply tdot_pairs_rows|]. split; [intros r; apply tensordot_rows_in|]. split; reflexivity.
Qed.

(* THIS is where tensordot needs C02: _tensordot_worker only computes result blocks whose kept charges are compatible with the
   new total charge (a_lookup_charges / b_charges_match; Model/TensorDotFilter.v drops the other blocks).  For well-formed
   operands (charge rule) nothing is dropped ... *)
Theorem T01_tensordot_charge_lookup : forall ci k a b, valid_ci ci -> WF ci a -> WF ci b -> (k <= rank a)%nat -> (k <= rank b)%nat ->
  Forall2 (contractible ci) (skipn (rank a - k) (legs a)) (firstn k (legs b)) ->
  tensordot_filtered ci k a b = tensordot ci k a b.
Proof. intros ci k a b _. apply tensordot_filter_id. Qed.

(* ... and for an operand violating the charge rule the look-up loses a non-zero entry *)
Theorem T01_tensordot_lookup_needs_charge_rule :
  to_ndarray (tensordot [1] 1 nf_a nf_a) [0%nat; 0%nat] = (1, 0) /\
  to_ndarray (tensordot_filtered [1] 1 nf_a nf_a) [0%nat; 0%nat] = (0, 0).
Proof. vm_compute. split; reflexivity. Qed.

(* take_slice(i, axis) on one axis: the result is well-formed and  res[idx] = a[idx with i inserted at position ax] *)
Theorem T01_take_slice : forall ci ax i a, valid_ci ci -> WF ci a -> (ax < rank a)%nat ->
  (i < ind_len (nth ax (legs a) dleg))%nat ->
  length (nth (get_qindex (nth ax (legs a) dleg) i) (bch (nth ax (legs a) dleg)) []) = length ci ->
  WF ci (take_slice ci ax i a) /\
  (forall idx, (ax <= length idx)%nat -> to_ndarray (take_slice ci ax i a) idx = to_ndarray a (insert_at ax i idx)).
Proof. intros ci ax i a _ W Hax Hi Hch. split; [apply wf_take_slice|intros idx; apply take_slice_dense]; assumption. Qed.

Theorem T01_take_slice_blocksum : forall ci ax i a idx, rows_shape a -> (ax < rank a)%nat ->
  (i < ind_len (nth ax (legs a) dleg))%nat -> (ax <= length idx)%nat ->
  dense_sum (take_slice ci ax i a) idx = dense_sum a (insert_at ax i idx).
Proof. exact take_slice_dense_sum. Qed.

(* Compositions (Model/TensorProg.v).  A program is any finite list of instructions over the operations above and iswapaxes /
   gauge_total_charge, applied to positions of an environment, each result either appended or overwriting an entry.
   d_run interprets the SAME program on dense arrays (shape, function of the multi-index) with the numpy-level definitions only
   (np.transpose, np.conj, *, +, np.multiply.outer, np.tensordot, D[..., i, ...], np.swapaxes, identity for gauge_total_charge); it never
   looks at charges, blocks or flags.
   to_ndarray COMMUTES with running any applicable program from well-formed tensors: every entry of the final (hence of every
   intermediate) environment has the shape and, at every multi-index with one entry per axis, the value of the dense run (deq). *)
Theorem T01_program : forall ci prog e, valid_ci ci -> Forall (WF ci) e -> applicable_prog ci prog e ->
  Forall2 deq (map to_dense (run ci prog e)) (d_run prog (map to_dense e)).
Proof. intros ci prog e _. apply program_dense. Qed.

Theorem T01_program_entry : forall ci prog e x idx, valid_ci ci -> Forall (WF ci) e -> applicable_prog ci prog e ->
  (x < length (run ci prog e))%nat ->
  map ind_len (legs (get (run ci prog e) x)) = fst (dget (d_run prog (map to_dense e)) x) /\
  (length idx = rank (get (run ci prog e) x) ->
   to_ndarray (get (run ci prog e) x) idx = snd (dget (d_run prog (map to_dense e)) x) idx).
Proof. intros ci prog e x idx _. apply program_dense_entry. Qed.

(* labels: _split_leg_label(_combine_leg_labels(ls), len(ls)) = ls with '?#' -> None, nested parentheses of any depth *)
Theorem T01_split_combine_labels : forall ls, ls <> [] -> Forall wf_label ls ->
  split_label (combine_labels ls) (length ls) = Some (map strip_q ls).
Proof. exact split_combine. Qed.

(* _conj_leg_label on EVERY label of the grammar  label ::= atom | atom STAR | LPAR label (DOT label)... RPAR  (any nesting depth,
   Model/LabelGrammar.v): the algorithm of the code (insert a star after every atom, then str.replace of two stars by nothing)
   computes the documented structural conjugation tconj (toggle the star of every atom), the result is again a label of the
   grammar, and conjugating twice gives the label back *)
Theorem T01_conj_label_involutive : forall t, twf t = true ->
  conj_label (render t) = render (tconj t) /\ twf (tconj t) = true /\ conj_label (conj_label (render t)) = render t.
Proof.
  intros t H. split; [apply conj_label_tree; exact H|]. split; [apply twf_tconj; exact H|].
  rewrite (conj_label_tree t H), (conj_label_tree (tconj t) (twf_tconj t H)), tconj_invol. reflexivity.
Qed.

(* the labels of the grammar are labels in the sense of T01_split_combine_labels *)
Theorem T01_grammar_wf_label : forall t, twf t = true -> wf_label (render t).
Proof. exact render_wf_label. Qed.

(* non-vacuity: a well-formed array with two charges (U(1) x Z_2), unsorted duplicated charge blocks, nonzero qtotal *)
Definition ex_leg1 : leg := mkLeg [1%nat; 2%nat; 0%nat] [[1; 1]; [0; 0]; [1; 1]] 1.
Definition ex_leg2 : leg := mkLeg [2%nat; 1%nat] [[0; 1]; [1; 0]] (-1).
Definition ex_arr : arr :=
  mkArr [ex_leg1; ex_leg2] [1; 0]
        [([0%nat; 0%nat], fun i => (Z.of_nat (nth 1 i 0%nat) + 1, 2)); ([2%nat; 0%nat], fun i => (3, 0))] true.
Example T01_example_wf : WF [1; 2] ex_arr.
Proof. apply wfb_sound. reflexivity. Qed.
Example T01_example_values : map (to_ndarray ex_arr) [[0%nat; 1%nat]; [1%nat; 2%nat]; [0%nat; 2%nat]] = [(2, 2); (0, 0); (0, 0)].
Proof. vm_compute. reflexivity. Qed.
Example T01_example_labels :
  split_label (combine_labels [["a"%char]; ["("; "b"; "."; "?"; "1"; ")"]%char; ["?"; "2"]%char]) 3 =
  Some [Some ["a"%char]; Some ["("; "b"; "."; "?"; "1"; ")"]%char; None].
Proof. vm_compute. reflexivity. Qed.

(* non-vacuity of T01_outer: an entry of outer(ex_arr, ex_arr) that is a product of two non-zero entries *)
Example T01_example_outer :
  to_ndarray (outer [1; 2] ex_arr ex_arr) [0%nat; 1%nat; 0%nat; 0%nat] = cmul (2, 2) (1, 2) /\
  length (blks (outer [1; 2] ex_arr ex_arr)) = 4%nat.
Proof. vm_compute. split; reflexivity. Qed.

(* non-vacuity of T01_tensordot: b = conj(transpose(ex_arr)) has the leg conj(ex_leg2) first, contractible with the last leg of ex_arr *)
Definition ex_arr_b : arr := conj [1; 2] (transpose [1%nat; 0%nat] ex_arr).
Example T01_example_wf_b : WF [1; 2] ex_arr_b.
Proof.
  apply wf_conj, wf_transpose; [|exact T01_example_wf].
  apply perm_swap.
Qed.
Example T01_example_contractible :
  Forall2 (contractible [1; 2]) (skipn (rank ex_arr - 1) (legs ex_arr)) (firstn 1 (legs ex_arr_b)).
Proof. repeat constructor; apply (contractible_conj [1; 2] ex_leg2). Qed.
(* sum_j a[0, j] * conj(a[0, j]) = |1+2i|^2 + |2+2i|^2 = 13 *)
Example T01_example_tensordot_value :
  to_ndarray (tensordot [1; 2] 1 ex_arr ex_arr_b) [0%nat; 0%nat] = (13, 0) /\
  d_tensordot (to_ndarray ex_arr) (to_ndarray ex_arr_b) [3%nat] 1 [0%nat; 0%nat] = (13, 0).
Proof. vm_compute. split; reflexivity. Qed.

(* non-vacuity of T01_take_slice: ex_arr[1, :] (index 1 of the first leg lies in charge block 1, which stores nothing) and
   ex_arr[0, :] (block 0) *)
Example T01_example_take_slice :
  length (nth (get_qindex (nth 0 (legs ex_arr) dleg) 0) (bch (nth 0 (legs ex_arr) dleg)) []) = length [1; 2] /\
  map (to_ndarray (take_slice [1; 2] 0 0 ex_arr)) [[0%nat]; [1%nat]; [2%nat]] = [(1, 2); (2, 2); (0, 0)] /\
  qtot (take_slice [1; 2] 0 0 ex_arr) = [0; 1] /\ rows (take_slice [1; 2] 0 0 ex_arr) = [[0%nat]].
Proof. vm_compute. repeat split; reflexivity. Qed.

(* non-vacuity of T01_conj_label_involutive: the example of the docstring of _conj_leg_label (see the strings below) *)
Definition ex_tree : ltree := LPipe [LAtom ["a"%char] false; LPipe [LAtom ["b"%char] true; LAtom ["c"%char] false]].
Example T01_example_label_tree :
  twf ex_tree = true /\
  render ex_tree = ["("; "a"; "."; "("; "b"; "*"; "."; "c"; ")"; ")"]%char /\
  conj_label (render ex_tree) = ["("; "a"; "*"; "."; "("; "b"; "."; "c"; "*"; ")"; ")"]%char.
Proof. vm_compute. repeat split; reflexivity. Qed.

(* non-vacuity of T01_program: the 9-step history of Proofs/TensorProgEx.v; entries of the sliced and swapped rank-3 result and of
   the re-gauged matrix computed block-sparse and by the dense interpreter, the re-gauged legs, and the shapes of the dense run *)
Example T01_example_program :
  valid_ci ep_ci /\ Forall (WF ep_ci) [ep_a] /\ applicable_prog ep_ci ep_prog [ep_a] /\
  map (to_ndarray (get (run ep_ci ep_prog [ep_a]) 5)) [[2; 1; 1]; [2; 2; 2]; [1; 0; 0]]%nat = [(22, 4); (40, 20); (0, 0)] /\
  map (snd (dget (d_run ep_prog (map to_dense [ep_a])) 5)) [[2; 1; 1]; [2; 2; 2]; [1; 0; 0]]%nat = [(22, 4); (40, 20); (0, 0)] /\
  map (to_ndarray (get (run ep_ci ep_prog [ep_a]) 6)) [[0; 0]; [1; 2]; [2; 2]]%nat = [(13, 0); (7, -1); (10, 0)] /\
  map (snd (dget (d_run ep_prog (map to_dense [ep_a])) 6)) [[0; 0]; [1; 2]; [2; 2]]%nat = [(13, 0); (7, -1); (10, 0)] /\
  map (fun l => (bch l, qc l)) (legs (get (run ep_ci ep_prog [ep_a]) 6)) = [([[1; 1]; [2; 0]], 1); ([[4; 0]; [3; 1]], 1)] /\
  map fst (d_run ep_prog (map to_dense [ep_a])) = [[3; 3; 3]; [3; 3]; [3; 3]; [3; 3]; [3; 3; 3; 3]; [3; 3; 3]; [3; 3]]%nat.
Proof. split; [exact ep_valid|]. split; [exact ep_a_wf|]. split; [exact ep_applicable|]. exact (proj2 ep_result). Qed.

Print Assumptions T01_program.
Print Assumptions T01_program_entry.
Print Assumptions T01_transpose.
Print Assumptions T01_conj.
Print Assumptions T01_scale.
Print Assumptions T01_blocks_disjoint.
Print Assumptions T01_add.
Print Assumptions T01_add_blocksum.
Print Assumptions T01_add_needs_truthful_claim.
Print Assumptions T01_outer.
Print Assumptions T01_outer_blocksum.
Print Assumptions T01_tensordot.
Print Assumptions T01_tensordot_blocksum.
Print Assumptions T01_tensordot_rows.
Print Assumptions T01_tensordot_charge_lookup.
Print Assumptions T01_tensordot_lookup_needs_charge_rule.
Print Assumptions T01_take_slice.
Print Assumptions T01_take_slice_blocksum.
Print Assumptions T01_split_combine_labels.
Print Assumptions T01_conj_label_involutive.
Print Assumptions T01_grammar_wf_label.
