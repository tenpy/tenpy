(* Property C03: operations never corrupt their operands or shared charge data.
   Statements about Model/Store.v (heap of block buffers, _qdata tables, LegCharge objects and Array records; eleven
   transformers, each writing exactly where the code writes), Model/StoreShare.v (buffer sharing), Model/StoreMps.v (MPS as
   a record of references) and Model/StoreMpsObj.v (MPS objects and their _B lists), each tied to the code by
   harness/c03.py. *)
From TenpyV Require Import Base.Prelude Model.Store Proofs.StoreP Proofs.StoreP2 Model.StoreMps Proofs.StoreMpsP.
From TenpyV Require Import Model.StoreShare Proofs.StoreShareP.
From TenpyV Require Import Model.StoreMpsObj Proofs.StoreMpsObjP.
Open Scope nat_scope.

(* the central statement: whatever operation runs, a live tensor outside the (small, explicit) set may_change keeps
   its observable value -- block contents, block indices, legs, labels, qtotal; operands may alias each other or be
   shallow copies of each other. *)
Theorem T03_frame_all_ops : forall h o x,
  wf h -> x < length (objs h) -> ~ In x (may_change h o) -> denote (fst (exec h o)) x = denote h x.
Proof. exact frame_may_change. Qed.

(* functions that are not in-place: EVERY live tensor keeps its value, also for tensordot(a, a), a + a,
   a + a.copy(deep=False), ... (a, b range over all live tensors, equal or not) *)
Theorem T03_frame_tensordot : forall h a b pa pb F x,
  wf h -> x < length (objs h) -> denote (fst (exec h (OTensordot a b pa pb F))) x = denote h x.
Proof. intros h a b pa pb F x Hwf. exact (frame_pure h (OTensordot a b pa pb F) x Hwf eq_refl). Qed.

Theorem T03_frame_add : forall h a b g x,
  wf h -> x < length (objs h) -> denote (fst (exec h (OAdd a b g))) x = denote h x.
Proof. intros h a b g x Hwf. exact (frame_pure h (OAdd a b g) x Hwf eq_refl). Qed.

Theorem T03_frame_scale_axis : forall h r f x,
  wf h -> x < length (objs h) -> denote (fst (exec h (OScaleAxis r f))) x = denote h x.
Proof. intros h r f x Hwf. exact (frame_pure h (OScaleAxis r f) x Hwf eq_refl). Qed.

(* a * s, a.conj(), a.transpose(), a.astype(): deep copy first, then in place on the copy *)
Theorem T03_frame_unary : forall h r f x,
  wf h -> x < length (objs h) -> denote (fst (exec h (OUnary r f))) x = denote h x.
Proof. intros h r f x Hwf. exact (frame_pure h (OUnary r f) x Hwf eq_refl). Qed.

Theorem T03_frame_copy : forall h deep r x,
  wf h -> x < length (objs h) -> denote (fst (exec h (OCopy deep r))) x = denote h x.
Proof. intros h deep r x Hwf. exact (frame_pure h (OCopy deep r) x Hwf eq_refl). Qed.

(* in-place methods writing INTO the block buffers (compiled iscale_prefactor / iadd_prefactor_other):
   only the receiver and tensors sharing one of its buffers (its shallow copies) can change *)
Theorem T03_inplace_iscale_prefactor : forall h r f x,
  wf h -> x < length (objs h) -> x <> r -> shares_buffer h x r = false ->
  denote (fst (exec h (OMapWrite r f))) x = denote h x.
Proof. intros h r f x Hwf. exact (inplace_frame h (OMapWrite r f) r x Hwf eq_refl). Qed.

Theorem T03_inplace_iadd_prefactor_other : forall h r b g x,
  wf h -> x < length (objs h) -> x <> r -> shares_buffer h x r = false ->
  denote (fst (exec h (OBinWrite r b g))) x = denote h x.
Proof. intros h r b g x Hwf. exact (inplace_frame h (OBinWrite r b g) r x Hwf eq_refl). Qed.

(* in-place methods that bind fresh blocks to the receiver (those Model/Store.v lists at OMapRebind; harness/c03.py
   replays itranspose itself as OMeta, T03_inplace_metadata): ONLY the receiver changes -- not even its shallow copies *)
Theorem T03_inplace_itranspose : forall h r f gt perm x,
  wf h -> x < length (objs h) -> x <> r -> denote (fst (exec h (OMapRebind r f gt perm))) x = denote h x.
Proof. intros h r f gt perm x Hwf. exact (frame_rebinding h (OMapRebind r f gt perm) r x Hwf eq_refl eq_refl). Qed.

(* in-place methods that keep the block memory (those Model/Store.v lists at OMeta):
   the receiver gets a NEW _qdata table and new list objects, so again only the receiver changes *)
Theorem T03_inplace_metadata : forall h r gt perm x,
  wf h -> x < length (objs h) -> x <> r -> denote (fst (exec h (OMeta r gt perm))) x = denote h x.
Proof. intros h r gt perm x Hwf. exact (frame_rebinding h (OMeta r gt perm) r x Hwf eq_refl eq_refl). Qed.

(* iproject copies _qdata first and installs fresh legs and blocks: only the receiver changes *)
Theorem T03_inplace_iproject : forall h r f gt newlegs x,
  wf h -> x < length (objs h) -> x <> r -> denote (fst (exec h (OProject r f gt newlegs))) x = denote h x.
Proof. intros h r f gt newlegs x Hwf. exact (frame_rebinding h (OProject r f gt newlegs) r x Hwf eq_refl eq_refl). Qed.

(* LegCharge objects are never written by any operation of the model *)
Theorem T03_legs_immutable : forall h o i, i < length (legs h) ->
  nth i (legs (fst (exec h o))) dleg = nth i (legs h) dleg.
Proof. exact legs_immutable. Qed.

(* a deep copy has the value of its source and is fully independent of it: no in-place method on
   one of the two (writing or rebinding) changes the other *)
Theorem T03_deepcopy_independent : forall h a, wf h -> a < length (objs h) ->
  let h1 := fst (exec h (OCopy true a)) in
  let c := length (objs h) in
  denote h1 c = denote h a /\
  (forall o, inplace_receiver o = Some c -> denote (fst (exec h1 o)) a = denote h a) /\
  (forall o, inplace_receiver o = Some a -> denote (fst (exec h1 o)) c = denote h1 c).
Proof. exact deep_copy_independent. Qed.

(* frame over EVERY finite applicable history from a well-formed heap (operands may coincide, be shallow or deep copies
   of each other, or results of earlier steps): the heap stays well-formed, every step keeps every live tensor outside
   its may_change, and a tensor outside may_change of every step has at the end the value it had at the start.
   What is NOT proved here (only checked differentially by harness/c03.py): that the remaining tenpy operations
   (combine_legs, split_legs, svd, ..., the MPS/MPO layer, Krylov solvers) write where one of the modelled
   transformers writes. *)
Theorem T03_history : forall os h, wf h -> ops_ok h os ->
  wf (run h os) /\
  (forall pre o post, os = pre ++ o :: post ->
     wf (run h pre) /\ wf (fst (exec (run h pre) o)) /\
     forall x, x < length (objs (run h pre)) -> ~ In x (may_change (run h pre) o) ->
               denote (fst (exec (run h pre) o)) x = denote (run h pre) x) /\
  (forall x, x < length (objs h) ->
     (forall pre o post, os = pre ++ o :: post -> ~ In x (may_change (run h pre) o)) ->
     denote (run h os) x = denote h x).
Proof. exact history_frame. Qed.

(* the histories the harness replays (check_history_applicable = applicability check && check_history, evaluated by
   vm_compute on every generated history) are applicable histories from a well-formed heap, so T03_history covers them *)
Theorem T03_checked_histories_covered : forall c, check_history_applicable c = true ->
  let h0 := mkHeap [] [] (repeat dleg (fst c)) [] in
  wf h0 /\ ops_ok h0 (history_ops h0 [] (snd c)).
Proof. intros c H. apply andb_true_iff in H. apply harness_history, H. Qed.

Theorem T03_wf_preserved : forall h o, wf h -> op_ok h o -> wf (fst (exec h o)).
Proof. exact wf_exec. Qed.

(* ---- LegCharge objects shared between tensors.  x and y are two live tensors holding the SAME LegCharge object l.
   (1) Whatever history of operations runs (no applicability hypothesis is needed), l has the content it had.
   (2) Whatever single operation runs that is not a rebinding in-place method called on y itself (so: every function,
   every in-place method on x -- including iproject, which gives x NEW legs -- and buffer-writing methods on y), the legs
   observed through y are unchanged and still contain the content of l. *)
Theorem T03_legs_shared_across_tensors : forall h x y l, wf h -> live h x -> live h y ->
  In l (lg (obj h x)) -> In l (lg (obj h y)) ->
  (forall os, nth l (legs (run h os)) dleg = nth l (legs h) dleg) /\
  (forall o, (forall r, inplace_receiver o = Some r -> writes_buffers o = true \/ y <> r) ->
             legs_view (fst (exec h o)) y = legs_view h y /\
             In (nth l (legs h) dleg) (legs_view (fst (exec h o)) y)).
Proof. intros h x y l Hwf _ Hy _. exact (legs_shared h y l Hwf Hy). Qed.

(* ---- MPS level (Model/StoreMps.v: an MPS = list of tensor references into the heap + forms + norm + singular values;
   get_B / set_B / __init__ / measurement programs composed of the transformers of Model/Store.v, following
   tenpy/networks/mps.py for trivial charge shift and label_p=None).  The StoreMps definitions are built from the
   correspondence-checked transformers `exec` of Store.v and are themselves executed against the code: stream
   `mps-history` of harness/c03.py with Model/StoreMpsCheck.v `check_mps_history` (random MPS-level histories:
   constructor, get_B, set_B, measurements, in-place methods through returned tensors; observed changes of registers
   and of the stored tensors must be allowed by the model, get_B raises / returns the stored object / shares memory
   exactly as the model says).
   For every well-formed heap and MPS (any number of sites, any site index, any scale function sc):
   (1) get_B(i, form, copy), whenever it returns, leaves the MPS view (values of all site tensors, forms, norm, singular
       values) and EVERY pre-existing tensor as they were; with copy=True the result is a fresh reference;
   (2) get_B(copy=True) without form conversion returns a fresh deep copy with the value of site i;
   (3) measurement programs (any list of get_B calls, operations that are not in-place, and rebinding in-place methods
       on tensors created during the measurement) leave the MPS view and every pre-existing tensor as they were;
   (4) get_B(copy=False) without form conversion returns THE STORED REFERENCE and leaves the heap as it is;
   (5) an in-place method called through that alias changes no other site of an MPS whose sites are separate. *)
Theorem T03_mps_ops_frame : forall sc h m, wf h -> mps_wf h m ->
  (forall i fm cp h' r, i < length (sites m) -> get_B sc h m i fm cp = Some (h', r) ->
     wf h' /\ mps_wf h' m /\ mps_view h' m = mps_view h m /\
     (forall x, x < length (objs h) -> denote h' x = denote h x) /\ live h' r /\
     (cp = true -> length (objs h) <= r /\ ~ In r (sites m))) /\
  (forall i fm, i < length (sites m) -> form_matches m i fm ->
     get_B sc h m i fm true = Some (exec h (OCopy true (site m i))) /\
     snd (exec h (OCopy true (site m i))) = length (objs h) /\
     denote (fst (exec h (OCopy true (site m i)))) (length (objs h)) = denote h (site m i)) /\
  (forall prog, meas_ok sc (length (objs h)) h m prog ->
     wf (run_meas sc h m prog) /\ mps_wf (run_meas sc h m prog) m /\
     mps_view (run_meas sc h m prog) m = mps_view h m /\
     forall x, x < length (objs h) -> denote (run_meas sc h m prog) x = denote h x) /\
  (forall i fm, i < length (sites m) -> form_matches m i fm ->
     get_B sc h m i fm false = Some (h, site m i)) /\
  (forall i o, mps_sep h m -> i < length (sites m) -> inplace_receiver o = Some (site m i) ->
     forall j, j < length (sites m) -> j <> i -> denote (fst (exec h o)) (site m j) = denote h (site m j)).
Proof.
  intros sc h m Hwf Hm. split; [|split; [|split; [|split]]].
  - intros i fm cp h' r. exact (get_B_frame sc h m i fm cp h' r Hwf Hm).
  - intros i fm _ Hf. exact (conj (get_B_noconv sc h m i fm true Hf) (conj eq_refl (deep_copy_same_value h _))).
  - intros prog. exact (meas_frame sc h m prog Hwf Hm).
  - intros i fm _ Hf. exact (get_B_noconv sc h m i fm false Hf).
  - intros i o Hsep Hi Ho. apply alias_inplace_frame; assumption.
Qed.

(* get_B(copy=False) aliasing, (4) and (5) above (forms, norm, singular values are fields of m, which no heap operation
   touches), and the MPS observes the write: after the compiled iscale_prefactor (OMapWrite) through the alias the
   value of site i has blocks map f (old blocks), everything else of it unchanged. *)
Theorem T03_mps_getB_alias : forall sc h m i fm, wf h -> mps_wf h m -> mps_sep h m -> i < length (sites m) ->
  form_matches m i fm ->
  get_B sc h m i fm false = Some (h, site m i) /\
  (forall o, inplace_receiver o = Some (site m i) ->
     forall j, j < length (sites m) -> j <> i -> denote (fst (exec h o)) (site m j) = denote h (site m j)) /\
  (forall f, NoDup (blk (obj h (site m i))) ->
     denote (fst (exec h (OMapWrite (site m i) f))) (site m i) =
     (let '(b, t, l, lb, q) := denote h (site m i) in (map f b, t, l, lb, q))).
Proof.
  intros sc h m i fm Hwf Hm Hsep Hi Hf. split; [exact (get_B_noconv sc h m i fm false Hf)|]. split.
  - intros o Ho. apply alias_inplace_frame; assumption.
  - intros f Hnd. apply mapwrite_observed; [exact Hwf|apply site_live; assumption|exact Hnd].
Qed.

(* MPS.__init__ copies: Bs = the caller's tensors with the axes permutation that itranspose(['vL','p','vR']) applies.
   The result is well-formed, the sites are pairwise different objects with disjoint buffers (mps_sep), the caller's
   tensors read the same, site j is a FRESH reference whose value is the transposed value of the j-th input;
   afterwards NO in-place method on a caller's tensor (r < length (objs h)) changes any site tensor, and NO in-place
   method on a site changes a tensor of the caller. *)
Theorem T03_mps_init_copies : forall h Bs fms n sv, wf h -> inputs_ok h Bs -> length fms = length Bs ->
  wf (fst (mps_init h Bs fms n sv)) /\ mps_wf (fst (mps_init h Bs fms n sv)) (snd (mps_init h Bs fms n sv)) /\
  mps_sep (fst (mps_init h Bs fms n sv)) (snd (mps_init h Bs fms n sv)) /\
  length (sites (snd (mps_init h Bs fms n sv))) = length Bs /\
  forms (snd (mps_init h Bs fms n sv)) = fms /\ nrm (snd (mps_init h Bs fms n sv)) = n /\
  svs (snd (mps_init h Bs fms n sv)) = sv /\
  (forall x, x < length (objs h) -> denote (fst (mps_init h Bs fms n sv)) x = denote h x) /\
  (forall j, j < length Bs ->
     length (objs h) <= site (snd (mps_init h Bs fms n sv)) j /\
     NoDup (blk (obj (fst (mps_init h Bs fms n sv)) (site (snd (mps_init h Bs fms n sv)) j))) /\
     denote (fst (mps_init h Bs fms n sv)) (site (snd (mps_init h Bs fms n sv)) j) =
     transpose_value (snd (nth j Bs (0, []))) (denote h (fst (nth j Bs (0, []))))) /\
  (forall o r j, inplace_receiver o = Some r -> r < length (objs h) -> j < length Bs ->
     denote (fst (exec (fst (mps_init h Bs fms n sv)) o)) (site (snd (mps_init h Bs fms n sv)) j) =
     denote (fst (mps_init h Bs fms n sv)) (site (snd (mps_init h Bs fms n sv)) j)) /\
  (forall o j x, inplace_receiver o = Some (site (snd (mps_init h Bs fms n sv)) j) -> j < length Bs ->
     x < length (objs h) ->
     denote (fst (exec (fst (mps_init h Bs fms n sv)) o)) x = denote (fst (mps_init h Bs fms n sv)) x).
Proof. exact mps_init_spec. Qed.

(* set_B(i, B, form) stores THE GIVEN REFERENCE b (no copy: a later write through b is a write to site i) and the form;
   all other sites and forms, norm, singular values unchanged; in the heap only b itself may read differently
   (itranspose is applied to it), every other tensor -- in particular every other site that is not b -- reads the same. *)
Theorem T03_mps_set_B : forall h m i b fm perm,
  wf h -> mps_wf h m -> live h b -> perm_ok h b perm -> i < length (sites m) ->
  wf (fst (set_B h m i b fm perm)) /\ mps_wf (fst (set_B h m i b fm perm)) (snd (set_B h m i b fm perm)) /\
  site (snd (set_B h m i b fm perm)) i = b /\ nth i (forms (snd (set_B h m i b fm perm))) None = fm /\
  (forall j, j <> i -> site (snd (set_B h m i b fm perm)) j = site m j /\
                       nth j (forms (snd (set_B h m i b fm perm))) None = nth j (forms m) None) /\
  nrm (snd (set_B h m i b fm perm)) = nrm m /\ svs (snd (set_B h m i b fm perm)) = svs m /\
  length (sites (snd (set_B h m i b fm perm))) = length (sites m) /\
  (forall x, x < length (objs h) -> x <> b -> denote (fst (set_B h m i b fm perm)) x = denote h x).
Proof. exact set_B_spec. Qed.

(* get_B and measurement programs rebind no pre-existing Array record: the separation of the sites (hypothesis of
   T03_mps_getB_alias, established by T03_mps_init_copies) persists through them *)
Theorem T03_mps_sep_preserved : forall sc h m, wf h -> mps_wf h m -> mps_sep h m ->
  (forall i fm cp h' r, i < length (sites m) -> get_B sc h m i fm cp = Some (h', r) -> mps_sep h' m) /\
  (forall prog, meas_ok sc (length (objs h)) h m prog -> mps_sep (run_meas sc h m prog) m).
Proof.
  intros sc h m Hwf Hm Hsep. split; [intros i fm cp h' r Hi Hg|intros prog Hok]; apply (mps_sep_keeps h _ m Hm); try exact Hsep.
  - apply (get_B_got sc h m i fm cp _ Hwf Hm Hi Hg).
  - apply (meas_keeps sc h m prog h Hwf Hm (keeps_refl h _ _) Hok).
Qed.

(* frame over whole MPS-level histories: get_B calls (any form, copy flag; results kept alive), measurement programs and
   arbitrary applicable operations of the store model `POp o` interleaved in any order and number, where every `POp o`
   has no site of the MPS in its may_change (o is not an in-place method on a site tensor / on a tensor sharing a buffer
   with one: the documented contract of get_B(copy=False)).  At the end the heap and the MPS are well-formed and the
   MPS view -- values of all site tensors, forms, norm, singular values -- is what it was at the start. *)
Theorem T03_mps_history : forall sc m ps h, wf h -> mps_wf h m -> mps_run_ok sc h m ps ->
  wf (mps_run sc h m ps) /\ mps_wf (mps_run sc h m ps) m /\ mps_view (mps_run sc h m ps) m = mps_view h m.
Proof. exact mps_history_frame. Qed.

(* non-vacuity and the looseness of shallow copies: a write through a shallow copy IS visible through the
   other reference for buffer-writing methods and is NOT for rebinding methods (both allowed by Array.copy) *)
Example T03_shallow_copy_visibility :
  let h0 := fst (exec (mkHeap [] [] [dleg] []) (ONew 1 [0])) in
  let h1 := fst (exec h0 (OCopy false 0)) in
  denote (fst (exec h1 (OMapWrite 1 dbl))) 0 <> denote h1 0 /\
  denote (fst (exec h1 (OMapRebind 1 dbl (fun t => t) [0]))) 0 = denote h1 0.
Proof. vm_compute. split; [discriminate|reflexivity]. Qed.
Example T03_example_wf : wf (fst (exec (fst (exec (mkHeap [] [] [dleg] []) (ONew 2 [0; 0]))) (OCopy true 0))).
Proof. apply wf_deep_copy; [repeat constructor|unfold live; cbn; lia]. Qed.
(* the hypotheses of T03_history are satisfiable by a history with aliased operands and shallow copies *)
Example T03_example_history :
  let h0 := mkHeap [] [] [dleg] [] in
  wf h0 /\
  ops_ok h0 [ONew 2 [0; 0]; OCopy false 0; OMapWrite 1 dbl; OBinWrite 0 1 (fun x y => x ++ y); OCopy true 1;
             OTensordot 0 0 [1; 0] [0; 1] (fun _ _ => ([[1%Z]], [[]])); OAdd 2 2 (fun x y => x ++ y);
             OMapRebind 1 dbl (fun t => t) [1; 0]; OMeta 0 (fun t => t) [1; 0]; OProject 2 dbl (fun t => t) [dleg; dleg];
             OScaleAxis 1 dbl; OUnary 0 dbl].
Proof. split; [constructor|]. vm_compute. repeat split; repeat constructor. Qed.

(* non-vacuity of the MPS theorems: ex_h0 holds two caller tensors (2 blocks / 1 block) that share LegCharge objects;
   ex_hm = the two-site MPS the constructor builds from them (forms B, A).  The inputs satisfy the hypotheses of
   T03_mps_init_copies; the result satisfies those of T03_mps_ops_frame / T03_mps_getB_alias; a 7-step measurement
   is an accepted program; a write through the alias of site 0 is observed. *)
Example T03_example_mps_inputs : wf ex_h0 /\ inputs_ok ex_h0 ex_Bs.
Proof.
  split.
  - unfold ex_h0. apply wf_exec; [apply wf_exec; [constructor|]|]; cbn; repeat constructor.
  - unfold inputs_ok, ex_Bs. repeat constructor; cbn; repeat constructor.
Qed.
Example T03_example_mps : wf (fst ex_hm) /\ mps_wf (fst ex_hm) (snd ex_hm) /\ mps_sep (fst ex_hm) (snd ex_hm) /\
  length (sites (snd ex_hm)) = 2.
Proof.
  destruct T03_example_mps_inputs as [Hwf Hin].
  destruct (mps_init_spec ex_h0 ex_Bs [form_B; form_A] 1%Z [[1%Z]; [1%Z; 2%Z]; [1%Z]] Hwf Hin eq_refl)
    as [W [M [Sp [L _]]]].
  split; [exact W|split; [exact M|split; [exact Sp|exact L]]].
Qed.
Example T03_example_measurement : meas_ok ex_sc (length (objs (fst ex_hm))) (fst ex_hm) (snd ex_hm)
  [MsGet 0 form_Th false; MsGet 1 form_A false; MsGet 1 None true;
   MsOp (OTensordot 4 5 [0; 1; 2] [0; 1; 2] (fun _ _ => ([[1%Z]], [[]]))); MsOp (OMeta 8 (fun t => t) []);
   MsGet 0 form_B false; MsOp (OUnary 2 dbl)].
Proof. vm_compute. repeat split; repeat constructor. Qed.
Example T03_example_alias_write : get_B ex_sc (fst ex_hm) (snd ex_hm) 1 form_B true <> None /\
  form_matches (snd ex_hm) 0 form_B /\ inplace_receiver (OMapWrite (site (snd ex_hm) 0) dbl) = Some (site (snd ex_hm) 0) /\
  denote (fst (exec (fst ex_hm) (OMapWrite (site (snd ex_hm) 0) dbl))) (site (snd ex_hm) 0)
    <> denote (fst ex_hm) (site (snd ex_hm) 0).
Proof. vm_compute. repeat split; try discriminate. right. split; [discriminate|reflexivity]. Qed.
Example T03_example_shared_leg : live ex_h0 0 /\ live ex_h0 1 /\ In 1 (lg (obj ex_h0 0)) /\ In 1 (lg (obj ex_h0 1)).
Proof. vm_compute. repeat split; auto 6. Qed.

(* an admissible MPS-level history on ex_hm, with in-place methods on the caller's tensors and on the result of a
   copying get_B *)
Example T03_example_mps_history : mps_run_ok ex_sc (fst ex_hm) (snd ex_hm)
  [PGet 0 form_B false; POp (OMapWrite 0 dbl); PGet 1 form_Th true; POp (OMapRebind 4 dbl (fun t => t) [2; 1; 0]);
   PMeas [MsGet 0 form_A false; MsOp (OAdd 5 5 (fun x y => x ++ y))]; POp (OCopy false 2); POp (OProject 1 dbl (fun t => t) [dleg])].
Proof. vm_compute. repeat split; repeat constructor; intros c [<-|[<-|[]]]; intros H; repeat (destruct H as [H|H]; [discriminate H|]); exact H. Qed.

(* ---- no hidden aliasing (Model/StoreShare.v).  The frame theorems above speak about the moment of the call; a result that
   secretly shares a buffer with a live tensor would corrupt it at the next buffer-writing in-place method.  In the model
   the result of EVERY function that is not in-place, except copy(deep=False) (returns_fresh: new, copy(deep=True), a*s /
   conj / transpose / split_legs / ... = OUnary, scale_axis, a+b, tensordot), shares no buffer with any tensor that existed
   before the call, in either direction, for all heaps and all operand choices.  harness/c03.py compares the block memory of
   all live tensors of the implementation after every step (np.shares_memory) with the model (check_shares): a pair that
   owns common memory in the code must share a buffer in the model. *)
Theorem T03_fresh_result_unshared : forall h o x, wf h -> returns_fresh o = true -> x < length (objs h) ->
  shares_buffer (fst (exec h o)) x (snd (exec h o)) = false /\
  shares_buffer (fst (exec h o)) (snd (exec h o)) x = false.
Proof.
  intros h o x Hwf Hf Hx. apply fresh_unshared; [exact Hwf|left; exact Hf|exact Hx|].
  intros r Hr. rewrite (returns_fresh_pure o Hf) in Hr. discriminate.
Qed.

(* ... and after a rebinding in-place method (OMapRebind, OProject: see Model/Store.v) the receiver shares no buffer with any other live tensor, not even with its shallow copies *)
Theorem T03_rebind_unshares : forall h o r x, wf h -> rebinds_fresh o = true -> inplace_receiver o = Some r ->
  x < length (objs h) -> x <> r ->
  shares_buffer (fst (exec h o)) x r = false /\ shares_buffer (fst (exec h o)) r x = false.
Proof.
  intros h o r x Hwf Hf Hr Hx Hne. rewrite <- (inplace_result h o r Hr).
  apply fresh_unshared; [exact Hwf|right; exact Hf|exact Hx|]. intros r' Hr'. congruence.
Qed.

(* the hypotheses are satisfiable and the conclusion is not trivial: a shallow copy does share, the result of a function
   applied to one of the two shares with neither *)
Example T03_example_shares :
  let h0 := mkHeap [] [] [dleg] [] in
  let h1 := fst (exec h0 (ONew 2 [0])) in
  let h2 := fst (exec h1 (OCopy false 0)) in
  let h3 := fst (exec h2 (OUnary 0 (fun v => v))) in
  wf h2 /\ shares_buffer h2 0 1 = true /\ shares_buffer h3 0 2 = false /\ shares_buffer h3 1 2 = false.
Proof.
  cbn. repeat split; try reflexivity.
  repeat constructor.
Qed.

(* ---- MPS OBJECTS and the list objects bound to their _B attribute (Model/StoreMpsObj.v).  tenpy makes shallow copies of MPS
   objects (copy.copy) and runs in-place methods on them (MPS._gauge_compatible_vL_vR, used by overlap / MPSEnvironment / add),
   and pure queries collect the stored tensors in lists (get_total_charge).  One container operation - shallow copy of the
   object, m._B = m._B[:], m._B[i] = t, in-place list extension, list concatenation - leaves what an MPS object x reads as x._B
   unchanged unless it WRITES a list through an object whose _B is x._B; all heaps, all objects, well-formedness preserved. *)
Theorem T03_mpsobj_frame : forall h o x, owf h -> cop_ok h o -> x < length (mobj h) ->
  match cwriter o with Some m => shares_list h x m = false | None => True end ->
  B_of (cexec h o) x = B_of h x /\ owf (cexec h o).
Proof. intros h o x Hwf Hok Hx Hsh. split; [apply container_frame; assumption|apply cwf_preserved; assumption]. Qed.

(* every finite history of container operations none of which writes through an alias of x._B *)
Theorem T03_mpsobj_history : forall os h x, owf h -> x < length (mobj h) -> cadm h x os -> B_of (crun h os) x = B_of h x.
Proof. exact chistory_frame. Qed.

(* MPS._gauge_compatible_vL_vR(other) with need_gauge: shallow copy, own list, then ANY sequence of item assignments by
   gauge_total_charge on the copy: every MPS object that existed before the call (in particular `other`) reads the same list *)
Theorem T03_mpsobj_gauge_compatible : forall h other writes x, owf h -> other < length (mobj h) -> x < length (mobj h) ->
  B_of (crun h (gauge_prog other (length (mobj h)) writes)) x = B_of h x.
Proof. intros h other writes x Hwf Ho Hx. apply chistory_frame; [exact Hwf|exact Hx|apply gauge_prog_adm; assumption]. Qed.

(* a query that builds `m._B + ts` (get_total_charge with segment boundaries) changes the list of no MPS object *)
Theorem T03_mpsobj_query_new_list : forall h m ts x, owf h -> m < length (mobj h) -> x < length (mobj h) ->
  B_of (cexec h (CConcat m ts)) x = B_of h x.
Proof. intros h m ts x Hwf Hm Hx. apply container_frame; [exact Hwf|exact Hm|exact Hx|exact I]. Qed.

(* the hypotheses matter: without `other._B = other._B[:]` the re-gauged tensor is read through `other`; `tensors += ts` on an
   alias of m._B extends m._B; and the harness checkers accept the faithful observations and reject the leaking ones *)
Example T03_example_gauge_needs_own_list :
  let h := mkOH [[0; 1; 2]] [0] in
  B_of (crun h (gauge_prog_shared 0 1 [(2, 7)])) 0 = [0; 1; 7] /\ B_of (crun h (gauge_prog 0 1 [(2, 7)])) 0 = [0; 1; 2]
  /\ B_of (crun h (gauge_prog 0 1 [(2, 7)])) 1 = [0; 1; 7].
Proof. vm_compute. repeat split. Qed.
Example T03_example_query_extend_leaks :
  let h := mkOH [[0; 1; 2]] [0] in B_of (cexec h (CExtend 0 [8; 9])) 0 = [0; 1; 2; 8; 9] /\ B_of (cexec h (CConcat 0 [8; 9])) 0 = [0; 1; 2].
Proof. vm_compute. split; reflexivity. Qed.
Example T03_example_mpsobj_checkers :
  check_gauge_compatible (true, 4, [3], (false, false, true)) = true /\
  check_gauge_compatible (true, 4, [3], (false, true, false)) = false /\
  check_gauge_compatible (false, 4, [], (true, true, true)) = true /\
  check_query_list (4, true, 4) = true /\ check_query_list (4, true, 6) = false.
Proof. vm_compute. repeat split. Qed.

Print Assumptions T03_frame_all_ops.
Print Assumptions T03_frame_tensordot.
Print Assumptions T03_frame_add.
Print Assumptions T03_frame_scale_axis.
Print Assumptions T03_frame_unary.
Print Assumptions T03_frame_copy.
Print Assumptions T03_inplace_iscale_prefactor.
Print Assumptions T03_inplace_iadd_prefactor_other.
Print Assumptions T03_inplace_itranspose.
Print Assumptions T03_inplace_metadata.
Print Assumptions T03_inplace_iproject.
Print Assumptions T03_legs_immutable.
Print Assumptions T03_deepcopy_independent.
Print Assumptions T03_history.
Print Assumptions T03_wf_preserved.
Print Assumptions T03_checked_histories_covered.
Print Assumptions T03_legs_shared_across_tensors.
Print Assumptions T03_mps_ops_frame.
Print Assumptions T03_mps_getB_alias.
Print Assumptions T03_mps_init_copies.
Print Assumptions T03_mps_set_B.
Print Assumptions T03_mps_sep_preserved.
Print Assumptions T03_mps_history.
Print Assumptions T03_fresh_result_unshared.
Print Assumptions T03_rebind_unshares.
Print Assumptions T03_mpsobj_frame.
Print Assumptions T03_mpsobj_history.
Print Assumptions T03_mpsobj_gauge_compatible.
Print Assumptions T03_mpsobj_query_new_list.
