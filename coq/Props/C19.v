(* Property C19: lattice geometry - index maps are bijections and couplings are enumerated exactly.
   All theorems hold for every dimension (1 + length (Lr lat)), all sizes, every unit cell size and
   every order array that lists distinct sites of the box (regular lattices: all of them; irregular
   lattices: a subset), finite and infinite MPS boundary conditions. *)
From TenpyV Require Import Base.Prelude Model.Lattice Model.LatticeVals Model.LatticeMulti Model.LatticeTransform.
From TenpyV Require Import Proofs.LatticeP Proofs.LatticeP2 Proofs.LatticeP3 Proofs.LatticeP6 Proofs.LatticeTransformP.
Open Scope Z_scope.

(* get_order with priority=None (C-style and every combination of snake flags) enumerates every lattice
   index of the box exactly once.  (priority != None: T19_get_order_priority_perm below.
   Not proved: get_order_grouped, which is run against the code in the oracle stream only.) *)
Theorem T19_get_order_perm : forall flags shape,
  NoDup (snake flags shape) /\
  (forall row, In row (snake flags shape) <-> in_box row shape) /\
  length (snake flags shape) = nprod shape.
Proof. exact get_order_perm. Qed.

(* get_order(shape, snake_winding, priority) with perm = argsort(priority) (any permutation of the
   directions, the unit cell index included): `get_order` is the model function run against
   Lattice.ordering in the correspondence stream "model-order"
   (order = get_order(shape[perm], snake[perm], None)[:, inverse_permutation(perm)]).
   It enumerates every lattice index of the box exactly once. *)
Theorem T19_get_order_priority_perm : forall shape flags perm,
  Permutation perm (seq 0 (length shape)) ->
  NoDup (get_order shape flags perm) /\
  (forall row, In row (get_order shape flags perm) <-> in_box row shape) /\
  length (get_order shape flags perm) = nprod shape.
Proof. exact get_order_priority_perm. Qed.

(* mps2lat_idx and lat2mps_idx are mutually inverse bijections between the MPS indices (all integers for
   infinite MPS, 0 <= i < N_sites for finite MPS) and the existing sites (for infinite MPS: x_0 any
   integer, the site (x_0 mod Ls[0], ...) being in the order). *)
Theorem T19_index_inverse : forall lat, wf lat ->
  (forall i s, mps2lat lat i = Some s -> lat2mps lat s = Some i /\ site_exists lat s) /\
  (forall s i, site_exists lat s -> lat2mps lat s = Some i -> mps2lat lat i = Some s) /\
  (forall i, (if infinite lat then True else 0 <= i < nsites lat) -> exists s, mps2lat lat i = Some s) /\
  (forall s, site_exists lat s -> exists i, lat2mps lat s = Some i).
Proof. exact index_inverse. Qed.

(* mps2lat_values(A) for a 1D array A of length N_sites (Model/LatticeVals.v: the scatter assignment
   _mps2lat_vals_idx[tuple(order.T)] = arange(N_sites) of the order setter followed by np.take) puts A[i]
   at the lattice index mps2lat_idx(i), for every 0 <= i < N_sites; and every lattice index s that is a row
   of the order holds A[lat2mps_idx(s)].  With T19_index_inverse: each A[i] lands at exactly one lattice
   index.  (Lattice indices that are no row of the order - IrregularLattice - are uninitialised memory in the code, None in
   the model.)
   Not covered: arrays with several axes / axes != 0 (the code recurses over the axes; oracle stream only),
   mps2lat_values_masked. *)
Theorem T19_values_reshape : forall lat, wf lat -> forall (V : Type) (a : list V),
  length a = length (lorder lat) ->
  (forall i, 0 <= i < nsites lat -> exists s v,
     mps2lat lat i = Some s /\ nth_error a (Z.to_nat i) = Some v /\ mps2lat_values lat a s = Some v) /\
  (forall s, In s (lorder lat) -> exists i v,
     0 <= i < nsites lat /\ lat2mps lat s = Some i /\ nth_error a (Z.to_nat i) = Some v /\
     mps2lat_values lat a s = Some v).
Proof. exact values_reshape. Qed.

(* mps2lat_values(A, u=u) for A of length len(mps_idx_fix_u(u)): the k-th entry of A, which belongs to the
   MPS site i = mps_idx_fix_u(u)[k], is put at the lattice index (x_0, ..., x_{d-1}) with
   mps2lat_idx(i) = (x_0, ..., x_{d-1}, u). *)
Theorem T19_values_reshape_fix_u : forall lat, wf lat -> forall (V : Type) u (a : list V),
  length a = length (mps_fix_u lat u) ->
  forall k i, nth_error (mps_fix_u lat u) k = Some i -> exists x0 xr v,
    0 <= i < nsites lat /\ mps2lat lat i = Some (x0, xr, u) /\ nth_error a k = Some v /\
    mps2lat_values_u lat u a x0 xr = Some v.
Proof. exact values_reshape_u. Qed.

(* possible_couplings(u1, u2, dx) returns exactly the pairs (i, j) of MPS indices of existing sites
   (x, u1), (y, u2) with y reached from x by dx under the boundary conditions (`coupled`: winding numbers
   exist, none across open boundaries, bc_shift moves x_0 by -shift per winding), each pair once; for
   infinite MPS exactly the representative with 0 <= min(i, j) < N_sites of each translation class.
   Hypothesis on bc_shift: with an open x-direction either there is no shift or |dx_0| < Ls[0]
   (necessary, see T19_couplings_shift_refuted). *)
Theorem T19_couplings_exact : forall lat, wf lat -> forall u1 u2 dx0 dxr, 0 <= u2 < Lu lat ->
  (open0 lat = true -> Forall (fun s => s = 0) (shiftr lat) \/ Z.abs dx0 < L0 lat) ->
  NoDup (coupling_pairs lat u1 u2 dx0 dxr) /\
  forall i j, In (i, j) (coupling_pairs lat u1 u2 dx0 dxr) <-> coupled lat u1 u2 dx0 dxr i j.
Proof. exact couplings_exact. Qed.

(* The faithful model refutes exactness without that hypothesis: open x-direction, shifted periodic
   y-direction and |dx_0| = Ls[0]: an existing pair is not enumerated (witness replayed on tenpy by
   harness/c19.py, known finding F19.2). *)
Theorem T19_couplings_shift_refuted :
  exists lat u1 u2 dx0 dxr i j, wf lat /\ 0 <= u2 < Lu lat /\
    coupled lat u1 u2 dx0 dxr i j /\ coupling_pairs lat u1 u2 dx0 dxr = [].
Proof. exact couplings_shift_refuted. Qed.

(* possible_multi_couplings(ops), ops = [(dx_m, u_m)] (any number >= 1 of operators, any dimension): the
   rows mps_ijkl (`multi_ijkl` = first components of the correspondence-checked model function
   possible_multi_couplings) are exactly the lists [i_1; ...; i_n] of MPS indices for which an anchor cell b
   (integer coordinates) exists such that, for every m, i_m is the existing site with unit cell index u_m
   in the cell reached from b by dx_m under the boundary conditions (`op_at`: same `connected` as in
   T19_couplings_exact: winding numbers, none across open boundaries, bc_shift), each such list exactly once;
   for infinite MPS exactly the representative with 0 <= min(i_1..i_n) < N_sites of each translation class.
   Regular and irregular lattices (restriction to existing sites).
   Hypothesis on bc_shift: none together with an open x-direction (without it the code misses rows: known
   finding F19.4, and for two operators T19_couplings_shift_refuted).
   Not covered: the second component lat_indices (corner of the box, used for the strength array) is only
   correspondence-checked. *)
Theorem T19_multi_couplings_exact : forall lat, wf lat -> forall ops, ops_wf lat ops ->
  (open0 lat = true -> Forall (fun s => s = 0) (shiftr lat)) ->
  NoDup (multi_ijkl lat ops) /\
  forall ijkl, In ijkl (multi_ijkl lat ops) <-> multi_coupled lat ops ijkl.
Proof. exact multi_couplings_exact. Qed.

(* Consequence of T19_index_inverse, stated the way callers use it. *)
Theorem T19_index_injective : forall lat, wf lat ->
  (forall i j s, mps2lat lat i = Some s -> mps2lat lat j = Some s -> i = j) /\
  (forall s t i, site_exists lat s -> site_exists lat t ->
     lat2mps lat s = Some i -> lat2mps lat t = Some i -> s = t).
Proof. exact index_injective. Qed.

(* possible_couplings(u2, u1, -dx) is possible_couplings(u1, u2, dx) with the roles of i and j exchanged (as sets
   without repetition): the convention behind add_coupling(..., plus_hc=True), `pairs` listing each bond once,
   and count_neighbors.  Hypothesis on bc_shift as in T19_couplings_exact; for an infinite MPS the same
   representative 0 <= min(i, j) < N_sites is chosen in both directions. *)
Theorem T19_couplings_reverse : forall lat, wf lat -> forall u1 u2 dx0 dxr,
  0 <= u1 < Lu lat -> 0 <= u2 < Lu lat ->
  (open0 lat = true -> Forall (fun s => s = 0) (shiftr lat) \/ Z.abs dx0 < L0 lat) ->
  forall i j, In (i, j) (coupling_pairs lat u1 u2 dx0 dxr) <->
              In (j, i) (coupling_pairs lat u2 u1 (- dx0) (map Z.opp dxr)).
Proof. exact couplings_reverse. Qed.

(* A multi-coupling of two operators, the first at displacement 0, is a two-site coupling: specification
   (multi_coupled / coupled) and code (possible_multi_couplings / possible_couplings, both correspondence-checked
   model functions) enumerate the same pairs (i, j) - add_multi_coupling_term with two operators and add_coupling
   address the same bonds.  Hypothesis on bc_shift as in T19_multi_couplings_exact. *)
Theorem T19_two_operator_multi_coupling : forall lat, wf lat -> forall u1 u2 dx0 dxr,
  0 <= u1 < Lu lat -> 0 <= u2 < Lu lat -> length dxr = length (Lr lat) ->
  (open0 lat = true -> Forall (fun s => s = 0) (shiftr lat)) ->
  let ops : list op := [(0, repeat 0 (length (Lr lat)), u1); (dx0, dxr, u2)] in
  (forall i j, multi_coupled lat ops [i; j] <-> coupled lat u1 u2 dx0 dxr i j) /\
  (forall i j, In [i; j] (multi_ijkl lat ops) <-> In (i, j) (coupling_pairs lat u1 u2 dx0 dxr)).
Proof.
  intros lat Hwf u1 u2 dx0 dxr Hu1 Hu2 Hl Hsh.
  exact (conj (two_ops_coupled lat Hwf u1 u2 dx0 dxr) (two_ops_pairs lat Hwf u1 u2 dx0 dxr Hu1 Hu2 Hl Hsh)).
Qed.

(* The multi-couplings do not depend on the order in which the operators are listed: listing the operators in
   another order (ops', any permutation, any number of operators) permutes the entries of every row of mps_ijkl in
   the same way and changes nothing else - for the specification and, under the hypotheses of
   T19_multi_couplings_exact, for the rows returned by the model of possible_multi_couplings (same representative
   for infinite MPS, since the minimum of a row does not depend on the order). *)
Theorem T19_multi_couplings_operator_order : forall lat, wf lat -> forall ops ijkl ops' ijkl',
  length ops = length ijkl -> length ops' = length ijkl' ->
  Permutation (combine ops ijkl) (combine ops' ijkl') ->
  (multi_coupled lat ops ijkl <-> multi_coupled lat ops' ijkl') /\
  (ops_wf lat ops -> ops_wf lat ops' ->
   (open0 lat = true -> Forall (fun s => s = 0) (shiftr lat)) ->
   (In ijkl (multi_ijkl lat ops) <-> In ijkl' (multi_ijkl lat ops'))).
Proof. exact multi_operator_order. Qed.

(* Infinite MPS: a coupling (i, j) listed by possible_couplings stands for its whole translation class - for every
   integer m the MPS sites i + m * N_sites, j + m * N_sites are the sites u1, u2 of two cells connected by dx (the
   index map moves by m * Ls[0] rings along x) - and it is the only member of that class that is listed.
   The second clause is a property of the specification (the last clause of `coupled`, 0 <= min(i, j) < N_sites); that
   possible_couplings lists this representative is T19_couplings_exact. *)
Theorem T19_couplings_translation : forall lat, wf lat -> infinite lat = true -> forall u1 u2 dx0 dxr i j,
  coupled lat u1 u2 dx0 dxr i j ->
  (forall m, exists x0 xr y0 yr,
     mps2lat lat (i + m * nsites lat) = Some (x0, xr, u1) /\
     mps2lat lat (j + m * nsites lat) = Some (y0, yr, u2) /\
     connected lat x0 xr dx0 dxr y0 yr) /\
  (forall m, coupled lat u1 u2 dx0 dxr (i + m * nsites lat) (j + m * nsites lat) -> m = 0).
Proof. exact couplings_translation. Qed.

(* tests/test_lattice.py test_lattice_order: Square(4, 3, order='snake') *)
Example T19_example_snake :
  get_order [4; 3; 1] [true; true; true] [0; 1; 2]%nat =
  [[0;0;0]; [0;1;0]; [0;2;0]; [1;2;0]; [1;1;0]; [1;0;0]; [2;0;0]; [2;1;0]; [2;2;0]; [3;2;0]; [3;1;0]; [3;0;0]].
Proof. vm_compute. reflexivity. Qed.

(* same test: Honeycomb(2, 3, order=('standard', (True, False, False), (0.3, 0.1, -1.))), argsort = [2;1;0] *)
Example T19_example_priority :
  get_order [2; 3; 2] [true; false; false] [2; 1; 0]%nat =
  [[0;0;0]; [1;0;0]; [1;1;0]; [0;1;0]; [0;2;0]; [1;2;0]; [0;0;1]; [1;0;1]; [1;1;1]; [0;1;1]; [0;2;1]; [1;2;1]].
Proof. vm_compute. reflexivity. Qed.

(* the hypothesis of T19_get_order_priority_perm holds for that argsort *)
Example T19_example_priority_hyp : Permutation [2; 1; 0]%nat (seq 0 (length [2; 3; 2])).
Proof. cbn. apply Permutation_sym. apply (Permutation_rev [0; 1; 2]%nat). Qed.

(* Honeycomb(2, 3, order='snake', bc='periodic', bc_MPS='infinite') of test_possible_couplings *)
Definition ex_honey : lattice :=
  mkLat 2 [3] 2 false [false] [0] true
    [(0, [0], 0); (0, [1], 0); (0, [2], 0); (0, [0], 1); (0, [1], 1); (0, [2], 1);
     (1, [2], 1); (1, [1], 1); (1, [0], 1); (1, [2], 0); (1, [1], 0); (1, [0], 0)].

Example T19_example_wf : wf ex_honey.
Proof.
  constructor; cbn; try lia; try discriminate.
  - repeat constructor; lia.
  - repeat constructor; cbn; lia.
  - repeat (constructor; [cbn; intuition congruence|]). constructor.
  - intros _. split; [reflexivity|discriminate].
Qed.

Example T19_example_couplings :
  coupling_pairs ex_honey 0 1 (-1) [-1] = [(12, 6); (13, 8); (14, 7); (9, 4); (10, 3); (11, 5)] /\
  coupling_pairs ex_honey 0 1 2 [1] = [(0, 16); (1, 17); (2, 15); (9, 20); (10, 18); (11, 19)] /\
  mps2lat ex_honey (-3) = Some (-1, [2], 0) /\ lat2mps ex_honey (2, [1], 1) = Some 16.
Proof. vm_compute. repeat split. Qed.

(* values on ex_honey: A = [100 .. 111]; the value of MPS site 7 = lattice index (1, 1, 1) and the
   u = 1 part A' = A[mps_idx_fix_u(1)] = A[[3;4;5;6;7;8]] *)
Example T19_example_values :
  mps2lat ex_honey 7 = Some (1, [1], 1) /\
  mps2lat_values ex_honey (map Z.of_nat (seq 100 12)) (1, [1], 1) = Some 107 /\
  mps_fix_u ex_honey 1 = [3; 4; 5; 6; 7; 8] /\
  mps2lat_values_u ex_honey 1 [103; 104; 105; 106; 107; 108] 1 [1] = Some 107 /\
  values_flat ex_honey (map Z.of_nat (seq 100 12)) =
    map Some [100; 103; 101; 104; 102; 105; 111; 108; 110; 107; 109; 106].
Proof. vm_compute. repeat split. Qed.

(* three-site couplings on ex_honey (infinite MPS, all directions periodic): the rows, and one of them
   seen through the specification (anchor cell found by the theorem) *)
Definition ex_ops : list op := [(0, [0], 0); (1, [0], 1); (-1, [1], 0)].

Example T19_example_multi :
  ops_wf ex_honey ex_ops /\
  multi_ijkl ex_honey ex_ops =
    [[11; 15; 1]; [10; 16; 2]; [9; 17; 0]; [12; 20; 10]; [13; 19; 9]; [14; 18; 11]] /\
  multi_coupled ex_honey ex_ops [12; 20; 10].
Proof.
  assert (Hw : ops_wf ex_honey ex_ops).
  { split; [discriminate|]. repeat constructor; cbn; lia. }
  split; [exact Hw|]. split; [vm_compute; reflexivity|].
  apply (multi_sound ex_honey T19_example_wf ex_ops Hw). vm_compute. tauto.
Qed.

(* the IrregularLattice of tests/test_lattice.py test_IrregularLattice (Honeycomb 3x3, bc open/periodic,
   three sites removed, two added) with the hand-written expectations of that test *)
Definition ex_irregular : lattice :=
  mkLat 3 [3] 4 true [false] [0] false
    [(0, [1], 0); (0, [2], 0); (0, [0], 1); (0, [1], 1); (0, [2], 1); (1, [0], 0); (1, [1], 2); (1, [2], 0);
     (1, [0], 1); (1, [1], 3); (1, [2], 1); (2, [0], 0); (2, [1], 0); (2, [2], 0); (2, [0], 1); (2, [1], 1); (2, [2], 1)].

Example T19_example_irregular :
  coupling_pairs ex_irregular 0 1 0 [0] = [(0, 3); (1, 4); (5, 8); (7, 10); (11, 14); (12, 15); (13, 16)] /\
  coupling_pairs ex_irregular 1 0 1 [0] = [(2, 5); (4, 7); (8, 11); (10, 13)] /\
  coupling_pairs ex_irregular 1 0 0 [1] = [(2, 0); (3, 1); (10, 5); (14, 12); (15, 13); (16, 11)].
Proof. vm_compute. repeat split. Qed.

(* Lattice.enlarge_mps_unit_cell(f) (Model/LatticeTransform.v `enlarge`, run against the code in the stream
   "model-transform": Ls[0], N_sites and the order after enlarge_mps_unit_cell / extract_segment) of an infinite
   lattice: the new MPS unit cell has f * N_sites sites and f * Ls[0] rings, and the (periodically extended) map
   MPS index -> lattice index is unchanged, and N_sites must equal the length of the new order.  Any dimension, any order,
   any f >= 1.  (T19_index_inverse etc. apply to the enlarged lattice once it is well-formed; that `enlarge` keeps `wf` is
   not proved.) *)
Theorem T19_enlarge_keeps_index_map : forall (f : nat) lat,
  (0 < f)%nat -> infinite lat = true -> lorder lat <> [] ->
  nsites (enlarge f lat) = Z.of_nat f * nsites lat /\
  L0 (enlarge f lat) = Z.of_nat f * L0 lat /\
  forall i, mps2lat (enlarge f lat) i = mps2lat lat i.
Proof.
  intros f lat Hf Hinf Hne. exact (conj (enlarge_nsites f lat) (conj eq_refl (enlarge_mps2lat f lat Hf Hinf Hne))).
Qed.

(* a snake-ordered 2x2 square lattice, infinite MPS: enlarged by 3 it has 12 sites, MPS site 9 = site 1 shifted by two
   old unit cells *)
Definition ex_snake_inf : lattice :=
  mkLat 2 [2] 1 false [false] [0] true [(0, [0], 0); (0, [1], 0); (1, [1], 0); (1, [0], 0)].

Example T19_example_enlarge :
  infinite ex_snake_inf = true /\ lorder ex_snake_inf <> [] /\
  nsites (enlarge 3 ex_snake_inf) = 12 /\
  nth_error (lorder (enlarge 3 ex_snake_inf)) 9 = Some (4, [1], 0) /\
  mps2lat (enlarge 3 ex_snake_inf) 9 = Some (4, [1], 0) /\ mps2lat ex_snake_inf 9 = Some (4, [1], 0).
Proof. vm_compute. repeat split. discriminate. Qed.

(* enlarge_mps_unit_cell(f) keeps the couplings: (i, j) is a coupling (u1, u2, dx) of the enlarged infinite lattice
   iff it is one of the f translates, by m * N_sites with 0 <= m < f, of a coupling of the original lattice - so a
   model built on the enlarged lattice has the same Hamiltonian.  Any dimension, order, bc and bc_shift, any f >= 1.
   (Specification level: `coupled`; that possible_couplings of the enlarged lattice lists exactly these is
   T19_couplings_exact for a well-formed enlarged lattice - `wf (enlarge f lat)` is not proved - and is run against the
   code in the stream model-transform.) *)
Theorem T19_enlarge_keeps_couplings : forall (f : nat) lat, (0 < f)%nat -> wf lat -> infinite lat = true ->
  forall u1 u2 dx0 dxr i j,
  coupled (enlarge f lat) u1 u2 dx0 dxr i j <->
  exists m, 0 <= m < Z.of_nat f /\
    coupled lat u1 u2 dx0 dxr (i - m * nsites lat) (j - m * nsites lat).
Proof. exact enlarge_couplings. Qed.

(* its hypotheses hold for the snake-ordered 2x2 lattice above *)
Example T19_example_enlarge_wf : wf ex_snake_inf /\ infinite ex_snake_inf = true.
Proof.
  split; [|reflexivity].
  constructor; cbn; try lia; try discriminate.
  - repeat constructor; lia.
  - repeat constructor; cbn; lia.
  - repeat (constructor; [cbn; intuition congruence|]). constructor.
  - intros _. split; [reflexivity|discriminate].
Qed.

(* MultiSpeciesLattice: u = simple_u * N_species + species (simple_u_to_species_u) is a bijection between
   (site of the simple unit cell, species) and the unit cell indices 0 <= u < simple_Lu * N_species, inverted by
   self_u_to_simple_u = u // N_species and self_u_to_species_idx = u % N_species. *)
Theorem T19_species_index_bijection : forall nsp slu, 0 < nsp ->
  (forall su sp, 0 <= su < slu -> 0 <= sp < nsp ->
     0 <= ms_u nsp su sp < slu * nsp /\ ms_simple_u nsp (ms_u nsp su sp) = su /\ ms_species nsp (ms_u nsp su sp) = sp) /\
  (forall u, 0 <= u < slu * nsp ->
     0 <= ms_simple_u nsp u < slu /\ 0 <= ms_species nsp u < nsp /\ ms_u nsp (ms_simple_u nsp u) (ms_species nsp u) = u).
Proof. exact species_index_bijection. Qed.

(* MultiSpeciesLattice._generate_new_pairs (model functions ms_pairs_sp / ms_pairs_all / ms_onsite, run against the
   code in the stream "model-species"): pairs['<key>_<a>-<b>'] are exactly the (u1, u2, dx) whose first site has
   species a, whose second site has species b and whose simple sites form a pair (su1, su2, dx) of pairs[key] of the
   simple lattice; '<key>_all-all' are all (u1, u2, dx) over such a simple pair; 'onsite_<a>-<b>' are exactly species a
   and species b on one and the same simple site with dx = 0.  (That species / simple site of a unit cell index are
   u % N_species / u // N_species - i.e. that sites and positions are laid out that way - is checked by the oracle
   from the site objects and unit_cell_positions.) *)
Theorem T19_species_pairs : forall nsp slu dim ps, 0 < nsp ->
  (forall a b, 0 <= a < nsp -> 0 <= b < nsp -> forall u1 u2 dx,
     In (u1, u2, dx) (ms_pairs_sp nsp a b ps) <->
     ms_species nsp u1 = a /\ ms_species nsp u2 = b /\ In (ms_simple_u nsp u1, ms_simple_u nsp u2, dx) ps) /\
  (forall u1 u2 dx,
     In (u1, u2, dx) (ms_pairs_all nsp ps) <-> In (ms_simple_u nsp u1, ms_simple_u nsp u2, dx) ps) /\
  (forall a b, 0 <= a < nsp -> 0 <= b < nsp -> forall u1 u2 dx,
     In (u1, u2, dx) (ms_onsite nsp slu dim a b) <->
     ms_species nsp u1 = a /\ ms_species nsp u2 = b /\ ms_simple_u nsp u1 = ms_simple_u nsp u2 /\
     0 <= ms_simple_u nsp u1 < slu /\ dx = repeat 0 dim).
Proof.
  intros nsp slu dim ps Hn.
  exact (conj (ms_pairs_sp_spec nsp ps) (conj (ms_pairs_all_spec nsp ps Hn) (ms_onsite_spec nsp slu dim))).
Qed.

(* Ladder (rung pair (0, 1, [0])) with 3 species: the rung of species 0-0 connects u = 0 and u = 3 *)
Example T19_example_species :
  ms_pairs_sp 3 0 0 [(0, 1, [0]); (0, 0, [1]); (1, 1, [1])] = [(0, 3, [0]); (0, 0, [1]); (3, 3, [1])] /\
  ms_onsite 3 2 1 0 2 = [(0, 2, [0]); (3, 5, [0])].
Proof. vm_compute. split; reflexivity. Qed.

(* the reversed couplings of T19_example_couplings / T19_example_irregular: same bonds, i and j exchanged *)
Example T19_example_reverse :
  coupling_pairs ex_honey 1 0 1 [1] = [(3, 10); (4, 9); (5, 11); (6, 12); (7, 14); (8, 13)] /\
  coupling_pairs ex_irregular 0 1 (-1) [0] = [(5, 2); (7, 4); (11, 8); (13, 10)].
Proof. vm_compute. split; reflexivity. Qed.

(* two-operator multi-couplings of T19_example_couplings / T19_example_irregular: the same bonds *)
Example T19_example_two_ops :
  multi_ijkl ex_honey [(0, [0], 0); (-1, [-1], 1)] = [[10; 3]; [9; 4]; [11; 5]; [13; 8]; [14; 7]; [12; 6]] /\
  multi_ijkl ex_irregular [(0, [0], 1); (1, [0], 0)] = [[2; 5]; [4; 7]; [8; 11]; [10; 13]].
Proof. vm_compute. split; reflexivity. Qed.

(* ex_ops of T19_example_multi listed in another order: the same rows with the columns permuted *)
Example T19_example_operator_order :
  multi_ijkl ex_honey [(1, [0], 1); (-1, [1], 0); (0, [0], 0)] =
    [[15; 1; 11]; [16; 2; 10]; [17; 0; 9]; [20; 10; 12]; [19; 9; 13]; [18; 11; 14]] /\
  Permutation (combine ex_ops [11; 15; 1]) (combine [(1, [0], 1); (-1, [1], 0); (0, [0], 0)] [15; 1; 11]).
Proof.
  split; [vm_compute; reflexivity|]. cbn [combine ex_ops].
  eapply perm_trans; [apply perm_swap|]. apply perm_skip. apply perm_swap.
Qed.

(* the hypothesis of T19_couplings_translation holds for the first pair of T19_example_couplings; MPS site 7 two
   unit cells further *)
Example T19_example_translation :
  infinite ex_honey = true /\ coupled ex_honey 0 1 (-1) [-1] 12 6 /\
  mps2lat ex_honey (7 + 2 * nsites ex_honey) = Some (1 + 2 * L0 ex_honey, [1], 1).
Proof.
  split; [reflexivity|]. split; [|vm_compute; reflexivity].
  apply (pairs_sound ex_honey T19_example_wf 0 1 (-1) [-1] ltac:(cbn; lia)); vm_compute; tauto.
Qed.

Print Assumptions T19_get_order_perm.
Print Assumptions T19_get_order_priority_perm.
Print Assumptions T19_index_inverse.
Print Assumptions T19_values_reshape.
Print Assumptions T19_values_reshape_fix_u.
Print Assumptions T19_couplings_exact.
Print Assumptions T19_couplings_shift_refuted.
Print Assumptions T19_multi_couplings_exact.
Print Assumptions T19_enlarge_keeps_index_map.
Print Assumptions T19_species_index_bijection.
Print Assumptions T19_species_pairs.
Print Assumptions T19_index_injective.
Print Assumptions T19_couplings_reverse.
Print Assumptions T19_two_operator_multi_coupling.
Print Assumptions T19_multi_couplings_operator_order.
Print Assumptions T19_couplings_translation.
Print Assumptions T19_enlarge_keeps_couplings.
