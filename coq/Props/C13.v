(* Property C13: variational ground-state search is sound and converges on small systems.
   Sweep protocol of mps_common.py.  Energy / convergence / canonical-form clauses are decided by the oracle of
   harness/c13.py (exact diagonalisation) only; see T13_energy_variational_partial. *)
From TenpyV Require Import Base.Prelude Model.Charge Model.Sweep Model.SweepCharge Model.SweepInf Proofs.SweepP Proofs.SweepP2 Proofs.SweepChargeP Proofs.SweepInfP Model.SweepStop Proofs.SweepStopP.

(* get_sweep_schedule, finite and infinite bc.  With m right moves (L - n finite, L infinite): position i is optimised
   moving right for every i < m and moving left for every 1 <= i <= m; consecutive entries - cyclically, i.e. including
   the first entry of the next sweep - differ by exactly one site, in the direction move_right announces. *)
Theorem T13_schedule_covers : forall (fin : bool) L n, (n = 1 \/ n = 2)%nat -> (n < L)%nat ->
  let m := right_moves fin L n in
  let is := map (fun e : entry => fst (fst e)) (schedule fin L n) in
  let ms := map (fun e : entry => snd (fst e)) (schedule fin L n) in
  length (schedule fin L n) = (2 * m)%nat /\
  (forall i, (i < m)%nat -> nth i is 0%nat = i /\ nth i ms false = true) /\
  (forall i, (1 <= i <= m)%nat -> nth (2 * m - i) is 0%nat = i /\ nth (2 * m - i) ms false = false) /\
  (forall k, (k < 2 * m)%nat ->
     nth ((k + 1) mod (2 * m)) is 0%nat =
     if nth k ms false then (nth k is 0 + 1)%nat else (nth k is 0 - 1)%nat).
Proof. exact schedule_covers_full. Qed.

(* Finite bc, UNBOUNDED in the chain length L > n (n = 1, 2) and in the number k of consecutive sweeps, started from
   a fresh environment (only LP[0], RP[L-1] stored): along repeat_list (schedule true L n) k every LP[i0] / RP[i0+n-1]
   read to build eff_H was contracted from the CURRENT versions of all sites to its left / right, and after every step
   every stored environment is current. *)
Theorem T13_no_stale_env : forall L n k, (n = 1 \/ n = 2)%nat -> (n < L)%nat -> no_stale L n k = true.
Proof. exact no_stale_all. Qed.

(* PARTIAL (bounded unit cell, UNBOUNDED number of sweeps): infinite bc, Model/SweepInf.v (get_LP / get_RP with the
   shift by unit cells, update_env, free_no_longer_needed_envs, infinite schedule; every contracted factor of a stored
   environment carries one boolean "contracted from the current version of that site", the nearest 2L+2 are recorded).
   Environments of iDMRG lag by design; what holds - and is what `no_stale_inf` evaluates - is: for every number k of
   sweeps started from init_LP(0) / init_RP(L-1), the LP[i0] and RP[i0+n-1] read for eff_H exist and are current on
   EVERY site of a window of L consecutive sites containing the optimised sites ([0, L) while moving right, [n, L+n)
   while moving left); only factors outside that window (other copies of the unit cell) may be older versions.
   The bound L <= 24 of the statement is not used (no_stale_inf_every_L).  Tie of the model to the code:
   correspondence stream `env-trace-inf` of harness/c13.py (Model/SweepInfCheck.v check_inf_run: instrumented infinite
   DMRG runs, L = 2..4, stored keys / per-factor currency / ages after every local update and the environments read
   for eff_H; the runs include L = n = 2: next theorem). *)
Theorem T13_no_stale_env_infinite_partial : forall L n k, (n = 1 \/ n = 2)%nat -> (n < L <= 24)%nat ->
  no_stale_inf L n k = true.
Proof. intros L n k Hn [HL _]. exact (no_stale_inf_every_L L n k Hn HL). Qed.

(* ... and the same for the two-site engine on a unit cell of exactly two sites (L = n = 2, the standard iDMRG set-up,
   not covered by n < L above): here the window is the whole unit cell [0, 2) moving right and [2, 4) moving left. *)
Theorem T13_no_stale_env_infinite_L2_two_site : forall k, no_stale_inf 2 2 k = true.
Proof. exact no_stale_inf_2_2. Qed.

(* the window cannot be widened to "all recorded factors": the LP read at the turning point i0 = L contains site 0 in
   the version before the update at i0 = L - 1 rewrote it (as site L) *)
Theorem T13_infinite_lag_is_real : exists L n, (n < L)%nat /\
  let s := exec_i L n (init_i L) (firstn L (schedule false L n)) in
  current_upto L (snd (get_lp_i L s L)) = false /\ current_upto (L - 1) (snd (get_lp_i L s L)) = true.
Proof. exists 4%nat, 2%nat. split; [lia|]. vm_compute. split; reflexivity. Qed.

(* Charge sector (Model/SweepCharge.v: qtotal bookkeeping of TwoSiteDMRGEngine / SingleSiteDMRGEngine.update_local:
   theta.qtotal, the qtotal_LR handed to svd_theta / the mixers, determine_qtotal_L_R, gauge_total_charge, set_B, with
   make_valid exactly where the code has it).  For EVERY chinfo ci (any number of charges, mods >= 1), EVERY L > n,
   finite or infinite schedule, EVERY prefix of p local updates of k sweeps, EVERY choice of mixer at every step
   (none / DensityMatrixMixer / SubspaceExpansion) and site charges qs of the right shape: if the eigensolver keeps
   theta's sector (`keeps`: everything except diag_method='ED_all') and no update raised, then
   MPS.get_total_charge() = make_valid(sum_i B_i.qtotal) is unchanged.  The hypothesis valid_ci is not used, here and in
   the two theorems on charges below: the laws of make_valid hold for every modulus (Proofs/ChargeP.v). *)
Theorem T13_charge_sector : forall (ci : chinfo) (fin : bool) (L n k p : nat) (cs : list cfg) (qs qs' : list charge),
  valid_ci ci -> (n = 1 \/ n = 2)%nat -> (n < L)%nat -> length qs = L -> wfq ci qs -> Forall keeps cs ->
  run_q ci n qs (firstn p (repeat_list (schedule fin L n) k)) cs = Some qs' ->
  total_charge ci qs' = total_charge ci qs /\ length qs' = L /\ wfq ci qs'.
Proof. intros ci fin L n k p cs qs qs' _. apply charge_sector_all. Qed.

(* ... and no update raises, for any list of entries that update two different sites (every schedule entry does:
   schedule_wf), unless the one-site engine runs with a DensityMatrixMixer or SubspaceExpansion is asked to mix
   neither side. *)
Theorem T13_charge_no_raise : forall (ci : chinfo) (n : nat), valid_ci ci -> forall es cs qs, wfq ci qs ->
  (2 <= length qs)%nat -> Forall keeps cs -> Forall (wf_entry n) es -> length cs = length es ->
  Forall (fun ec => never_raises_cfg n (fst ec) (snd ec)) (combine es cs) ->
  exists qs', run_q ci n qs es cs = Some qs'.
Proof. intros ci n _. apply run_q_no_raise. Qed.

(* REFUTED (finding, replayed on the code: TFIChain conserve='parity', L = 6, product state with Sigmax applied to two
   neighbouring sites, SingleSiteDMRGEngine with mixer='DensityMatrixMixer' raises
   "ValueError: qtotal_LR must add up to theta_qtotal=array([0])"): Mixer.determine_qtotal_L_R compares
   qtotal_L + qtotal_R with theta.qtotal WITHOUT make_valid, so for a Z_N charge the one-site engine with the
   two-site fallback raises as soon as the two stored qtotal wrap around. *)
Theorem T13_charge_one_site_dm_mixer_refuted : exists ci qs e,
  valid_ci ci /\ wfq ci qs /\ forallb (check_valid ci) qs = true /\ wf_entry 1 e /\ upd_q ci 1 qs e (MixDM, None) = None.
Proof. exact dm_one_site_raises_ex. Qed.

(* diag_method='ED_all' may move theta to another sector q; two-site engine without mixer: the two new tensors then
   carry exactly q (the change is absorbed into the right tensor), i.e. the state follows the eigensolver. *)
Theorem T13_charge_ed_all : forall ci qs i0 upl upr q qs', valid_ci ci -> wfq ci qs -> (2 <= length qs)%nat -> vl ci q ->
  upd2_q ci qs i0 upl upr (MixNone, Some q) = Some qs' ->
  make_valid ci (vadd (getq qs' i0) (getq qs' (i0 + 1))) = make_valid ci q.
Proof. intros ci qs i0 upl upr q qs' _. apply upd2_ed_all. Qed.

(* PARTIAL: E >= E0 only in an eigenbasis of H (diagonal d bounded below by E0, integer amplitudes x):
   <x|H|x> >= E0 <x|x>.  Missing: spectral theorem for the dense Hamiltonian; decided by exact diagonalisation in
   harness/c13.py. *)
Theorem T13_energy_variational_partial : forall E0 d x,
  Forall (fun di => (E0 <= di)%Z) d -> (E0 * e_den d x <= e_num d x)%Z.
Proof. exact energy_variational_diag. Qed.

(* non-vacuity: the finite two-site schedule of 5 sites, and the stored environments after its first step *)
Example T13_example_schedule :
  map (fun e : entry => (fst (fst e), snd (fst e))) (schedule true 5 2) =
  [(0, true); (1, true); (2, true); (3, false); (2, false); (1, false)]%nat.
Proof. vm_compute. reflexivity. Qed.
Example T13_example_step :
  fst (run 2 (init_st 5) (firstn 2 (schedule true 5 2))) =
  [(true, [0; 1], [2; 3; 4]); (true, [0; 1; 2], [3; 4])]%nat.
Proof. vm_compute. reflexivity. Qed.
Example T13_example_inf : map (fun e : entry => fst (fst e)) (schedule false 3 1) = [0; 1; 2; 3; 2; 1]%nat.
Proof. vm_compute. reflexivity. Qed.

(* non-vacuity of T13_charge_sector: U(1) x Z_3, four sites, 7 local updates of the two-site engine with all three
   mixer kinds; the site charges move, the total [6; 2] does not *)
Example T13_example_charge :
  let ci := [1; 3]%Z in let qs := [[2; 1]; [0; 2]; [-1; 0]; [5; 2]]%Z in
  let cs := [(MixDM, None); (MixSub, None); (MixNone, None); (MixSub, None); (MixDM, None); (MixNone, None); (MixNone, None)] in
  valid_ci ci /\ wfq ci qs /\ Forall keeps cs /\
  run_q ci 2 qs (firstn 7 (repeat_list (schedule true 4 2) 2)) cs = Some [[2; 1]; [0; 0]; [-1; 2]; [5; 2]]%Z /\
  total_charge ci qs = [6; 2]%Z /\ total_charge ci [[2; 1]; [0; 0]; [-1; 2]; [5; 2]]%Z = [6; 2]%Z.
Proof.
  cbn zeta. split; [repeat constructor; lia|]. split; [repeat constructor|]. split; [repeat constructor|].
  split; [vm_compute; reflexivity|]. split; vm_compute; reflexivity.
Qed.

(* the two-site schedule on a two-site unit cell, and RP after one sweep *)
Example T13_example_inf_L2 : map (fun e : entry => fst (fst e)) (schedule false 2 2) = [0; 1; 2; 1]%nat /\
  irp (exec_i 2 2 (init_i 2) (schedule false 2 2)) = [None; Some [true; false; false; false]].
Proof. vm_compute. split; reflexivity. Qed.
(* non-vacuity: two sweeps of the infinite two-site schedule on a 4-site unit cell; the state after three sweeps *)
Example T13_example_inf_run : no_stale_inf 4 2 2 = true /\
  ilp (exec_i 4 2 (init_i 4) (repeat_list (schedule false 4 2) 3)) =
    [Some [false; false; false; false; false; false; false; false; false; false]; None; None; None] /\
  nth 1 (irp (exec_i 4 2 (init_i 4) (repeat_list (schedule false 4 2) 3))) None =
    Some [true; true; true; false; false; false; false; false; false; false].
Proof. vm_compute. repeat split; reflexivity. Qed.

(* chi lists and sweep counts (Model/SweepStop.v: IterativeSweeps.run / stopping_criterion, the chi_list / mixer handling of
   Sweep.sweep, Mixer.update_amplitude and the default of min_sweeps derived in DMRGEngine.__init__ / VUMPSEngine.__init__).
   For EVERY option set with a non-empty chi_list l and EVERY sequence of answers of is_converged(): the optimisation sweeps that
   were run are numbered 0 .. n-1 and each ran with the chi_max of the largest key of l that is <= its number (`latest`: the documented
   meaning of chi_list; chi0 = trunc_params['chi_max'] before the first key); and when min_sweeps is left at its DEFAULT and run() stops
   because the run is converged (not because of max_sweeps), more sweeps than the last key of l were made, every entry (k, c) of l came
   into force in sweep k, the chi_max in force at the end is the last entry of l and the mixer is off.  The statement is about runs
   on which run_model returns Some: it returns None when convs is too short and, for N_sweeps_check = 0 (no sweep is ever made), for
   every fuel; that it returns Some otherwise is not stated.  Tie to the code: correspondence
   stream stop-trace (check_stop_run) on every DMRG / VUMPS run of harness/c13.py. *)
Theorem T13_chi_ramp_completes : forall o l convs reason st recs rest,
  o_chis o = Some l -> l <> [] ->
  run_model o convs = Some (reason, st, recs, rest) ->
  map rec_no recs = seq 0 (s_sweeps st) /\
  Forall (fun r => rec_chi r = latest l (o_chi0 o) (rec_no r)) recs /\
  (reason = Converged -> o_min o = None ->
     (max_key l < s_sweeps st)%nat /\
     (forall k c, chi_get l k = Some c -> In (k, Some c) (map fst recs)) /\
     s_chi st = chi_get l (max_key l) /\ s_mixer st = None).
Proof. exact chi_ramp_completes. Qed.

Theorem T13_chi_list_latest : forall l chi0 s,
  (exists k c, (k <= s)%nat /\ chi_get l k = Some c /\ latest l chi0 s = Some c /\
               forall k', (k < k' <= s)%nat -> chi_get l k' = None) \/
  (latest l chi0 s = chi0 /\ forall k', (k' <= s)%nat -> chi_get l k' = None).
Proof. exact latest_spec. Qed.

(* non-vacuity: chi_list {0: 2, 3: 16}, N_sweeps_check = 1, default min_sweeps (= 3), mixer with disable_after = 2,
   reactivated at sweep 3; is_converged() answers true, true: after sweep 3 the mixer is switched off and the run
   continues, after sweep 4 it stops: 5 sweeps, chi_max = 16.  And with an explicit min_sweeps = 1 a run (chi_list
   {0: 2, 6: 16}, no mixer) stops as converged after 2 sweeps at chi_max = 2: the default is needed. *)
Example T13_example_ramp :
  run_model (mkSopts 1 None 20 (Some [(0, 2); (3, 16)]%nat) None true true (Some 2%nat) None) [true; true] =
  Some (Converged, mkSst 5 (Some 16%nat) None,
        [(0, Some 2, true); (1, Some 2, true); (2, Some 2, false); (3, Some 16, true); (4, Some 16, false)]%nat, []).
Proof. vm_compute. reflexivity. Qed.
Example T13_example_early_stop : exists o l convs st recs rest,
  o_chis o = Some l /\ run_model o convs = Some (Converged, st, recs, rest) /\ (s_sweeps st <= max_key l)%nat.
Proof. exact early_stop_possible. Qed.

Print Assumptions T13_schedule_covers.
Print Assumptions T13_no_stale_env.
Print Assumptions T13_energy_variational_partial.
Print Assumptions T13_no_stale_env_infinite_partial.
Print Assumptions T13_no_stale_env_infinite_L2_two_site.
Print Assumptions T13_infinite_lag_is_real.
Print Assumptions T13_charge_sector.
Print Assumptions T13_charge_no_raise.
Print Assumptions T13_charge_one_site_dm_mixer_refuted.
Print Assumptions T13_charge_ed_all.
Print Assumptions T13_chi_ramp_completes.
Print Assumptions T13_chi_list_latest.
