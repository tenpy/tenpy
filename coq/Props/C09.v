(* Property C09: MPS transformations implement the documented map on states -- the combinatorial core:
   permute_sites (loop of adjacent swaps, arrangement convention, fermionic sign) and the structural operations
   spatial_inversion / roll_mps_unit_cell / enlarge_mps_unit_cell on (labels, exponents, dimensions), the sign table
   of swap_sites, and the block algebra of MPS.add.
   Not proved (oracle of harness/c09.py): operators, compression error, group/split, canonical_form after add. *)
From TenpyV Require Import Base.Prelude Model.MpsIndex Model.MpsForm Model.Perms Proofs.MpsFormP Proofs.PermsP.
From TenpyV Require Import Model.MpsAdd Proofs.MpsAddP Model.MpsAddCheck Proofs.MpsAddCheckP.
From TenpyV Require Import Model.SwapSign Proofs.SwapSignP.
Open Scope Z_scope.

(* the while-loop of permute_sites terminates within the stated fuel for EVERY list, ends with a sorted perm list,
   and perm entries and sites were moved together *)
Theorem T09_permute_terminates_sorts : forall (perm : list Z) (arr : list (Z * bool)),
  length arr = length perm ->
  let r := permute perm arr in
  step r = None /\ StronglySorted Z.le (p_perm r) /\
  length (p_perm r) = length perm /\ length (p_arr r) = length perm /\
  Permutation (combine perm arr) (combine (p_perm r) (p_arr r)).
Proof. exact permute_terminates_sorts. Qed.

(* for a permutation of 0..L-1: the final list is the identity and new[perm[i]] = old[i] (the convention that
   tests/test_mps.py::test_mps_swap asserts; the docstring of permute_sites states the inverse);
   the sign collected from the (-1)^{n_i n_{i+1}} of every swap_sites is the parity of the number of inverted pairs
   with two odd occupations, i.e. the sign of reordering the creation operators of that Fock basis state;
   the number of swap_sites calls is the number of inversions *)
Theorem T09_permute_arrangement : forall (perm : list Z) (arr : list (Z * bool)) (d : Z * bool),
  length arr = length perm ->
  Permutation perm (map Z.of_nat (seq 0 (length perm))) ->
  let r := permute perm arr in
  p_perm r = map Z.of_nat (seq 0 (length perm)) /\
  (forall i, (i < length perm)%nat -> nth (Z.to_nat (nth i perm 0)) (p_arr r) d = nth i arr d) /\
  p_sign r = Nat.odd (ginv inv_odd (combine perm arr)) /\
  length (p_log r) = ginv inv_key (combine perm arr).
Proof.
  intros perm arr d Hl Hp.
  destruct (permute_arrangement perm arr d Hl Hp) as [H1 H2]. destruct (permute_count_sign perm arr Hl) as [Hc Hs].
  exact (conj H1 (conj H2 (conj Hs Hc))).
Qed.

(* spatial_inversion: site j becomes the mirrored site L-1-j with left/right (labels, exponents, bond dimensions)
   exchanged; labels stay truthful; applied twice it is the identity *)
Theorem T09_inversion_involutive : forall st,
  inversion (inversion st) = st /\
  (Forall truthful st -> Forall truthful (inversion st)) /\
  length (inversion st) = length st /\
  (forall j, (j < length st)%nat -> nth j (inversion st) dsite = flip (nth (length st - 1 - j) st dsite)).
Proof.
  intros st. split; [apply inversion_involutive|]. split; [apply inversion_truthful|].
  split; [apply inversion_length|apply inversion_nth].
Qed.

(* roll_mps_unit_cell(k) as documented (tensors fetched as stored): new site j is old site (j-k) mod L with its label,
   exponents and bond dimensions; truthfulness is preserved; rolling back is the identity *)
Theorem T09_roll_denotation : forall k st,
  length (roll k st) = length st /\
  (forall j, (j < length st)%nat -> nth j (roll k st) dsite = nth (Z.to_nat ((Z.of_nat j - k) mod len st)) st dsite) /\
  (Forall truthful st -> Forall truthful (roll k st)) /\
  roll (- k) (roll k st) = st.
Proof.
  intros k st. split; [apply roll_length|]. split; [intros j Hj; apply roll_nth; exact Hj|].
  split; [apply roll_truthful|apply roll_back].
Qed.

(* the variant that permutes the labels and then fetches get_B(i) in the default form 'B' does NOT keep the labels
   truthful (finding F7) *)
Theorem T09_roll_default_form_counterexample :
  exists k st st', Forall truthful st /\ roll_default_form k st = Some st' /\ ~ Forall truthful st'.
Proof. exact roll_default_form_breaks. Qed.

(* enlarge_mps_unit_cell(n): n copies, site j is old site j mod L *)
Theorem T09_enlarge_denotation : forall n st,
  length (enlarge n st) = (n * length st)%nat /\
  (forall j, (j < n * length st)%nat -> nth j (enlarge n st) dsite = nth (j mod length st) st dsite) /\
  (Forall truthful st -> Forall truthful (enlarge n st)).
Proof.
  intros n st. split; [apply enlarge_length|]. split; [apply enlarge_nth|apply enlarge_truthful].
Qed.

(* MPS.add is linear (Model/MpsAdd.v): for two chains of integer matrices A_1..A_L, B_1..B_L of the same length
   L >= 2 with ANY (also different, non-uniform) bond dimensions, the product of
     (alpha A_1 , beta B_1) . diag(A_2, B_2) ... diag(A_{L-1}, B_{L-1}) . (A_L ; B_L)
   is alpha * A_1...A_L + beta * B_1...B_L, entry by entry (the row index ranges over the shared left boundary, the
   column index over the shared right boundary; both of dimension 1 for bc='finite').  alpha, beta are the
   prefactors after multiplication with self.norm / other.norm as in the code.  The second statement is the same with
   the physical legs: for every configuration (p_1..p_L) the amplitude of the sum MPS is the linear combination.
   Not covered: the canonical_form_finite(renormalize=False) that MPS.add calls afterwards (numerics; oracle of c09.py).
   TIE: `tadd` is executed against MPS.add in the correspondence stream `add-blocks` of harness/c09.py
   (Model/MpsAddCheck.v). *)
Theorem T09_add_linear : forall (alpha beta : Z) (As Bs : chain),
  length As = length Bs -> (2 <= length As)%nat ->
  forall i j, chain_prod (add_chain alpha beta As Bs) i j = alpha * chain_prod As i j + beta * chain_prod Bs i j.
Proof. exact add_linear. Qed.

Theorem T09_add_linear_tensors : forall (alpha beta : Z) (TA TB : tchain) (ps : list nat),
  length TA = length TB -> (2 <= length TA)%nat -> length ps = length TA ->
  forall i j, amplitude (tadd alpha beta TA TB) ps i j = alpha * amplitude TA ps i j + beta * amplitude TB ps i j.
Proof. exact tadd_linear. Qed.

(* soundness of the correspondence checker of the stream `add-blocks` (Model/MpsAddCheck.v): whenever check_add_case
   accepts a recorded call psi.add(other, alpha, beta) -- TA, TB the tensors get_B(0,'Th'), get_B(i,'B') of the two
   inputs, TC the tensors the real code handed to the constructor of the sum, nA/nB the two norms -- then for EVERY
   physical configuration ps inside the recorded physical dimensions the amplitude of the OBSERVED tensors TC is
   alpha*nA * amplitude(TA) + beta*nB * amplitude(TB).  Hence every accepted case of the stream is an instance where the
   code's own tensors provably denote the documented linear combination (before the canonicalisation, which the oracle
   checks). *)
Theorem T09_add_check_sound : forall (alpha nA beta nB : Z) (TA TB TC : list ltens),
  check_add_case (alpha, nA, beta, nB, TA, TB, TC) = true ->
  length TA = length TB /\ length TC = length TA /\ (2 <= length TA)%nat /\
  forall (ps : list nat) (i j : nat),
    Forall2 in_pdim ps TC ->
    (i < rows_of (hd dltens TA))%nat -> (j < cols_of (last TC dltens))%nat ->
    amplitude (tchain_of TC) ps i j =
      (alpha * nA) * amplitude (tchain_of TA) ps i j + (beta * nB) * amplitude (tchain_of TB) ps i j.
Proof. exact add_check_sound. Qed.

(* the sign matrix MPS.swap_sites(i, swap_op='auto') builds (Model/SwapSign.v; tie: stream `swap-sign` of
   harness/c09_swapsign.py), for HETEROGENEOUS neighbours: jwL = JW_exponent of the LEFT site get_site(i) (dimension dL),
   jwR of the RIGHT site get_site(i+1) (dimension dR).  For all local states a < dL, b < dR the entry e of the diagonal at
   the flattened index a*dR+b
     - is -1 iff both exponents are odd, +1 otherwise;
     - is the Fock-space sign of (c^dag_i)^{na} (c^dag_{i+1})^{nb} -> (c^dag_{i+1})^{nb} (c^dag_i)^{na} for every pair
       of occupation numbers with these parities (parity of the number of adjacent transpositions of anticommuting
       creation operators, counted with ginv of Model/Perms.v);
     - is the only non-zero entry of the labelled array ['p1','p0','p0*','p1*'] = reshape [dL,dR,dL,dR] in the row
       (out-legs) p0 = b (state of the former right site, now on position i), p1 = a, at the column p0* = a, p1* = b;
     - is the sign one swap of the permute_sites loop model (Model/Perms.v, `step`; collected into
       T09_permute_arrangement's p_sign) applies when the two positions carry these parities.
   The matrix is the identity iff no pair of states with two odd exponents exists; the shortcut swap_op=None (plain
   relabeling) is taken only then, and for 0/1 exponents exactly then. *)
Theorem T09_swap_sign_table : forall (jwL jwR : list Z),
  let dL := length jwL in let dR := length jwR in
  length (swap_diag jwL jwR) = (dL * dR)%nat /\
  (forall a b, (a < dL)%nat -> (b < dR)%nat ->
     let e := nth (a * dR + b) (swap_diag jwL jwR) 0 in
     e = sign_ab jwL jwR a b /\
     (e = -1 <-> Z.odd (nth a jwL 0) = true /\ Z.odd (nth b jwR 0) = true) /\
     (forall na nb, Nat.odd na = Z.odd (nth a jwL 0) -> Nat.odd nb = Z.odd (nth b jwR 0) ->
        e = fock_exchange_sign na nb) /\
     (forall a' b', (a' < dL)%nat -> (b' < dR)%nat ->
        swap_op_entry jwL jwR b a a' b' = if ((a =? a') && (b =? b'))%nat then e else 0) /\
     (forall s s', step s = Some s' ->
        (nth (Datatypes.S (p_i s)) (p_perm s) 0 <? nth (p_i s) (p_perm s) 0) = true ->
        parity_at (p_arr s) (p_i s) = Z.odd (nth a jwL 0) ->
        parity_at (p_arr s) (Datatypes.S (p_i s)) = Z.odd (nth b jwR 0) ->
        p_sign s' = xorb (p_sign s) (e =? -1))) /\
  (Forall (fun x => x = 1) (swap_diag jwL jwR) <-> no_odd_pair jwL jwR) /\
  (swap_op_auto jwL jwR = None -> no_odd_pair jwL jwR) /\
  (forall dg, swap_op_auto jwL jwR = Some dg -> dg = swap_diag jwL jwR) /\
  (is_parity jwL -> is_parity jwR -> (swap_op_auto jwL jwR = None <-> no_odd_pair jwL jwR)).
Proof.
  intros jwL jwR dL dR. split; [apply swap_diag_length|]. split.
  - intros a b Ha Hb e. subst dL dR.
    assert (He : e = sign_ab jwL jwR a b) by (apply swap_diag_nth; assumption).
    split; [exact He|]. split; [rewrite He; apply sign_ab_m1|]. split.
    + intros na nb Hna Hnb. apply swap_entry_fock; assumption.
    + split.
      * intros a' b' Ha' Hb'. rewrite He. apply swap_op_entry_spec; assumption.
      * intros s s' Hs Hlt HpL HpR. apply step_sign_is_table; assumption.
  - split; [apply swap_diag_identity_iff|]. split; [apply swap_op_none_sound|].
    split; [apply swap_op_some|apply swap_op_none_iff].
Qed.

Example ex_permute :
  let r := permute [2; 0; 3; 1] [(10, true); (11, true); (12, false); (13, true)] in
  p_perm r = [0; 1; 2; 3] /\ map fst (p_arr r) = [11; 13; 10; 12] /\ p_log r = [0%nat; 2%nat; 1%nat] /\ p_sign r = false.
Proof. vm_compute. repeat split; reflexivity. Qed.
Example ex_perm_hyp : Permutation [2; 0; 3; 1] (map Z.of_nat (seq 0 4)).
Proof.
  cbn. apply perm_trans with (2 :: 0 :: 1 :: 3 :: nil).
  - do 2 apply perm_skip. apply perm_swap.
  - apply perm_trans with (0 :: 2 :: 1 :: 3 :: nil); [apply perm_swap|]. apply perm_skip. apply perm_swap.
Qed.

(* chains with bond dimensions 1-2-2-1 and 1-1-3-1 *)
Definition mat_of (l : list (list Z)) : mat := fun i j => nth j (nth i l []) 0.
Definition ex_As : chain := [(2%nat, mat_of [[1; 2]]); (2%nat, mat_of [[0; 1]; [3; -1]]); (1%nat, mat_of [[2]; [5]])].
Definition ex_Bs : chain := [(1%nat, mat_of [[4]]); (3%nat, mat_of [[1; -2; 3]]); (1%nat, mat_of [[1]; [1]; [2]])].
Example ex_add :
  chain_prod ex_As 0%nat 0%nat = 7 /\ chain_prod ex_Bs 0%nat 0%nat = 20 /\
  chain_prod (add_chain 2 (-3) ex_As ex_Bs) 0%nat 0%nat = -46 /\
  map fst (add_chain 2 (-3) ex_As ex_Bs) = [3%nat; 5%nat; 1%nat].
Proof. vm_compute. repeat split; reflexivity. Qed.

Example ex_add_check : check_add_case ex_add_case = true /\
  amplitude (tchain_of (snd ex_add_case)) [1%nat; 0%nat] 0%nat 0%nat = 2 * 4 + -3 * 72.
Proof. vm_compute. split; reflexivity. Qed.

(* heterogeneous neighbours: spinful fermions [empty, up, down, full] next to a spin-1/2 site and next to spinless
   fermions, both orders (the two orders give different tables; taking n_i from the wrong site is visible) *)
Example ex_swap_sign_hetero :
  swap_op_auto [0; 1; 1; 0] [0; 0] = None /\ swap_op_auto [0; 0] [0; 1; 1; 0] = None /\
  swap_op_auto [0; 1; 1; 0] [0; 1] = Some [1; 1; 1; -1; 1; -1; 1; 1] /\
  swap_op_auto [0; 1] [0; 1; 1; 0] = Some [1; 1; 1; 1; 1; -1; -1; 1] /\
  swap_op_entry [0; 1; 1; 0] [0; 1] 1 2 2 1 = -1 /\ swap_op_entry [0; 1; 1; 0] [0; 1] 1 3 3 1 = 1 /\
  swap_op_entry [0; 1; 1; 0] [0; 1] 1 2 1 1 = 0 /\
  fock_exchange_sign 1 1 = -1 /\ fock_exchange_sign 2 1 = 1 /\ fock_exchange_sign 3 5 = -1 /\
  is_parity [0; 1; 1; 0] /\ is_parity [0; 1].
Proof.
  unfold is_parity. repeat split; try (vm_compute; reflexivity); repeat (apply Forall_cons; [auto|]); apply Forall_nil.
Qed.

Print Assumptions T09_permute_terminates_sorts.
Print Assumptions T09_permute_arrangement.
Print Assumptions T09_inversion_involutive.
Print Assumptions T09_roll_denotation.
Print Assumptions T09_roll_default_form_counterexample.
Print Assumptions T09_enlarge_denotation.
Print Assumptions T09_add_linear.
Print Assumptions T09_add_linear_tensors.
Print Assumptions T09_add_check_sound.
Print Assumptions T09_swap_sign_table.
