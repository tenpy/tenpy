(* Property C18: results on disk survive a crash; a resumed run equals an uninterrupted one.

   File-system part (Model/Fs.v).  Assumption A-fs: rename / unlink are atomic, a write is the only
   step that can be torn (leaving a non-loadable Partial file).  Tag j of a crash point = number of the
   last checkpoint whose write was completed. *)
From TenpyV Require Import Base.Prelude Model.Fs Proofs.FsP Gen.G_save_results Proofs.FsGenP.
From TenpyV Require Import Model.ResumeProto Proofs.ResumeProtoP Model.FixNames Proofs.FixNamesP.

(* the body of Simulation.save_results, regenerated from the source, is the program of the model *)
Theorem T18_save_results_gen : save_results_gen = save_results_prog /\
  forall safe k st, run_prog safe k save_results_gen st = save_ops safe k st.
Proof. exact (conj save_results_gen_eq save_results_gen_ops). Qed.

(* uninterrupted run with safe_write, any number n of saves, killed at any primitive step or inside
   any write: as soon as one write has been completed (1 <= j) the last completed checkpoint j is on
   disk as a Complete file and is what the user loads (never only a Partial file; the checkpoint on
   disk is the one of the save in progress or the one before). *)
Theorem T18_crash_safe_single_run : forall n j st,
  In (j, st) (fresh_points true n) -> 1 <= j ->
  has_complete st j /\ exists f, loadable st = Some (f, j).
Proof.
  intros n j st Hin. exact (good_or_unstarted_loadable j st (proj1 (Forall_forall _ _) (fresh_good_or_unstarted n) _ Hin)).
Qed.

(* the crash states addressed by (step number, inside-a-write flag) - the form the fault injection of
   the harness uses - are among the crash points the theorems quantify over *)
Theorem T18_crash_points_complete : forall ops j st s inside, s <= length ops ->
  exists t, In (t, crash_state ops st s inside) (crash_points ops j st).
Proof. exact crash_state_in_points. Qed.

(* histories (run, crash, resume)*, any lengths, any crash points, PROVIDED no resume starts while the
   output file is a leftover Partial file (strict = true).  What is missing for the full statement is
   exactly the case refuted below. *)
Theorem T18_crash_safe_resumed_partial : forall n0 c0 h j st,
  run_history true true n0 c0 h = Some (j, st) -> 1 <= j ->
  has_complete st j /\ exists f, loadable st = Some (f, j).
Proof. exact resumed_strict. Qed.

(* REFUTED on the faithful model (design finding F11): run with 2 saves killed inside the second write
   (out = Partial 2, bak = Complete 1); resume from the backup; the first save of the resumed run
   unlinks the backup (the only complete file) before renaming the partial output over it: killed
   there, nothing loadable is left although checkpoint 1 had been completed. *)
Theorem T18_crash_safe_resumed_refuted : exists n0 c0 h j st,
  run_history true false n0 c0 h = Some (j, st) /\ 1 <= j /\ loadable st = None /\
  is_partial (f_out st) = true.
Proof. exact resumed_unsafe. Qed.

(* Protocol part (Model/ResumeProto.v): for time evolutions and ground-state searches, every final
   time / max_sweeps T, step N, error function, every setting of the options measure_initial and group_sites,
   for EVERY snapshot k of the uninterrupted run: resuming from it finishes, with the same final time, the
   same sequence of record times (none lost, none duplicated) and the same grouping of the state; if the
   accumulated error is part of the resume data, in the identical final machine state (identical records). *)
Theorem T18_resume_measurements : forall c k m,
  at_snapshot c (p_iter c k p_init) = true ->
  is_done (p_iter c m p_init) = true ->
  let r := p_iter c m (p_resume c (p_iter c k p_init)) in
  is_done r = true /\ s_t r = s_t (p_iter c m p_init) /\ times r = times (p_iter c m p_init) /\
  s_g r = s_g (p_iter c m p_init) /\
  (c_restore c = true -> r = p_iter c m p_init).
Proof. exact resume_measurements. Qed.

(* The option group_sites across a resume (Simulation.group_sites_for_algorithm runs in run() and in resume_run();
   guard: group psi iff not loaded_from_checkpoint or psi.grouped < group_sites).  For every configuration and
   EVERY snapshot: the psi stored in the snapshot carries the grouping of the fresh run; the resume does not group
   it again (s_g unchanged), so that psi.grouped = group_sites = the factor by which the freshly built model is
   grouped; and both the uninterrupted and the resumed run end with an ungrouped state.  g_enter is tied to
   the code by the correspondence streams group-guard / real-resume (Model/ResumeProto.v check_group, check_proto). *)
Theorem T18_resume_grouping : forall c k m,
  at_snapshot c (p_iter c k p_init) = true ->
  is_done (p_iter c m p_init) = true ->
  let s := p_iter c k p_init in
  s_g (p_resume c s) = s_g s /\ s_g s = g_enter false (c_group c) [] /\
  (1 <= c_group c -> prod_nat (s_g (p_resume c s)) = c_group c) /\
  s_g (p_iter c m p_init) = [] /\ s_g (p_iter c m (p_resume c s)) = [].
Proof. exact resume_grouping. Qed.

(* REFUTED for the records themselves on the time-evolution protocol WITHOUT restoring the accumulated
   error (c_restore = false, i.e. a get_resume_data without trunc_err: finding F12): the error component
   restarts after the resume, so restoring it is necessary for the last clause of T18_resume_measurements. *)
Theorem T18_resume_eps_error_refuted : exists c k m,
  c_kind c = TE /\ c_restore c = false /\
  at_snapshot c (p_iter c k p_init) = true /\ is_done (p_iter c m p_init) = true /\
  s_recs (p_iter c m (p_resume c (p_iter c k p_init))) <> s_recs (p_iter c m p_init).
Proof.
  exists (mkCfg TE 2 1 (fun _ => 1) false true 1), 3, 12.
  repeat split; try reflexivity. vm_compute. discriminate.
Qed.

(* non-vacuity *)
Example ex_fresh_point : In (1, mkFs (Partial 2) (Complete 1)) (fresh_points true 2).
Proof. vm_compute. tauto. Qed.
Example ex_strict_history :
  run_history true true 3 11 [(2, 4)] = Some (1, mkFs (Partial 2) (Complete 1)).
Proof. vm_compute. reflexivity. Qed.
Example ex_te_run : is_done (p_iter (mkCfg TE 3 2 (fun _ => 1) true true 1) 12 p_init) = true /\
                    times (p_iter (mkCfg TE 3 2 (fun _ => 1) true true 1) 12 p_init) = [0; 2; 4].
Proof. exact te_finishes. Qed.
Example ex_gs_run : is_done (p_iter (mkCfg GS 3 1 (fun _ => 0) true true 1) 20 p_init) = true /\
                    times (p_iter (mkCfg GS 3 1 (fun _ => 0) true true 1) 20 p_init) = [0; 1; 2; 3; 4].
Proof. split; reflexivity. Qed.
Example ex_snapshot : at_snapshot (mkCfg GS 3 1 (fun _ => 0) true true 1) (p_iter (mkCfg GS 3 1 (fun _ => 0) true true 1) 4 p_init) = true.
Proof. reflexivity. Qed.
(* group_sites = 2, measure_initial = False: the run finishes ungrouped, its second snapshot holds psi.grouped = 2 *)
Example ex_te_grouped_run :
  let c := mkCfg TE 3 2 (fun _ => 1) true false 2 in
  is_done (p_iter c 12 p_init) = true /\ times (p_iter c 12 p_init) = [2; 4] /\ s_g (p_iter c 12 p_init) = [] /\
  at_snapshot c (p_iter c 6 p_init) = true /\ s_g (p_iter c 6 p_init) = [2].
Proof. exact te_grouped_finishes. Qed.
(* the strictness of the guard is what T18_resume_grouping rests on: grouping the checkpoint's psi once more would
   give psi.grouped = 4 against a model grouped by 2 *)
Example ex_regroup_doubles : prod_nat (2 :: g_enter false 2 []) = 4 /\ prod_nat (g_enter true 2 (g_enter false 2 [])) = 2.
Proof. split; reflexivity. Qed.
(* without safe_write a crash inside the second write loses everything: safe_write is a real premise *)
Example ex_unsafe_without_safe_write : exists j st, In (j, st) (fresh_points false 2) /\ 1 <= j /\ loadable st = None.
Proof. exists 1, (mkFs (Partial 2) Absent). vm_compute. split; [|split; [lia|reflexivity]]. tauto. Qed.

(* fix_output_filenames (Model/FixNames.v, which says at its head how it is tied to Simulation.fix_output_filenames;
   `ex i` = candidate i exists, candidate 0 the configured name, candidate i the `_i` copy): for EVERY set of existing
   files, a fresh run (not loaded from a checkpoint, overwrite_output = False) either keeps / chooses a name that does
   NOT exist - the smallest free one, at most `_99` - so it never overwrites a results file of a previous simulation;
   or raises Skip (exactly when skip_if_output_exists and the file exists); or raises ValueError exactly when the name
   and all of _1 .. _99 exist.
   Not covered here: the marker written to the backup name, the log-file renaming. *)
Theorem T18_fix_output_filenames : forall (ex : nat -> bool) (skip : bool),
  match fix_name ex skip false false with
  | FName i => ex i = false /\ (i <= 99)%nat /\ (forall k, (k < i)%nat -> ex k = true)
  | FRaise => skip = false /\ forall k, (k <= 99)%nat -> ex k = true
  | FSkip => skip = true /\ ex 0%nat = true
  end.
Proof. exact fix_name_fresh. Qed.

Example T18_example_fix_names :
  fix_name (fun i => (i <? 3)%nat) false false false = FName 3 /\
  fix_name (fun i => (i <? 100)%nat) false false false = FRaise /\
  fix_name (fun i => (i <? 3)%nat) false false true = FName 0 /\
  fix_name (fun i => (i <? 3)%nat) true false false = FSkip.
Proof. vm_compute. repeat split; reflexivity. Qed.

Print Assumptions T18_save_results_gen.
Print Assumptions T18_crash_safe_single_run.
Print Assumptions T18_crash_points_complete.
Print Assumptions T18_crash_safe_resumed_partial.
Print Assumptions T18_crash_safe_resumed_refuted.
Print Assumptions T18_resume_measurements.
Print Assumptions T18_resume_grouping.
Print Assumptions T18_resume_eps_error_refuted.
Print Assumptions T18_fix_output_filenames.
