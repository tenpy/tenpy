(* Property C02: charge rule and storage invariants are closed under every operation.
   WF ci a (Model/Tensor.v): qtotal has one entry per charge; every _qdata row has `rank` entries; NO DUPLICATE row;
   every stored block obeys the CHARGE RULE make_valid(sum of leg charges) = qtotal; the cached claim _qdata_sorted is TRUTHFUL.
   Models: Tensor.v, TensorOps.v, TensorDot.v, TakeSlice.v, TensorProg.v (programs; itranspose, iswapaxes, gauge_total_charge),
   LegLookup.v (get_qindex_of_charges), TensorCheck.v (boolean WF, used by the examples).
   The lemmas the scripts apply hold without `valid_ci ci` (ChargeP.mv1_mod), lookup_sound also without `length c = length ci`; the
   scripts discard them.
   Statements hold for every rank / number of blocks / number of charges.
   NOT proved (oracle of harness/c02.py only): WF for all operations not listed here; LegCharge.sorted / bunched flags. *)
From TenpyV Require Import Base.Prelude Model.Charge Model.Tensor Model.TensorOps Model.TensorDot Model.TakeSlice.
From TenpyV Require Import Proofs.ChargeP Proofs.TensorP Proofs.TensorP3 Proofs.TensorDotP Proofs.TakeSliceP.
From TenpyV Require Import Model.TensorProg Proofs.TensorProgP Proofs.TensorProgP2 Proofs.TensorProgEx.
From TenpyV Require Import Model.LegLookup Proofs.LegLookupP.
Open Scope Z_scope.

(* ChargeInfo.make_valid: what the qtotal arithmetic relies on *)
Theorem T02_make_valid : forall ci a b, valid_ci ci ->
  make_valid ci (make_valid ci a) = make_valid ci a /\
  make_valid ci (vadd a (make_valid ci b)) = make_valid ci (vadd a b) /\
  make_valid ci (vadd (make_valid ci a) b) = make_valid ci (vadd a b) /\
  make_valid ci (vneg (make_valid ci a)) = make_valid ci (vneg a) /\
  make_valid ci (vneg (make_valid ci (vneg a))) = make_valid ci a.
Proof.
  intros ci a b _.
  auto 6 using make_valid_idem, make_valid_add_r, make_valid_add_l, make_valid_neg, make_valid_neg_neg.
Qed.

Theorem T02_wf_transpose : forall ci p a, Permutation p (seq 0 (rank a)) -> WF ci a -> WF ci (transpose p a).
Proof. exact wf_transpose. Qed.

Theorem T02_wf_conj : forall ci a, valid_ci ci -> WF ci a -> WF ci (conj ci a).
Proof. intros ci a _. apply wf_conj. Qed.

Theorem T02_wf_scale : forall ci s a, WF ci a -> WF ci (scale s a).
Proof. exact wf_scale. Qed.

(* addition: the result of the sorted merge has no duplicate rows, obeys the charge rule and its claim
   _qdata_sorted = True is truthful - PROVIDED the claims of the operands were truthful *)
Theorem T02_wf_add : forall ci alpha a b, WF ci a -> WF ci b -> legs a = legs b -> qtot a = qtot b ->
  WF ci (add alpha a b).
Proof. exact wf_add. Qed.

(* isort_qdata returns early when the claim is set: its result is sorted if the claim is truthful
   (T01_add_needs_truthful_claim shows what happens if it is not) *)
Theorem T02_isort_trusts_claim : forall a, claim_truthful a -> NoDup (rows a) -> ssorted (rows (isort_qdata a)).
Proof. exact isort_ssorted. Qed.

Theorem T02_charge_rule_outer : forall ci a b, valid_ci ci -> WF ci a -> WF ci b -> charge_rule ci (outer ci a b).
Proof. intros ci a b _. apply charge_rule_outer. Qed.

(* outer returns a well-formed array: in particular the claim the code makes for the grid of block pairs,
   _qdata_sorted = a._qdata_sorted and b._qdata_sorted  ("since grid is lex sorted"), is truthful *)
Theorem T02_wf_outer : forall ci a b, valid_ci ci -> WF ci a -> WF ci b -> WF ci (outer ci a b).
Proof. intros ci a b _. apply wf_outer. Qed.

(* tensordot over the last k legs of a and the first k legs of b: every block the pairing by contracted qindices
   produces obeys the charge rule with qtotal = make_valid(qtotal_a + qtotal_b); so the look-up of compatible
   rows / columns by charge never has to drop a pair of blocks that fits together *)
Theorem T02_charge_rule_tensordot : forall ci k a b, valid_ci ci -> WF ci a -> WF ci b ->
  (k <= rank a)%nat -> (k <= rank b)%nat ->
  Forall2 (contractible ci) (skipn (rank a - k) (legs a)) (firstn k (legs b)) ->
  forall r, In r (tdot_rows k a b) -> row_ok ci (tdot_legs k a b) (tdot_qtot ci a b) r.
Proof. intros ci k a b _. apply charge_rule_tensordot. Qed.

(* tensordot returns a well-formed array (Model/TensorDot.v: one block per distinct row of the pairing, rows sorted,
   _qdata_sorted = True as _tensordot_worker sets it) *)
Theorem T02_wf_tensordot : forall ci k a b, valid_ci ci -> WF ci a -> WF ci b -> (k <= rank a)%nat -> (k <= rank b)%nat ->
  Forall2 (contractible ci) (skipn (rank a - k) (legs a)) (firstn k (legs b)) ->
  WF ci (tensordot ci k a b).
Proof. intros ci k a b _. apply wf_tensordot. Qed.

(* take_slice(i, axis) on one axis: the result is well-formed; in particular `res._qdata_sorted is not changed` is correct; the
   charge rule holds for qtotal - charge of the removed index *)
Theorem T02_wf_take_slice : forall ci ax i a, valid_ci ci -> WF ci a -> (ax < rank a)%nat ->
  length (nth (get_qindex (nth ax (legs a) dleg) i) (bch (nth ax (legs a) dleg)) []) = length ci ->
  WF ci (take_slice ci ax i a).
Proof. intros ci ax i a _. apply wf_take_slice. Qed.

Theorem T02_qtotal_take_slice : forall ci ax i a,
  qtot (take_slice ci ax i a)
  = make_valid ci (vadd (qtot a) (vneg (leg_charge (nth ax (legs a) dleg) (get_qindex (nth ax (legs a) dleg) i)))) /\
  legs (take_slice ci ax i a) = remove_at ax (legs a) /\ qsorted (take_slice ci ax i a) = qsorted a.
Proof. repeat split; reflexivity. Qed.

(* documented total charges: unchanged / negated / sum *)
Theorem T02_qtotal_rules : forall ci p s alpha a b,
  qtot (transpose p a) = qtot a /\ qtot (scale s a) = qtot a /\ qtot (add alpha a b) = qtot a /\
  qtot (conj ci a) = make_valid ci (vneg (qtot a)) /\
  qtot (outer ci a b) = make_valid ci (vadd (qtot a) (qtot b)) /\
  tdot_qtot ci a b = make_valid ci (vadd (qtot a) (qtot b)).
Proof. intros. rewrite scale_qtot. repeat split; reflexivity. Qed.

(* Histories (Model/TensorProg.v).  An instruction is one of the operations above or iswapaxes / gauge_total_charge (below), applied
   to POSITIONS of an environment (operands may alias, results are re-used), together with a destination: None appends the result
   (functional form), Some d overwrites entry d (in-place form / re-binding).  applicable_prog = every instruction meets the
   documented preconditions of its operation in the environment in which it runs.
   Starting from well-formed tensors, EVERY entry of EVERY intermediate environment is well-formed, in particular each fresh result,
   and the total charge of each result is the documented function qtot_doc of its operands' total charges. *)
Theorem T02_history : forall ci prog e, valid_ci ci -> Forall (WF ci) e -> applicable_prog ci prog e ->
  Forall (WF ci) (run ci prog e) /\
  forall n o dst, nth_error prog n = Some (o, dst) ->
    let en := run ci (firstn n prog) e in
    Forall (WF ci) en /\ applicable ci o en /\ WF ci (step ci o en) /\ qtot (step ci o en) = qtot_doc ci o en /\
    run ci (firstn (S n) prog) e = store dst (step ci o en) en.
Proof. intros ci prog e _. apply history_wf. Qed.

(* the cached claim in the transposing operations (itranspose / iswapaxes of Model/TensorProg.v, with the early returns of the
   code): the result is well-formed; whenever a column of _qdata moves the claim is RESET (that is why it stays truthful), it survives
   only when nothing was done; the dense form is the numpy transpose / swapaxes *)
Theorem T02_wf_itranspose_flag : forall ci p a, Permutation p (seq 0 (rank a)) -> WF ci a ->
  WF ci (itranspose p a) /\
  (p <> seq 0 (rank a) -> qsorted (itranspose p a) = false) /\
  (p = seq 0 (rank a) -> itranspose p a = a) /\
  (forall idx, length idx = rank a -> to_ndarray (itranspose p a) (gather 0%nat p idx) = to_ndarray a idx).
Proof. exact wf_itranspose. Qed.

Theorem T02_wf_iswapaxes : forall ci i j a, (i < rank a)%nat -> (j < rank a)%nat -> WF ci a ->
  WF ci (iswapaxes i j a) /\
  (i <> j -> qsorted (iswapaxes i j a) = false) /\
  (i = j -> iswapaxes i j a = a) /\
  (forall idx, length idx = rank a ->
     to_ndarray (iswapaxes i j a) (gather 0%nat (swap_perm (rank a) i j) idx) = to_ndarray a idx).
Proof. exact wf_iswapaxes. Qed.

(* the same code WITHOUT the reset `self._qdata_sorted = False` (transpose_keepflag): everything else of WF still holds, so the result
   is well-formed exactly when the kept claim happens to be true for the permuted rows ... *)
Theorem T02_itranspose_keepflag_iff : forall ci p a, Permutation p (seq 0 (rank a)) -> WF ci a ->
  (WF ci (transpose_keepflag p a) <-> (qsorted a = true -> strictly_sorted (map (gather 0%nat p) (rows a)) = true)).
Proof. exact keepflag_wf_iff. Qed.

(* ... which fails already for a 2x2-block Z_2 tensor: keeping the flag is a false claim, and the two-step history
   t = a.transpose(); t + a  then stores a duplicate block and loses an entry (7 instead of 12); with the reset the sum is right *)
Theorem T02_itranspose_flag_reset_needed :
  WF [2] kf_a /\ Permutation [1%nat; 0%nat] (seq 0 (rank kf_a)) /\
  WF [2] (transpose [1%nat; 0%nat] kf_a) /\
  ~ claim_truthful (transpose_keepflag [1%nat; 0%nat] kf_a) /\
  legs (transpose_keepflag [1%nat; 0%nat] kf_a) = legs kf_a /\ qtot (transpose_keepflag [1%nat; 0%nat] kf_a) = qtot kf_a /\
  to_ndarray (add (1, 0) (transpose_keepflag [1%nat; 0%nat] kf_a) kf_a) [1%nat; 0%nat] = (7, 0) /\
  cadd (to_ndarray (transpose_keepflag [1%nat; 0%nat] kf_a) [1%nat; 0%nat]) (cmul (1, 0) (to_ndarray kf_a [1%nat; 0%nat])) = (12, 0) /\
  to_ndarray (add (1, 0) (transpose [1%nat; 0%nat] kf_a) kf_a) [1%nat; 0%nat] = (12, 0).
Proof. exact keepflag_refuted. Qed.

(* gauge_total_charge(axis, newqtotal, new_qconj) (Model/TensorProg.v, written after the source; correspondence-checked by the
   stream coq2 of harness/c02.py, checker check_case_c02x of Model/TensorProgCheck.v, as are iswapaxes above and take_slice):
   the charges of leg `axis` are shifted by old_qconj * (newqtotal - qtotal), negated when the direction of the leg changes, and
   qtotal := make_valid(newqtotal).  The result is well-formed (charge rule!) for BOTH values of new_qconj, has the requested total
   charge and direction, and the same dense form *)
Theorem T02_wf_gauge_total_charge : forall ci ax newq newqc a, valid_ci ci -> WF ci a -> (ax < rank a)%nat ->
  length newq = length ci ->
  (qc (nth ax (legs a) dleg) = 1 \/ qc (nth ax (legs a) dleg) = -1) -> (newqc = 1 \/ newqc = -1) ->
  Forall (fun c => length c = length ci) (bch (nth ax (legs a) dleg)) ->
  (forall r, In r (rows a) -> (nth ax r 0 < length (bch (nth ax (legs a) dleg)))%nat) ->
  WF ci (gauge_total_charge ci ax newq newqc a) /\
  qtot (gauge_total_charge ci ax newq newqc a) = make_valid ci newq /\
  qc (nth ax (legs (gauge_total_charge ci ax newq newqc a)) dleg) = newqc /\
  (forall idx, to_ndarray (gauge_total_charge ci ax newq newqc a) idx = to_ndarray a idx).
Proof. intros ci ax newq newqc a _ W Hax Hnq Hoq Hnqc Hch Hrng. apply wf_gauge; [exact W|]. repeat split; assumption. Qed.

(* the shift must be multiplied by the OLD direction: with `new_qconj * chdiff` (gauge_gen false; this only differs from the code in
   the branch old_qconj != new_qconj, where the sign of the shift is then wrong) the charge rule is violated for a U(1) tensor
   satisfying all hypotheses above, while the code as it is gives the charges [[-1]; [-2]] and a well-formed result *)
Theorem T02_gauge_flip_sign_needed :
  WF [1] gg_a /\ valid_ci [1] /\
  Forall (fun c => length c = length [1]) (bch (nth 0 (legs gg_a) dleg)) /\
  (forall r, In r (rows gg_a) -> (nth 0 r 0 < length (bch (nth 0 (legs gg_a) dleg)))%nat) /\
  ~ charge_rule [1] (gauge_gen false [1] 0 [1] (-1) gg_a) /\
  WF [1] (gauge_total_charge [1] 0 [1] (-1) gg_a) /\
  bch (nth 0 (legs (gauge_total_charge [1] 0 [1] (-1) gg_a)) dleg) = [[-1]; [-2]].
Proof. exact gauge_wrong_sign_refuted. Qed.

(* LegCharge.get_qindex_of_charges (Model/LegLookup.v; correspondence-checked by the stream leg-lookups of harness/c02.py) is the inverse of
   LegCharge.get_charge on every leg blocked by charge, for BOTH directions qconj = +1 / -1 and every charge group *)
Theorem T02_lookup_inverse : forall ci l q, valid_ci ci -> leg_ok ci l -> blocked l -> (q < length (bch l))%nat ->
  qindex_of_charges ci l (leg_charge l q) = Some q.
Proof. intros ci l q _. apply lookup_inverse. Qed.

(* whatever block the look-up returns carries the requested charge (blocked or not) *)
Theorem T02_lookup_sound : forall ci l c q, valid_ci ci -> leg_ok ci l -> length c = length ci ->
  qindex_of_charges ci l c = Some q ->
  (q < length (bch l))%nat /\ make_valid ci (leg_charge l q) = make_valid ci c.
Proof. intros ci l c q _ Hl _. apply lookup_sound, Hl. Qed.

(* sparse.FlatLinearOperator.flat_to_npc in compact flat mode builds the vector by hand (legs [leg], qtotal = charge_sector, _qdata = [[qi]],
   _qdata_sorted = True) from the block qi = leg.get_qindex_of_charges(charge_sector): that vector is well-formed *)
Theorem T02_compact_vector_wf : forall ci l sector q, valid_ci ci -> leg_ok ci l -> check_valid ci sector = true ->
  qindex_of_charges ci l sector = Some q -> WF ci (compact_vector l sector q).
Proof. intros ci l sector q _. apply compact_vector_wf. Qed.

(* the factor qconj in the look-up is needed: on the outgoing U(1) leg lk_leg (blocks of charge -1, 0, +1; all hypotheses above hold) the
   look-up without it returns for get_charge(0) = +1 the block 2, and the hand-built vector of that block violates the charge rule; the
   look-up as it is returns block 0 and a well-formed vector (also the non-vacuity witness of the three theorems above) *)
Theorem T02_lookup_qconj_needed :
  valid_ci [1] /\ leg_ok [1] lk_leg /\ blocked lk_leg /\ leg_charge lk_leg 0 = [1] /\
  qindex_of_charges_noconj [1] lk_leg (leg_charge lk_leg 0) = Some 2%nat /\
  ~ charge_rule [1] (compact_vector lk_leg [1] 2) /\
  qindex_of_charges [1] lk_leg (leg_charge lk_leg 0) = Some 0%nat /\
  WF [1] (compact_vector lk_leg [1] 0).
Proof. exact lookup_qconj_needed. Qed.

(* non-vacuity of T02_wf_* / T02_charge_rule_tensordot: a WF array over Z_4 with unsorted rows *)
Definition ex2_leg : leg := mkLeg [1%nat; 2%nat] [[1]; [3]] 1.
Definition ex2_arr : arr :=
  mkArr [ex2_leg; conj_leg ex2_leg] [0] [([1%nat; 1%nat], fun _ => (1, 0)); ([0%nat; 0%nat], fun _ => (2, 0))] false.
Example T02_example_wf : WF [4] ex2_arr.
Proof. apply wfb_sound. reflexivity. Qed.
Example T02_example_contractible : contractible [4] ex2_leg (conj_leg ex2_leg).
Proof. exact (contractible_conj [4] ex2_leg). Qed.
Example T02_example_tensordot_rows : tdot_rows 1 ex2_arr ex2_arr = [[1%nat; 1%nat]; [0%nat; 0%nat]].
Proof. vm_compute. reflexivity. Qed.

(* non-vacuity of T02_wf_outer / T02_wf_tensordot: ex2_arr (claim False) and its sorted version (claim True) *)
Example T02_example_outer_claim :
  qsorted (outer [4] (isort_qdata ex2_arr) (isort_qdata ex2_arr)) = true /\
  rows (outer [4] (isort_qdata ex2_arr) (isort_qdata ex2_arr))
  = [[0%nat; 0%nat; 0%nat; 0%nat]; [1%nat; 1%nat; 0%nat; 0%nat]; [0%nat; 0%nat; 1%nat; 1%nat]; [1%nat; 1%nat; 1%nat; 1%nat]].
Proof. vm_compute. split; reflexivity. Qed.
Example T02_example_tensordot_contractible :
  Forall2 (contractible [4]) (skipn (rank ex2_arr - 1) (legs ex2_arr)) (firstn 1 (legs ex2_arr)).
Proof. repeat constructor. apply contractible_sym. exact (contractible_conj [4] ex2_leg). Qed.
Example T02_example_tensordot_blocks : rows (tensordot [4] 1 ex2_arr ex2_arr) = [[0%nat; 0%nat]; [1%nat; 1%nat]].
Proof. vm_compute. reflexivity. Qed.

(* non-vacuity of T02_wf_take_slice: ex2_arr[:, 1] keeps the block [1; 1] -> row [1], qtotal 0 - (-3) = 3 mod 4 *)
Example T02_example_take_slice :
  length (nth (get_qindex (nth 1 (legs ex2_arr) dleg) 1) (bch (nth 1 (legs ex2_arr) dleg)) []) = length [4] /\
  rows (take_slice [4] 1 1 ex2_arr) = [[1%nat]] /\ qtot (take_slice [4] 1 1 ex2_arr) = [3].
Proof. vm_compute. repeat split; reflexivity. Qed.

(* non-vacuity of T02_history: the 9-step history of Proofs/TensorProgEx.v.  Listed per final entry: shape, qtotal, _qdata rows,
   _qdata_sorted *)
Example T02_example_history :
  valid_ci ep_ci /\ Forall (WF ep_ci) [ep_a] /\ applicable_prog ep_ci ep_prog [ep_a] /\ length ep_prog = 9%nat /\
  map (fun a => (map ind_len (legs a), qtot a, rows a, qsorted a)) (run ep_ci ep_prog [ep_a]) =
  [([3; 3; 3]%nat, [3; 0], [], true);
   ([3; 3]%nat, [-1; 0], [[1; 1]; [0; 0]]%nat, false);
   ([3; 3]%nat, [0; 0], [[0; 0]; [1; 1]]%nat, true);
   ([3; 3]%nat, [0; 0], [[0; 0]; [1; 1]]%nat, true);
   ([3; 3; 3; 3]%nat, [1; 0], [[0; 0; 1; 1]; [1; 1; 1; 1]; [0; 0; 0; 0]; [1; 1; 0; 0]]%nat, false);
   ([3; 3; 3]%nat, [3; 0], [[1; 1; 1]; [0; 0; 1]]%nat, false);
   ([3; 3]%nat, [5; 1], [[0; 0]; [1; 1]]%nat, true)].
Proof. split; [exact ep_valid|]. split; [exact ep_a_wf|]. split; [exact ep_applicable|]. split; [reflexivity|]. exact (proj1 ep_result). Qed.

(* non-vacuity of T02_wf_iswapaxes / T02_wf_gauge_total_charge: see the witnesses kf_a, gg_a of the two `needed` theorems;
   swapping the axes of ex2_arr *)
Example T02_example_iswapaxes :
  rows (iswapaxes 0 1 (isort_qdata ex2_arr)) = [[0%nat; 0%nat]; [1%nat; 1%nat]] /\ qsorted (isort_qdata ex2_arr) = true /\
  qsorted (iswapaxes 0 1 (isort_qdata ex2_arr)) = false /\ swap_perm 3 0 2 = [2%nat; 1%nat; 0%nat].
Proof. vm_compute. repeat split; reflexivity. Qed.

Print Assumptions T02_history.
Print Assumptions T02_wf_itranspose_flag.
Print Assumptions T02_wf_iswapaxes.
Print Assumptions T02_itranspose_keepflag_iff.
Print Assumptions T02_itranspose_flag_reset_needed.
Print Assumptions T02_wf_gauge_total_charge.
Print Assumptions T02_gauge_flip_sign_needed.
Print Assumptions T02_wf_take_slice.
Print Assumptions T02_qtotal_take_slice.
Print Assumptions T02_wf_outer.
Print Assumptions T02_wf_tensordot.
Print Assumptions T02_make_valid.
Print Assumptions T02_wf_transpose.
Print Assumptions T02_wf_conj.
Print Assumptions T02_wf_scale.
Print Assumptions T02_wf_add.
Print Assumptions T02_isort_trusts_claim.
Print Assumptions T02_charge_rule_outer.
Print Assumptions T02_charge_rule_tensordot.
Print Assumptions T02_qtotal_rules.
Print Assumptions T02_lookup_inverse.
Print Assumptions T02_lookup_sound.
Print Assumptions T02_compact_vector_wf.
Print Assumptions T02_lookup_qconj_needed.
