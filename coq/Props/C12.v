(* Property C12: local Hilbert spaces -- operator algebra, basis bookkeeping and fermionic signs.
   Finite (bound in the statements): every configuration of Gen/G_sites.v, which is REGENERATED on every run by
   evaluating tenpy/networks/site.py (7 site classes x parameters x conserve options), passes the decidable checks of
   Model/SiteTab.v.  Unbounded: the sign machinery of terms.py and MPS._term_to_ops_list (Model/JW.v, JW2.v). *)
From TenpyV Require Import Base.Prelude Model.SiteTab Gen.G_sites Proofs.SiteTabP Model.JW Proofs.JWP Model.JW2 Proofs.JWP2.
From Coq Require Import String.
Open Scope Z_scope.

(* the table is not trivially small *)
Theorem T12_coverage :
  6 <= count_class all_configs "SpinHalfSite" /\ 24 <= count_class all_configs "SpinSite" /\
  9 <= count_class all_configs "FermionSite" /\ 18 <= count_class all_configs "SpinHalfFermionSite" /\
  18 <= count_class all_configs "SpinHalfHoleSite" /\ 32 <= count_class all_configs "BosonSite" /\
  8 <= count_class all_configs "ClockSite".
Proof. exact coverage. Qed.

Theorem T12_tables_wellformed : forall c, In c all_configs -> check_wf c = true.
Proof. apply (proj1 (forallb_forall check_wf all_configs)). vm_compute. reflexivity. Qed.

(* the operators under a conserve option are the conserve=None operators in the basis permuted by Site.perm; state labels
   and JW exponents follow the same permutation *)
Theorem T12_same_operator_up_to_perm : forall c, In c all_configs ->
  check_perm all_configs c = true /\
  forall o, In o (c_ops c) ->
    exists c0 o0, find_ref all_configs (c_key c) = Some c0 /\ find_op (c_ops c0) (o_name o) = Some o0 /\
                  o_kind o = o_kind o0 /\ sort_ents (map (map_perm (c_perm c)) (o_ent o)) = o_ent o0.
Proof. intros c Hc. split; [exact (perm_in c Hc) | exact (fun o => same_operator all_configs c o (perm_in c Hc))]. Qed.

(* defining algebra per class (Model/SiteTab.v: spin_ok, boson_ok, fermion_ok, spinful_fermion_ok, hole_ok, clock_ok) *)
Theorem T12_algebra : forall c, In c all_configs -> check_algebra c = true.
Proof. apply (proj1 (forallb_forall check_algebra all_configs)). vm_compute. reflexivity. Qed.

Theorem T12_hc_pairs : forall c, In c all_configs -> check_hc c = true.
Proof. apply (proj1 (forallb_forall check_hc all_configs)). vm_compute. reflexivity. Qed.

Theorem T12_charges_consistent : forall c o e n,
  In c all_configs -> In o (c_ops c) -> In e (o_ent o) -> (n < List.length (c_mod c))%nat ->
  let x := nth n (nthL (c_charges c) (e_r e)) 0 - nth n (nthL (c_charges c) (e_c e)) 0 - nth n (o_qtotal o) 0 in
  let m := nth n (c_mod c) 1 in
  (m = 1 -> x = 0) /\ (m <> 1 -> x mod m = 0).
Proof. intros c o e n Hc. exact (charges_consistent c o e n (charges_in c Hc)). Qed.

Theorem T12_JW_flags : forall c, In c all_configs ->
  check_jw c = true /\
  forall o e, In o (c_ops c) -> In e (o_ent o) ->
    (mem_str (o_name o) (c_needjw c) = false -> nthZ (c_jwexp c) (e_r e) = nthZ (c_jwexp c) (e_c e)) /\
    (mem_str (o_name o) (c_needjw c) = true -> is_diag o = false -> nthZ (c_jwexp c) (e_r e) <> nthZ (c_jwexp c) (e_c e)).
Proof. intros c Hc. split; [exact (jw_in c Hc) | exact (fun o e => jw_flags c o e (jw_in c Hc))]. Qed.

(* order_combine_term, for any number of operators on any sites, repeated sites included *)
Theorem T12_order_combine_sign : forall term,
  StronglySorted site_le (order_sort term) /\
  Permutation term (order_sort term) /\
  (forall i, filter (fun t => it_site t =? i) (order_sort term) = filter (fun t => it_site t =? i) term) /\
  order_sign term = finvp term.
Proof.
  intros term. exact (conj (order_sort_sorted term) (conj (order_sort_perm term)
                     (conj (fun i => order_sort_stable term i) (order_sign_spec term)))).
Qed.

(* the term put into the MPO (order_combine_term + multi_coupling_term_handle_JW) is, site by site and up to the relations
   JW^2 = 1, JW f = -f JW, JW b = b JW, the product of the Jordan-Wigner transformed operators of the term; the signs
   collected over the sites are exactly overall_sign *)
Theorem T12_multi_coupling_JW : forall term, total_parity term = false ->
  (forall k, nf_sign (impl_word term k) = false /\
             nf_jw (impl_word term k) = nf_jw (phys_word term k) /\
             nf_ops (impl_word term k) = nf_ops (phys_word term k)) /\
  (forall ks, NoDup ks -> (forall t, In t term -> In (it_site t) ks) ->
     xor_over ks (fun k => nf_sign (phys_word term k)) = order_sign term).
Proof. exact term_machinery_correct. Qed.

(* the loop of multi_coupling_term_handle_JW versus the closed form used in T12_multi_coupling_JW, for EVERY term (repeated
   sites included): the combined term has strictly ascending sites; the handler raises iff the fermion parity is odd;
   otherwise it keeps operators and sites, returns strs = the flags without the last, and on EVERY site k
   the Jordan-Wigner content read off its output (out_flag: flag on the operator sites, string between them, nothing
   outside) is jw_right, i.e. the word it puts on site k (out_word) IS impl_word of T12_multi_coupling_JW; the per-case
   check `strings_consistent` of the correspondence stream always succeeds on the model *)
Theorem T12_handle_JW_closed_form : forall term,
  let g := group (order_sort term) in
  ascending g /\
  (total_parity term = true -> multi_coupling_term_handle_JW g = None) /\
  (total_parity term = false ->
     exists res strs, multi_coupling_term_handle_JW g = Some (res, strs) /\
       map (fun e => (fst (fst e), gsite e)) res = map (fun e => (fst (fst e), gsite e)) g /\
       strs = removelast (map gflag res) /\
       (forall k, out_flag res strs k = jw_right g k) /\
       (forall k, out_word term res strs k = impl_word term k) /\
       strings_consistent g res strs = true).
Proof. exact handler_closed_form. Qed.

(* the two-site handler coupling_term_handle_JW (i < j as it requires): raises iff exactly one operator needs a string; else
   its output coincides with the multi-site handler on the same term, the words it puts on the sites (op_i [JW] on i, the
   string on i<k<j, op_j on j) are impl_word, hence -- up to JW^2 = 1, JW f = -f JW -- the Jordan-Wigner product of the two
   operators, with overall sign +1 *)
Theorem T12_coupling_JW : forall a fi b fj i j, i < j ->
  let term := [mkItem a i fi; mkItem b j fj] in
  (coupling_term_handle_JW fi fj = None <-> total_parity term = true) /\
  (forall app str, coupling_term_handle_JW fi fj = Some (app, str) ->
     order_combine_term term = ([([a], i, fi); ([b], j, fj)], false) /\
     multi_coupling_term_handle_JW (group (order_sort term)) = Some ([([a], i, app); ([b], j, false)], [str]) /\
     (forall k, coupling_words a fi b fj i j k = Some (impl_word term k)) /\
     (forall k, nf_sign (impl_word term k) = false /\
                nf_jw (impl_word term k) = nf_jw (phys_word term k) /\
                nf_ops (impl_word term k) = nf_ops (phys_word term k)) /\
     (forall ks, NoDup ks -> In i ks -> In j ks -> xor_over ks (fun k => nf_sign (phys_word term k)) = false)).
Proof. exact coupling_JW. Qed.

(* canonical anticommutation relations of the many-body operators on chains of any length: for i <> j the two orders give the
   same tensor factors with opposite total sign; for i = j everything reduces to the local product on site i *)
Theorem T12_CAR_offsite : forall a b i j, i <> j ->
  let ab := [mkItem a i true; mkItem b j true] in
  let ba := [mkItem b j true; mkItem a i true] in
  (forall k, nf_jw (phys_word ab k) = nf_jw (phys_word ba k) /\ nf_ops (phys_word ab k) = nf_ops (phys_word ba k)) /\
  (forall ks, NoDup ks -> In i ks -> In j ks ->
     xor_over ks (fun k => nf_sign (phys_word ab k)) = negb (xor_over ks (fun k => nf_sign (phys_word ba k)))).
Proof. intros a b. exact (exchange_offsite a true b true). Qed.

Theorem T12_CAR_onsite : forall a b fa fb i k,
  let ab := [mkItem a i fa; mkItem b i fb] in
  (k = i -> phys_word ab k = [Op a fa; Op b fb]) /\
  (k <> i -> nf_sign (phys_word ab k) = false /\ nf_ops (phys_word ab k) = [] /\
             (fa = fb -> nf_jw (phys_word ab k) = false)).
Proof. exact car_onsite. Qed.

(* MPS._term_to_ops_list(term, autoJW=True, i_offset, JW_from_right) for EVERY term and JW_from_right in {None, False, True}
   (model term_to_ops_list of Model/JW.v, run against the implementation in stream `mpsterm` of harness/c12.py): the returned
   flag has_extra_JW is the fermion parity of the term xor the string coming in from the right -- and for None (the value is
   chosen as the parity of the term) the flag is still that parity, which is what term_list_correlation_function_right uses to
   pair odd left terms with odd right terms; the per-site words are those of JW_from_right=False with one more JW appended on
   every site iff a string comes in from the right; i_min is the left-most site of the term *)
Theorem T12_term_to_ops_list_flag : forall term jfr,
  let from_right := match jfr with Some b => b | None => total_parity term end in
  snd (term_to_ops_list term true jfr) =
    match jfr with Some b => xorb (total_parity term) b | None => total_parity term end /\
  fst (fst (term_to_ops_list term true jfr)) =
    (if from_right then map (fun w => (w ++ [JWl])%list) (fst (fst (term_to_ops_list term true (Some false))))
     else fst (fst (term_to_ops_list term true (Some false)))) /\
  snd (fst (term_to_ops_list term true jfr)) = min_site term.
Proof. exact term_to_ops_list_flag. Qed.

Example T12_example_sort :
  let term := [mkItem 1 3 true; mkItem 2 0 true; mkItem 3 3 false; mkItem 4 1 true; mkItem 5 0 true] in
  order_combine_term term = ([([2; 5], 0, false); ([4], 1, true); ([1; 3], 3, true)], false) /\ total_parity term = false.
Proof. vm_compute. split; reflexivity. Qed.

Example T12_example_table :
  existsb (fun c => String.eqb (c_class c) "SpinSite" && (c_twoS c =? 3) && String.eqb (c_cons c) "parity") all_configs = true.
Proof. vm_compute. reflexivity. Qed.

Example T12_example_odd_sign : order_sign [mkItem 1 2 true; mkItem 2 0 true] = true.
Proof. vm_compute. reflexivity. Qed.

Example T12_example_handler :
  let term := [mkItem 1 5 true; mkItem 2 0 true; mkItem 3 2 false; mkItem 4 7 true; mkItem 5 9 true] in
  multi_coupling_term_handle_JW (group (order_sort term)) =
    Some ([([2], 0, true); ([3], 2, true); ([1], 5, false); ([4], 7, true); ([5], 9, false)], [true; true; false; true]) /\
  map (out_flag [([2], 0, true); ([3], 2, true); ([1], 5, false); ([4], 7, true); ([5], 9, false)] [true; true; false; true])
      [-1; 0; 1; 2; 3; 4; 5; 6; 7; 8; 9; 10] =
  [false; true; true; true; true; true; false; false; true; true; false; false].
Proof. vm_compute. split; reflexivity. Qed.

Example T12_example_coupling :
  coupling_term_handle_JW true true = Some (true, true) /\
  map (coupling_words 1 true 2 true 1 3) [0; 1; 2; 3; 4] = [Some []; Some [Op 1 true; JWl]; Some [JWl]; Some [Op 2 true]; Some []].
Proof. vm_compute. split; reflexivity. Qed.

Example T12_example_ops_list :
  term_to_ops_list (mk_items [(1, 2, true); (2, 0, false); (3, 1, true); (4, 2, true)]) true None =
    ([[JWl; Op 2 false; JWl; JWl; JWl]; [JWl; Op 3 true; JWl; JWl]; [Op 1 true; Op 4 true; JWl]], 0, true).
Proof. vm_compute. reflexivity. Qed.

Print Assumptions T12_coverage.
Print Assumptions T12_tables_wellformed.
Print Assumptions T12_same_operator_up_to_perm.
Print Assumptions T12_algebra.
Print Assumptions T12_hc_pairs.
Print Assumptions T12_charges_consistent.
Print Assumptions T12_JW_flags.
Print Assumptions T12_order_combine_sign.
Print Assumptions T12_multi_coupling_JW.
Print Assumptions T12_CAR_offsite.
Print Assumptions T12_CAR_onsite.
Print Assumptions T12_handle_JW_closed_form.
Print Assumptions T12_coupling_JW.
Print Assumptions T12_term_to_ops_list_flag.
