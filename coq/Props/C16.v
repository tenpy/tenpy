(* Property C16: Krylov solvers return Ritz data of the operator they are given.
   Index/coefficient bookkeeping of krylov_based.py (Model/Krylov.v, Krylov2.v, KrylovGmres.v).  The spectral clauses
   (Rayleigh quotient >= lambda_min for an arbitrary Hermitian operator, equality at full Krylov dimension, accuracy of
   exp) are decided by the oracle of harness/c16.py only; see T16_ritz_bound_partial. *)
From TenpyV Require Import Base.Prelude Model.Krylov Proofs.KrylovP Model.Krylov2 Proofs.KrylovP2.
From TenpyV Require Import Model.KrylovGmres Proofs.KrylovGmresP.

(* the cache never holds more than N_cache vectors and always holds exactly the last min(k, N_cache) *)
Theorem T16_cache_bounded : forall nc k, (1 <= nc)%nat ->
  cache_after nc k = seq (k - min k nc) (min k nc) /\ (length (cache_after nc k) <= nc)%nat.
Proof. intros nc k H. split; [apply cache_after_seq; exact H|rewrite cache_after_length by exact H; lia]. Qed.

(* in iteration k, _cache[-1] is v_k and (k >= 1) _cache[-2] is v_{k-1}, whatever N_cache >= 2 is:
   the three-term recurrence subtracts alpha v_k and beta v_{k-1} *)
Theorem T16_three_term_indices : forall nc k, (2 <= nc)%nat ->
  from_end (cache_after nc (S k)) 1 = k /\
  ((1 <= k)%nat -> from_end (cache_after nc (S k)) 2 = (k - 1)%nat).
Proof. exact three_term. Qed.

(* the rebuild loop orthogonalises H v_k against the same vectors, with the same coefficient classes, as
   the build loop did in its iteration k (exact arithmetic: same recurrence => same v_{k+1}) *)
Theorem T16_rebuild_same_recurrence : forall nc re N n, (n <= N)%nat ->
  rebuild_ortho nc re 0 n [] = firstn n (build_ortho nc re 0 N []).
Proof.
  intros nc re N n H. rewrite rebuild_ortho_eq. replace N with (n + (N - n))%nat by lia. apply build_ortho_prefix.
Qed.

(* _calc_result_full assembles sum_k vf[k] v_k with EACH Krylov index exactly once, for every N, N_cache *)
Theorem T16_result_full_indices : forall nc N, (1 <= nc)%nat -> (2 <= N)%nat ->
  Permutation (result_terms nc N) (map (fun k => (k, k)) (seq 0 N)).
Proof. exact result_indices. Qed.

(* hence the assembled combination does not depend on N_cache *)
Theorem T16_cache_independence : forall nc nc' N, (1 <= nc)%nat -> (1 <= nc')%nat -> (2 <= N)%nat ->
  Permutation (result_terms nc N) (result_terms nc' N).
Proof.
  intros nc nc' N H H' HN. eapply perm_trans; [apply result_indices; assumption|].
  apply Permutation_sym. apply result_indices; assumption.
Qed.

(* Arnoldi: Ritz values are returned in the order `which` requests (argsort model) *)
Theorem T16_arnoldi_order : forall w zs,
  Permutation (argsort_model w zs) (seq 0 (length zs)) /\
  StronglySorted Z.le (keys_along w zs (argsort_model w zs)).
Proof. exact arnoldi_order. Qed.

(* PARTIAL: Rayleigh-Ritz inequality only in an eigenbasis of the operator (diagonal d, integer vector x):
   <x|H|x> >= lambda <x|x> when lambda bounds the spectrum from below.  Missing: the spectral theorem
   (existence of the eigenbasis for every Hermitian operator over R/C) and equality at full Krylov
   dimension; those clauses are oracle-checked (dense eigh) in harness/c16.py. *)
Theorem T16_ritz_bound_partial : forall lam d x,
  Forall (fun di => (lam <= di)%Z) d -> (lam * rq_den d x <= rq_num d x)%Z.
Proof. exact ritz_bound_diag. Qed.

(* The accesses to the small matrix h = _h_krylov (Model/Krylov2.v).  Tie to the code: check_hevents compares the
   interleaved event list with the instrumented run (ndarray subclass logging __setitem__/__getitem__ of _h_krylov) for
   every Lanczos case of harness/c16.py; the instrumentation also checks at each block read that the float block is the
   symmetric tridiagonal matrix of the values written so far.  Float values themselves are not modelled. *)

(* for every N: the run writes exactly h[k,k], h[k,k+1], h[k+1,k] for k < N, each exactly once, with
   Alpha k / Beta k (= tri_entry), all inside the (N_max+1)x(N_max+1) array when N <= N_max *)
Theorem T16_tridiagonal_writes : forall nc re N cv,
  let ws := h_writes (lanczos_hevents nc re N cv) in
  ws = build_writes N /\
  NoDup (map wpos ws) /\
  (forall i j, In (i, j) (map wpos ws) <->
     (i = j /\ i < N)%nat \/ (j = S i /\ i < N)%nat \/ (i = S j /\ j < N)%nat) /\
  (forall i j v, In (i, j, v) ws -> v = tri_entry i j) /\
  (forall nmax i j, (N <= nmax)%nat -> In (i, j) (map wpos ws) -> (i < S nmax /\ j < S nmax)%nat).
Proof.
  intros nc re N cv ws. unfold ws. rewrite lanczos_hevents_writes.
  exact (conj eq_refl (conj (positions_nodup N) (conj (in_positions N)
    (conj (fun i j v H => proj1 (proj1 (in_build_writes N i j v) H)) (positions_bound N))))).
Qed.

(* for every N >= 1 and every read in the program-order event list, the content of h determined by the writes BEFORE
   the read (last write wins, zeros initially) is
   - for a block read h[:n,:n] (_calc_result_krylov(n-1), 2 <= n <= N): the symmetric tridiagonal matrix of Alpha and
     Beta, with no entry of a later iteration and no band entry that was not yet written;
   - for an entry read h[i,j] (k = 0 of _calc_result_krylov, _converged, the N = 1 debug message, and
     alpha = h[k,k], beta = h[k,k+1] of the rebuild loop): exactly what iteration i < N of the build loop wrote (read
     after write) *)
Theorem T16_tridiagonal_reads : forall nc re N cv, (1 <= N)%nat ->
  let evs := lanczos_hevents nc re N cv in
  (forall pre post n, evs = pre ++ HRB n :: post ->
     (2 <= n <= N)%nat /\
     forall i j, (i < n)%nat -> (j < n)%nat ->
       h_lookup (h_writes pre) i j = tri_entry i j /\ tri_entry i j = tri_entry j i) /\
  (forall pre post i j, evs = pre ++ HR i j :: post ->
     (i < N)%nat /\ ((i = j /\ h_lookup (h_writes pre) i j = Alpha i) \/
                     (j = S i /\ h_lookup (h_writes pre) i j = Beta i))).
Proof.
  intros nc re N cv HN evs. split; intros pre post; [intros n E|intros i j E];
    pose proof (lanczos_reads _ _ _ _ _ _ _ HN E) as R; [|exact R].
  exact (conj (proj1 R) (fun i j Hi Hj => conj (proj2 R i j Hi Hj) (tri_entry_sym i j))).
Qed.

(* program order: erasing the h accesses gives exactly the correspondence-checked event list of Model/Krylov.v;
   keeping only them gives: per build iteration k  h[k,k]=, read (h[0,0] or block k+1), h[k,k+1]=, h[k+1,k]=,
   [read h[k,k+1]]; then (N = 1) reads h[0,0], h[0,1], or (N > 1) per rebuild iteration k < N - len(cache) - 1 <= N - 1
   reads h[k,k], h[k,k+1]; the build loop has one matvec per iteration k = 0..N-1 *)
Theorem T16_tridiagonal_order : forall nc re N cv,
  h_erase (lanczos_hevents nc re N cv) = lanczos_events nc re N /\
  h_only (lanczos_hevents nc re N cv) = h_accesses nc N cv /\
  filter is_matvec (build_loop nc re 0 N []) = map (fun k => (2, k, 0, 0)%nat) (seq 0 N) /\
  (N - length (cache_after nc N) - 1 <= N - 1)%nat.
Proof.
  intros nc re N cv. split; [apply lanczos_hevents_erase|]. split; [apply lanczos_h_only|].
  split; [apply build_loop_matvecs|lia].
Qed.

(* control flow of the E_shift bookkeeping over Z (floats not modelled).  For every operator expression H, option
   E_shift, N (the hypothesis 1 <= N is not needed): __init__ adds E_shift exactly once to the operator; if the Ritz
   value of the operator used is (e + shifts already in H) + E_shift (covariance, T16_shift_rayleigh) the returned
   energy is e + shifts already in H, on the N = 1 and on the N > 1 path; for a caller's operator without shift the
   returned energy is e. *)
Theorem T16_shift : forall H es N e, (1 <= N)%nat ->
  total_shift (fst (krylov_init H es)) = (total_shift H + es_shift es)%Z /\
  run_return es N (e + total_shift H + es_shift es)%Z = ((e + total_shift H)%Z, negb (N =? 1)%nat) /\
  (total_shift H = 0%Z -> solve_energy H es N e = e).
Proof.
  intros H es N e _. split; [apply init_total_shift|]. split; [apply run_return_shifted|].
  intros H0. rewrite solve_energy_eq, H0. apply Z.add_0_r.
Qed.

(* shift covariance, exact algebra over Z: the Rayleigh quotient of H + s (H a diagonal operator d, or the symmetric
   tridiagonal matrix of alphas al and betas be) is that of H plus s; the three-term recurrence step of H + s with
   alpha + s gives the same vector as that of H with alpha (so beta and the Krylov vectors are unchanged) *)
Theorem T16_shift_rayleigh : forall s : Z,
  (forall d x, rq_num (map (Z.add s) d) x = (rq_num d x + s * rq_den d x)%Z /\
               rq_den (map (Z.add s) d) x = rq_den d x) /\
  (forall al be x, tri_form (map (Z.add s) al) be x = (tri_form al be x + s * rq_den al x)%Z) /\
  (forall d v u a b, lanczos_step (map (Z.add s) d) v u (a + s)%Z b = lanczos_step d v u a b).
Proof. exact shift_rayleigh. Qed.

(* two solver instances built one after the other on the SAME operator object (total shift 0): the first returns e;
   the second returns e unless the object is an OrthogonalNpcLinearOperator, whose orig_operator __init__ overwrites
   in place: then the shift is in the operator twice and subtracted once *)
Theorem T16_shift_twice : forall H es N1 N2 e, total_shift H = 0%Z ->
  solve_twice H es N1 N2 e = (e, match H with OOrtho _ => (e + es_shift es)%Z | _ => e end).
Proof. exact shift_twice. Qed.

(* REFUTED for a shared OrthogonalNpcLinearOperator (known finding F16.1, replayed on the code by harness/c16.py,
   stream lanczos, option `twice`) *)
Theorem T16_shift_shared_operator_refuted : exists H es N1 N2 e,
  total_shift H = 0%Z /\ (1 <= N1)%nat /\ (1 <= N2)%nat /\
  fst (solve_twice H es N1 N2 e) = e /\ snd (solve_twice H es N1 N2 e) <> e.
Proof.
  exists (OOrtho OBase), (Some (-20)), 3%nat, 1%nat, 5.
  split; [reflexivity|]. split; [lia|]. split; [lia|]. split; [reflexivity|].
  vm_compute. intros E. discriminate E.
Qed.

(* Gram-Schmidt indices of the build loop (model build_ortho of Model/Krylov.v, the per-iteration events
   (3, t, v, c) "w_t -= coef * v_v" that check_lanczos compares with the instrumented run).  For every N_cache >= 2,
   every N and every iteration k < N: without reortho, w_{k+1} = H v_k is orthogonalised against exactly v_k (alpha)
   and, for k >= 1, v_{k-1} (beta); with reortho against v_k (alpha) and each v_j, max(0, k+1-N_cache) <= j < k
   (projection coefficient), every index once; that is against ALL earlier vectors v_0..v_k iff k < N_cache; a vector
   that left the cache (j < k+1-N_cache) is never used again by any later iteration k' >= k.
   Index level only: that the float coefficients make the vectors orthogonal is oracle-checked. *)
Theorem T16_gram_schmidt_indices : forall nc N k, (2 <= nc)%nat -> (k < N)%nat ->
  nth k (build_ortho nc false 0 N []) [] =
    (3, S k, k, 0)%nat :: match k with O => [] | S k' => [(3, S k, k', 1)%nat] end /\
  nth k (build_ortho nc true 0 N []) [] =
    (3, S k, k, 0)%nat :: map (fun v => (3, S k, v, 2)%nat) (seq (S k - nc) (k - (S k - nc))) /\
  NoDup (ortho_targets (nth k (build_ortho nc true 0 N []) [])) /\
  (forall j, In j (ortho_targets (nth k (build_ortho nc true 0 N []) [])) <-> (S k - nc <= j <= k)%nat) /\
  ((forall j, (j <= k)%nat -> In j (ortho_targets (nth k (build_ortho nc true 0 N []) []))) <-> (k < nc)%nat) /\
  (forall k' j, (k <= k')%nat -> (k' < N)%nat -> (j < S k - nc)%nat ->
     ~ In j (ortho_targets (nth k' (build_ortho nc true 0 N []) []))).
Proof. exact gram_schmidt_indices. Qed.

(* GMRES.run / GMRES.reset: restart bookkeeping (Model/KrylovGmres.v).  Inputs observed on the run, per Arnoldi step:
   below = `error < res`, exhausted = `error <= eps * (residual at the start of the cycle)`.
   A cycle stops at the first Arnoldi step whose residual estimate is below the tolerance and that is either a step k >= N_min or
   has exhausted the Krylov space (estimate at the rounding level); otherwise it runs N_max steps
   (K = number of steps, cv = converged) *)
Theorem T16_gmres_stop_rule : forall N_min N_max fl K cv, gm_inner N_min 0 N_max fl = (K, cv) ->
  (cv = true -> (1 <= K <= N_max)%nat /\ gm_below fl (K - 1) = true /\
                ((N_min <= K - 1)%nat \/ gm_exh fl (K - 1) = true) /\
                (forall j, (j < K - 1)%nat ->
                   ~ (gm_below fl j = true /\ ((N_min <= j)%nat \/ gm_exh fl j = true)))) /\
  (cv = false -> K = N_max /\
                 (forall j, (j < N_max)%nat ->
                    ~ (gm_below fl j = true /\ ((N_min <= j)%nat \/ gm_exh fl j = true)))).
Proof. exact gm_stop_rule. Qed.

(* an exhausted Krylov space (estimate below the tolerance AND at the rounding level) ends the run whatever N_min is:
   no Arnoldi step is made on the zero vector (the 0/0 of finding F16.6) *)
Theorem T16_gmres_exhausted_stops : forall N_min N_max fl k, (k < N_max)%nat ->
  gm_below fl k = true -> gm_exh fl k = true ->
  (fst (gm_inner N_min 0 N_max fl) <= S k)%nat /\ snd (gm_inner N_min 0 N_max fl) = true.
Proof. exact gm_exhausted_stops. Qed.

(* at most `restart` cycles of 1..N_max steps; every cycle but the last one ran N_max steps without convergence;
   a run that never converged used all `restart` cycles *)
Theorem T16_gmres_cycles : forall N_min N_max r fls, (1 <= N_max)%nat ->
  let l := gm_cycles N_min N_max r fls in
  (length l <= r)%nat /\
  Forall (fun p => (1 <= fst p <= N_max)%nat) l /\
  (forall i, (S i < length l)%nat -> nth i l (0%nat, true) = (N_max, false)) /\
  ((forall p, In p l -> snd p = false) -> length l = r).
Proof. exact gm_cycles_spec. Qed.

(* operator applications: one per Arnoldi step, one per residual (initial, every reset, returned); one fresh start state per
   residual computed before a cycle; the update of x adds one term per Arnoldi step *)
Theorem T16_gmres_matvec_count : forall N_min N_max restart fls,
  let l := gm_cycles N_min N_max restart fls in
  let evs := gmres_events N_min N_max restart false fls in
  (count_tag 11 evs + count_tag 14 evs + count_tag 15 evs = 2 + sum_nat (map fst l) + gm_resets l)%nat /\
  count_tag 10 evs = S (gm_resets l) /\ count_tag 13 evs = gm_resets l /\
  count_tag 12 evs = sum_nat (map fst l).
Proof. exact gmres_matvec_count. Qed.

(* every reset is followed by the residual of the current x and a start state that satisfies ALL restart invariants (one Krylov
   vector r/|r|, r_norm = |r| absolute, e1 = r_norm e_1, H / rotations zero), and the Arnoldi steps of the new cycle count their
   Krylov vectors from one again.  All three conjuncts are facts about the text of the model trace (the model writes the
   events (10, c, 0, 0) and (11, c, k, S k) literally; the other two are its defining equations); what ties them to the
   code is the stream gmresr of harness/c16.py. *)
Theorem T16_gmres_restart_state : forall N_min N_max restart ib fls,
  Forall ev_fresh (gmres_events N_min N_max restart ib fls) /\
  (forall c K t, gm_run_events c ((K, false) :: t) =
     gm_cycle_events c K ++ [(13, c, 0, 0); (14, S c, 0, 0); (10, S c, 0, 0)]%nat ++ gm_run_events (S c) t) /\
  (forall c K, gm_cycle_events c (S K) =
     (11, c, 0, 1)%nat :: map (fun k => (11, c, k, S k)%nat) (seq 1 K) ++ map (fun i => (12, c, i, 0)%nat) (seq 0 (S K))).
Proof. intros. split; [apply fresh_gmres_events|split; intros; reflexivity]. Qed.

(* GMRES(2), N_min = 0, restart = 3: first cycle without convergence, second converges in its step 1;
   N_min = 5: an exhausted step 0 stops the run (1x1 system with the default options), a merely small one does not *)
Example T16_example_gmres :
  let n := (false, false) in let b := (true, false) in let x := (true, true) in
  gmres_events 0 2 3 false [[n; n]; [n; b]] =
  [(14,0,0,0); (10,0,0,0); (11,0,0,1); (11,0,1,2); (12,0,0,0); (12,0,1,0); (13,0,0,0); (14,1,0,0); (10,1,0,0);
   (11,1,0,1); (11,1,1,2); (12,1,0,0); (12,1,1,0); (15,0,0,0)]%nat /\
  gmres_iters 0 2 3 false [[n; n]; [n; b]] = [2; 2]%nat /\
  gmres_iters 1 3 2 false [[b; b; n]; []] = [2]%nat /\ gmres_iters 1 3 2 false [[b; n; n]; []] = [3; 3]%nat /\
  gmres_iters 5 20 10 false [[x]] = [1]%nat /\ gmres_iters 5 3 2 false [[b; b; b]; [b; x]] = [3; 2]%nat /\
  gmres_events 5 20 10 true [] = [(14,0,0,0); (10,0,0,0)]%nat.
Proof. vm_compute. repeat split; reflexivity. Qed.

(* non-vacuity: N = 7 iterations with N_cache = 3: the cache, the assembled terms *)
Example T16_example_cache : cache_after 3 7 = [4; 5; 6]%nat.
Proof. vm_compute. reflexivity. Qed.
Example T16_example_terms :
  result_terms 3 7 = [(0,0); (6,6); (5,5); (4,4); (1,1); (2,2); (3,3)]%nat.
Proof. vm_compute. reflexivity. Qed.
Example T16_example_argsort :
  argsort_model LM [(1, 0); (0, -3); (2, 2)]%Z = [1; 2; 0]%nat.
Proof. vm_compute. reflexivity. Qed.
Example T16_example_ritz : (rq_num [2; 5; 3] [1; -2; 1] = 25 /\ rq_den [2; 5; 3] [1; -2; 1] = 6)%Z.
Proof. vm_compute. split; reflexivity. Qed.

(* N = 3, N_cache = 2 (rebuild of one vector), _converged called in iterations 1 and 2: all accesses to h in order *)
Example T16_example_h_accesses :
  h_only (lanczos_hevents 2 false 3 [false; true; true]) =
  [HW 0 0 (Alpha 0); HR 0 0; HW 0 1 (Beta 0); HW 1 0 (Beta 0);
   HW 1 1 (Alpha 1); HRB 2; HW 1 2 (Beta 1); HW 2 1 (Beta 1); HR 1 2;
   HW 2 2 (Alpha 2); HRB 3; HW 2 3 (Beta 2); HW 3 2 (Beta 2); HR 2 3]%nat.
Proof. vm_compute. reflexivity. Qed.
Example T16_example_h_rebuild :
  skipn 17 (h_only (lanczos_hevents 2 true 5 [])) =
  [HRB 5; HW 4 5 (Beta 4); HW 5 4 (Beta 4); HR 0 0; HR 0 1; HR 1 1; HR 1 2]%nat.
Proof. vm_compute. reflexivity. Qed.
(* the block read in iteration 2 sees the 3x3 tridiagonal matrix; Beta 2 is not yet there *)
Example T16_example_h_block :
  let w := h_writes (firstn 22 (lanczos_hevents 2 false 3 [false; true; true])) in
  nth 22 (lanczos_hevents 2 false 3 [false; true; true]) (HR 9 9) = HRB 3 /\
  map (fun i => map (h_lookup w i) (seq 0 4)) (seq 0 4) =
  [[Alpha 0; Beta 0; HZero; HZero]; [Beta 0; Alpha 1; Beta 1; HZero]; [HZero; Beta 1; Alpha 2; HZero];
   [HZero; HZero; HZero; HZero]]%nat.
Proof. vm_compute. split; reflexivity. Qed.
Example T16_example_shift :
  (solve_energy OBase (Some (-20)) 1 7 = 7 /\ solve_energy (OOrtho OBase) (Some 3) 4 7 = 7 /\
   fst (krylov_init (OOrtho OBase) (Some 3)) = OOrtho (OShift OBase 3) /\
   tri_form [2; 5; 3] [1; -1] [1; -2; 1] = 25 + 2 * (1 * 1 * -2) + 2 * (-1 * -2 * 1) /\
   tri_form (map (Z.add 10) [2; 5; 3]) [1; -1] [1; -2; 1] = tri_form [2; 5; 3] [1; -1] [1; -2; 1] + 10 * 6)%Z.
Proof. vm_compute. repeat split; reflexivity. Qed.

Example T16_example_gs :
  map ortho_targets (build_ortho 3 true 0 5 []) = [[0]; [1; 0]; [2; 0; 1]; [3; 1; 2]; [4; 2; 3]]%nat /\
  map ortho_targets (build_ortho 3 false 0 5 []) = [[0]; [1; 0]; [2; 1]; [3; 2]; [4; 3]]%nat.
Proof. vm_compute. split; reflexivity. Qed.

Print Assumptions T16_cache_bounded.
Print Assumptions T16_three_term_indices.
Print Assumptions T16_rebuild_same_recurrence.
Print Assumptions T16_result_full_indices.
Print Assumptions T16_cache_independence.
Print Assumptions T16_arnoldi_order.
Print Assumptions T16_ritz_bound_partial.
Print Assumptions T16_tridiagonal_writes.
Print Assumptions T16_tridiagonal_reads.
Print Assumptions T16_tridiagonal_order.
Print Assumptions T16_shift.
Print Assumptions T16_shift_rayleigh.
Print Assumptions T16_shift_twice.
Print Assumptions T16_shift_shared_operator_refuted.
Print Assumptions T16_gram_schmidt_indices.
Print Assumptions T16_gmres_stop_rule.
Print Assumptions T16_gmres_exhausted_stops.
Print Assumptions T16_gmres_cycles.
Print Assumptions T16_gmres_matvec_count.
Print Assumptions T16_gmres_restart_state.
