(* Property C15: truncation honours its constraints and reports its error exactly. *)
From TenpyV Require Import Base.Prelude Base.PyLib Model.Truncate Proofs.TruncateP.
From TenpyV Require Import Gen.G_truncation Proofs.TruncateGenP.
From TenpyV Require Import Model.TruncBook Model.TruncPriority Proofs.TruncBookP Proofs.TruncPriorityP.
From TenpyV Require Import Model.TruncBookCheck Proofs.TruncBookCheckP.
From Coq Require Import QArith.
Open Scope Z_scope.

(* never discards a value larger than one it keeps (all spectra, all options) *)
Theorem T15_threshold : forall xs o i j,
  (i < length xs)%nat -> (j < length xs)%nat ->
  nth i (r_mask (truncate xs o)) false = true ->
  nth j (r_mask (truncate xs o)) false = false ->
  nthZ xs j <= nthZ xs i.
Proof. exact threshold. Qed.

Theorem T15_keeps_one : forall xs o, xs <> [] -> (1 <= length (r_kept (truncate xs o)))%nat.
Proof. exact keeps_one. Qed.

(* priority 1: at most chi_max values, always *)
Theorem T15_chi_max : forall xs o, xs <> [] -> forall m, chi_max o = Some m -> 1 <= m ->
  Z.of_nat (length (r_kept (truncate xs o))) <= m.
Proof. exact chi_max_bound. Qed.

(* priority 2: at least chi_min values whenever compatible with chi_max and the length *)
Theorem T15_chi_min : forall xs o, xs <> [] -> forall m, chi_min o = Some m -> m <= Z.of_nat (length xs) ->
  (chi_max o = None \/ exists M, chi_max o = Some M /\ m <= M) ->
  m <= Z.of_nat (length (r_kept (truncate xs o))).
Proof. exact chi_min_bound. Qed.

(* priority 3: no cut inside a degenerate multiplet whenever compatible with 1-2 (st2, Proofs/TruncateP.v: the mask of
   final_good after chi_max and chi_min) *)
Theorem T15_degeneracy : forall xs o, xs <> [] -> forall p q, deg_tol o = Some (p, q) ->
  let ss := map fst (sorted_pairs xs) in
  anyb (andl (st2 ss o) (good_deg ss p q)) = true ->
  cut ss o = 0%nat \/ deg_ok p q (nthZ ss (cut ss o - 1)) (nthZ ss (cut ss o)) = true.
Proof. exact deg_bound. Qed.

(* priority 4: nothing below svd_min is kept whenever compatible with 1-3 (st3: the mask after chi_max, chi_min and
   degeneracy_tol) *)
Theorem T15_svd_min : forall xs o, xs <> [] -> forall m, svd_min o = Some m ->
  let ss := map fst (sorted_pairs xs) in
  anyb (andl (st3 ss o) (good_svd_min ss m)) = true ->
  forall v, In v (r_kept (truncate xs o)) -> m <= v.
Proof. exact svd_min_bound. Qed.

(* trunc_cut (alone): discarded weight <= trunc_cut^2 and maximal with that property *)
Theorem T15_trunc_cut : forall xs t, xs <> [] -> 0 <= t ->
  let o := mkOpts None None None None (Some t) in
  r_eps (truncate xs o) <= t /\
  (t < sumZ (map sq xs) ->
   t < r_eps (truncate xs o) + sq (nthZ (map fst (sorted_pairs xs)) (cut (map fst (sorted_pairs xs)) o))).
Proof. intros xs t Hne Ht o. exact (trunc_cut_only xs o Hne t eq_refl Ht). Qed.

(* reported error = discarded weight, reported norm = kept weight, together the total *)
Theorem T15_error_exact : forall xs o,
  r_eps (truncate xs o) + r_norm2 (truncate xs o) = sumZ (map sq xs) /\
  r_norm2 (truncate xs o) = sumZ (map sq (r_kept (truncate xs o))) /\
  r_eps (truncate xs o) =
    sumZ (map sq (firstn (cut (map fst (sorted_pairs xs)) o) (map fst (sorted_pairs xs)))).
Proof. intros xs o. exact (conj (total_split xs o) (conj (norm_sorted xs o) (eps_sorted xs o))). Qed.

(* unsorted input: the kept multiset, error and norm do not depend on the input order *)
Theorem T15_unsorted_input : forall xs ys o, xs <> [] -> Permutation xs ys ->
  r_kept (truncate xs o) = r_kept (truncate ys o) /\
  r_eps (truncate xs o) = r_eps (truncate ys o) /\
  r_norm2 (truncate xs o) = r_norm2 (truncate ys o).
Proof.
  intros xs ys o _ P. rewrite !eps_sorted, !norm_sorted, !kept_eq, (sorted_values_perm xs ys P). repeat split.
Qed.

(* tie T: the model's combine_constraints IS the text of truncation._combine_constraints, translated anew at every run *)
Theorem T15_combine_constraints_gen : forall a b, combine_constraints_gen a b = combine_constraints a b.
Proof. exact combine_constraints_gen_eq. Qed.

(* non-vacuity: a concrete spectrum with a degenerate pair, chi_max cutting through it *)
Example T15_example :
  let o := mkOpts (Some 2) None (Some (11, 10)) (Some 1) (Some 0) in
  observe [5; 1; 5; 0; 3] o = (2%nat, [5; 5], 50, 10).
Proof. vm_compute. reflexivity. Qed.

(* The documented priority in ONE statement (Model/TruncPriority.v):  A_0 = all cuts 0..n-1,
   A_k = A_(k-1) /\ G_k if that is non-empty, else A_(k-1), for the active constraints G_k in code
   order (chi_max, chi_min > 1, degeneracy_tol, svd_min, trunc_cut; None contributes nothing);
   final_good is exactly A_final, and truncate keeps the values above  cut = min A_final. *)
Theorem T15_priority_general : forall xs o, xs <> [] ->
  let ss := map fst (sorted_pairs xs) in
  let c := cut ss o in
  r_kept (truncate xs o) = skipn c ss /\
  (forall k, nth k (final_good ss o) false = A_final ss o k) /\
  (c < length xs)%nat /\ A_final ss o c = true /\
  (forall k, A_final ss o k = true -> (c <= k)%nat).
Proof.
  intros xs o Hne. destruct (cut_is_min _ o (spectrum_nonempty xs Hne)) as (H1 & H2 & H3). rewrite (spectrum_len xs) in H1.
  exact (conj eq_refl (conj (final_good_iff _ o) (conj H1 (conj H2 H3)))).
Qed.

Theorem T15_priority_stage : forall n A G,
  (forall c, stage n A G c = true -> A c = true) /\
  ((exists c, (c < n)%nat /\ A c = true /\ G c = true) -> forall c, stage n A G c = (A c && G c)) /\
  ((forall c, (c < n)%nat -> A c = true -> G c = false) -> forall c, stage n A G c = A c).
Proof. exact stage_spec. Qed.

(* four of the five constraint sets in words (sane option values; ss ascending); the degeneracy set G_deg is deg_ok of the
   two values next to the cut, as it stands *)
Theorem T15_priority_sets_meaning :
  (forall n m c, 1 <= m -> (c < n)%nat -> (G_chi_max n m c = true <-> Z.of_nat (n - c) <= m)) /\
  (forall n m c, 2 <= m -> (c < n)%nat -> (G_chi_min n m c = true <-> m <= Z.of_nat (n - c))) /\
  (forall ss m c, StronglySorted Z.le ss -> (c < length ss)%nat ->
     (G_svd_min ss m c = true <-> forall v, In v (skipn c ss) -> m <= v)) /\
  (forall ss t c, (c < length ss)%nat ->
     (G_trunc_cut ss t c = true <-> t < sumZ (map sq (firstn c ss)) + sq (nthZ ss c))).
Proof. exact (conj chi_max_accepts (conj chi_min_accepts (conj svd_min_accepts trunc_cut_accepts))). Qed.

(* all five constraints active, all satisfiable in order: A_final = {3} *)
Example T15_priority_example :
  let o := mkOpts (Some 2) None (Some (11, 10)) (Some 1) (Some 0) in
  let ss := map fst (sorted_pairs [5; 1; 5; 0; 3]) in
  ss = [0; 1; 3; 5; 5] /\ map (A_final ss o) (seq 0 6) = [false; false; false; true; false; false] /\ cut ss o = 3%nat.
Proof. vm_compute. auto. Qed.
(* chi_max = 1 cuts through the degenerate pair 5,5 and nothing reaches svd_min = 6: both later constraints are ignored *)
Example T15_priority_example_dropped :
  let o := mkOpts (Some 1) None (Some (11, 10)) (Some 6) (Some 0) in
  let ss := map fst (sorted_pairs [5; 1; 5; 0; 3]) in
  map (A_final ss o) (seq 0 6) = [false; false; false; false; true; false] /\ length (constraints ss o) = 4%nat.
Proof. vm_compute. auto. Qed.

(* Renormalisation bookkeeping of svd_theta / eigh_rho around truncate (Model/TruncBook.v), over Q,
   without square roots: the two roots of the code, r = np.linalg.norm(S) and nn = norm_new, are
   universally quantified and constrained by r*r == sum S^2, nn*nn == sum S[mask]^2.
   Tie to the code: svd_book_sq / eigh_book_z / te_* are compared with the implementation in
   harness/c15.py (streams `book` (1e-9), `err-exact` (exact)).
   svd_theta_book / eigh_rho_book (the versions with the roots as inputs) are EXECUTED against
   truncation.svd_theta / truncation.eigh_rho in streams `svd-exact` / `eigh-exact`
   (harness/c15_streams.py; what a case carries and how check_svd_theta_exact / check_eigh_rho_exact compare it: head of
   Model/TruncBookCheck.v): permutation-planted integer spectra with rational roots (Pythagorean tuples with a Pythagorean
   prefix such as (12, 9 | 8) -> 15 -> 17, eigenvalue lists with kept/total a rational square, zeros, scalings 2^-k); LAPACK
   returns the planted values bit for bit on these matrices (the harness verifies this per case and skips the few cases
   where it does not).  The comparison is by exact equality in about a third of the cases (sum of squares a power of 4, kept
   part m * (power-of-4 tuple)).  The rest, within 2^-50 (svd_theta) resp. 2^-49 (eigh_rho) relative, is APPROXIMATE: S0/r
   such as 12/17 is not a float, the code rounds S/r, the squares, the norm and the final quotient; observed deviation
   <= 4.1 * 2^-53.  A rewrite of the code that only changes the rounding (S * (1/new_norm) instead of S / new_norm) is
   therefore not flagged.
   The link to the integer model is by the theorems below (mask := r_mask (truncate xs o) of the
   correspondence-checked Model/Truncate.v).
   decompose_theta_qr_based / _qr_theta_Y0 / _eig_based_svd have NO Coq model: streams `qr-direct` / `qr-engine` are an
   oracle only (dense numpy: reported eps == squared relative error with the reported renormalization, eps >= optimum of
   the rank, renormalization^2 == |theta|^2 (1 - eps), S normalised, declared A / B forms isometric, Th form normalised,
   engine total == sum of the reported errors). *)
Open Scope Q_scope.

(* any mask: S_new_i * renormalization_new = S_old_i on every kept index, |S_new| = 1,
   eps = discarded weight / total weight, renormalization_new^2 = kept weight,
   eps = from_norm(renormalization_new, r) *)
Theorem T15_svd_theta_bookkeeping : forall S0 r mask nn,
  length mask = length S0 -> ~ r == 0 -> ~ nn == 0 ->
  r * r == sumQ (map qsq S0) ->
  nn * nn == sumQ (map qsq (select mask (map (fun x => x / r) S0))) ->
  let out := svd_theta_book S0 r mask nn in
  Forall2 (fun s x => s * so_renorm out == x) (so_S out) (select mask S0) /\
  sumQ (map qsq (so_S out)) == 1 /\
  so_eps out == sumQ (map qsq (select (nmask mask) S0)) / sumQ (map qsq S0) /\
  qsq (so_renorm out) == sumQ (map qsq (select mask S0)) /\
  so_eps out == 1 - qsq (so_renorm out) / (r * r).
Proof. exact svd_book_any. Qed.

(* with the mask chosen by truncate: eps and renormalization are the r_eps / r_norm2 of Model/Truncate.v *)
Theorem T15_svd_theta_truncate : forall xs o r nn,
  let S0 := map inject_Z xs in
  let mask := r_mask (truncate xs o) in
  ~ r == 0 -> ~ nn == 0 ->
  r * r == inject_Z (sumZ (map sq xs)) ->
  nn * nn == sumQ (map qsq (select mask (map (fun x => x / r) S0))) ->
  let out := svd_theta_book S0 r mask nn in
  Forall2 (fun s x => s * so_renorm out == x) (so_S out) (select mask S0) /\
  sumQ (map qsq (so_S out)) == 1 /\
  so_eps out == inject_Z (r_eps (truncate xs o)) / inject_Z (sumZ (map sq xs)) /\
  qsq (so_renorm out) == inject_Z (r_norm2 (truncate xs o)) /\
  so_eps out == 1 - qsq (so_renorm out) / (r * r).
Proof. exact svd_book_truncate. Qed.

(* squares only, every integer spectrum, no root at all:
   (S_new_i * renormalization_new)^2 = S_old_i^2, sum S_new^2 = 1, eps = discarded / total *)
Theorem T15_svd_theta_bookkeeping_sq : forall xs mask, length mask = length xs ->
  (0 < sumZ (map sq xs))%Z -> (0 < sumZ (map sq (select mask xs)))%Z ->
  Forall2 (fun s x => s * snd (fst (svd_book_sq xs mask)) == inject_Z (sq x))
          (fst (fst (svd_book_sq xs mask))) (select mask xs) /\
  sumQ (fst (fst (svd_book_sq xs mask))) == 1 /\
  snd (svd_book_sq xs mask) == inject_Z (sumZ (map sq (select (nmask mask) xs))) / inject_Z (sumZ (map sq xs)) /\
  snd (fst (svd_book_sq xs mask)) == inject_Z (sumZ (map sq (select mask xs))).
Proof. exact svd_book_sq_ok. Qed.

(* eigh_rho: sum W_new = trace, eps = discarded / trace, W_new_i * (1 - eps) = W_old_i on every kept index *)
Theorem T15_eigh_rho_bookkeeping : forall W0 mask nn,
  length mask = length W0 -> ~ sumQ W0 == 0 -> ~ nn == 0 ->
  nn * nn == sumQ (select mask (map (fun w => w / sumQ W0) W0)) ->
  let out := eigh_rho_book W0 mask nn in
  sumQ (eo_W out) == sumQ W0 /\
  eo_eps out == sumQ (select (nmask mask) W0) / sumQ W0 /\
  Forall2 (fun w w0 => w * (1 - eo_eps out) == w0) (eo_W out) (select mask W0).
Proof. exact eigh_book_any. Qed.

(* eigenvalues = squares of an integer spectrum xs, mask chosen by truncate on xs (= sqrt(W), scaled) *)
Theorem T15_eigh_rho_truncate : forall xs o nn,
  let W0 := map (fun x => inject_Z (sq x)) xs in
  let mask := r_mask (truncate xs o) in
  (0 < sumZ (map sq xs))%Z -> ~ nn == 0 ->
  nn * nn == sumQ (select mask (map (fun w => w / sumQ W0) W0)) ->
  let out := eigh_rho_book W0 mask nn in
  sumQ (eo_W out) == inject_Z (sumZ (map sq xs)) /\
  eo_eps out == inject_Z (r_eps (truncate xs o)) / inject_Z (sumZ (map sq xs)) /\
  Forall2 (fun w w0 => w * (1 - eo_eps out) == w0) (eo_W out) (select mask W0).
Proof. exact eigh_book_truncate. Qed.

Theorem T15_eigh_rho_bookkeeping_z : forall ws mask,
  length mask = length ws -> (0 < sumZ ws)%Z -> (0 < sumZ (select mask ws))%Z ->
  sumQ (fst (eigh_book_z ws mask)) == inject_Z (sumZ ws) /\
  snd (eigh_book_z ws mask) == inject_Z (sumZ (select (nmask mask) ws)) / inject_Z (sumZ ws) /\
  Forall2 (fun w w0 => w * (1 - snd (eigh_book_z ws mask)) == inject_Z w0) (fst (eigh_book_z ws mask)) (select mask ws).
Proof. exact eigh_book_z_ok. Qed.

(* svd_hyps / eigh_hyps are the first conjunct of the correspondence checkers check_svd_theta_exact / check_eigh_rho_exact
   (Model/TruncBookCheck.v, streams svd-exact / eigh-exact); they imply the hypotheses of the two bookkeeping theorems, hence
   their conclusions for the model value the implementation's floats were compared with.  (The step from an accepted case
   to that conjunct is read off the definition of the checker; no theorem states it.) *)
Theorem T15_svd_exact_check_sound : forall S0 r mask nn, svd_hyps S0 r mask nn = true ->
  let out := svd_theta_book S0 r mask nn in
  Forall2 (fun s x => s * so_renorm out == x) (so_S out) (select mask S0) /\
  sumQ (map qsq (so_S out)) == 1 /\
  so_eps out == sumQ (map qsq (select (nmask mask) S0)) / sumQ (map qsq S0) /\
  qsq (so_renorm out) == sumQ (map qsq (select mask S0)) /\
  so_eps out == 1 - qsq (so_renorm out) / (r * r).
Proof.
  intros S0 r mask nn H. destruct (svd_hyps_sound _ _ _ _ H) as (H1 & H2 & H3 & H4 & H5).
  exact (svd_book_any S0 r mask nn H1 H2 H3 H4 H5).
Qed.

Theorem T15_eigh_exact_check_sound : forall W0 mask nn, eigh_hyps W0 mask nn = true ->
  let out := eigh_rho_book W0 mask nn in
  sumQ (eo_W out) == sumQ W0 /\
  eo_eps out == sumQ (select (nmask mask) W0) / sumQ W0 /\
  Forall2 (fun w w0 => w * (1 - eo_eps out) == w0) (eo_W out) (select mask W0).
Proof.
  intros W0 mask nn H. destruct (eigh_hyps_sound _ _ _ H) as (H1 & H2 & H3 & H4).
  exact (eigh_book_any W0 mask nn H1 H2 H3 H4).
Qed.

(* non-vacuity + what a case looks like: (12, 9 | 8), r = 17, nn = 15/17; impl floats S = 0.8 (rounded), 0.6 (rounded),
   renormalization = 15, eps = 64/289 (rounded) are accepted by the enclosure; a deviation of 2^-46 is rejected;
   (3,3,3,3 | 3,3,3,1)/8 is compared by exact equality: S = 1/2 four times, renormalization = 3/4, eps = 7/16 *)
Example T15_svd_exact_check_example :
  svd_hyps [12; 9; 8] 17 [true; true; false] (15 # 17) = true /\
  svd_all_dyadic [12; 9; 8] 17 [true; true; false] (15 # 17) = false /\
  check_svd_theta_exact ([(12, 1); (9, 1); (8, 1)], (17, 1), [true; true; false], (15, 17), false,
     ([(3602879701896397, 4503599627370496); (5404319552844595, 9007199254740992)], (15, 1),
      (3989347766805699, 18014398509481984)))%Z = true /\
  check_svd_theta_exact ([(12, 1); (9, 1); (8, 1)], (17, 1), [true; true; false], (15, 17), false,
     ([(3602879701896397 + 64, 4503599627370496); (5404319552844595, 9007199254740992)], (15, 1),
      (3989347766805699, 18014398509481984)))%Z = false /\
  check_svd_theta_exact ([(3, 8); (3, 8); (3, 8); (3, 8); (3, 8); (3, 8); (3, 8); (1, 8)], (1, 1),
     [true; true; true; true; false; false; false; false], (3, 4), true,
     ([(1, 2); (1, 2); (1, 2); (1, 2)], (3, 4), (7, 16)))%Z = true /\
  check_svd_theta_exact ([(3, 8); (3, 8); (3, 8); (3, 8); (3, 8); (3, 8); (3, 8); (1, 8)], (1, 1),
     [true; true; true; true; false; false; false; false], (3, 4), true,
     ([(1, 2); (1, 2); (1, 2); (4503599627370497, 9007199254740992)], (3, 4), (7, 16)))%Z = false /\
  eigh_hyps [144; 81; 64] [true; true; false] (15 # 17) = true.
Proof. vm_compute. repeat split; reflexivity. Qed.

(* TruncationError: err_1 + ... + err_k has eps = sum eps_i, ov = product ov_i (every list);
   from_norm(new, old) = from_S(discarded, old) when old^2 = new^2 + discarded weight *)
Theorem T15_err_add : forall l,
  te_eps (te_sum l) == sumQ (map te_eps l) /\ te_ov (te_sum l) == prodQ (map te_ov l).
Proof. exact te_sum_ok. Qed.

Theorem T15_err_from_norm : forall nn no disc,
  ~ no == 0 -> no * no == nn * nn + sumQ (map qsq disc) ->
  te_eps (te_from_norm nn no) == te_eps (te_from_S disc (Some no)) /\
  te_ov (te_from_norm nn no) == te_ov (te_from_S disc (Some no)).
Proof. exact te_from_norm_from_S. Qed.

Theorem T15_err_from_norm_1 : forall nn disc,
  1 == nn * nn + sumQ (map qsq disc) ->
  te_eps (te_from_norm nn 1) == te_eps (te_from_S disc None) /\
  te_ov (te_from_norm nn 1) == te_ov (te_from_S disc None).
Proof. exact te_from_norm_from_S_1. Qed.

(* non-vacuity: spectrum 25, 36, 48 (norm 65), chi_max = 2 keeps 36, 48 (norm 60): r = 65, nn = 12/13 *)
Example T15_svd_theta_example :
  let xs := [25; 36; 48]%Z in
  let o := mkOpts (Some 2%Z) None None None None in
  let S0 := map inject_Z xs in
  let mask := r_mask (truncate xs o) in
  let out := svd_theta_book S0 65 mask (12 # 13) in
  mask = [false; true; true] /\
  65 * 65 == inject_Z (sumZ (map sq xs)) /\
  (12 # 13) * (12 # 13) == sumQ (map qsq (select mask (map (fun x => x / 65) S0))) /\
  map Qred (so_S out) = [3 # 5; 4 # 5] /\ Qred (so_renorm out) = 60 /\ Qred (so_eps out) = 25 # 169.
Proof. vm_compute. repeat split; reflexivity. Qed.

(* eigenvalues 625, 1296, 2304 (trace 4225): W_new sums to the trace; dividing by new_norm instead of
   new_norm**2 gives 3900: W_new no longer sums to the trace *)
Example T15_eigh_rho_example :
  let xs := [25; 36; 48]%Z in
  let o := mkOpts (Some 2%Z) None None None None in
  let W0 := map (fun x => inject_Z (sq x)) xs in
  let mask := r_mask (truncate xs o) in
  let out := eigh_rho_book W0 mask (12 # 13) in
  (12 # 13) * (12 # 13) == sumQ (select mask (map (fun w => w / sumQ W0) W0)) /\
  map Qred (eo_W out) = [1521; 2704] /\ Qred (eo_eps out) = 25 # 169 /\
  sumQ (eo_W out) == 4225 /\ sumQ (eigh_rho_book_wrong W0 mask (12 # 13)) == 3900.
Proof. vm_compute. repeat split; reflexivity. Qed.

Example T15_err_example :
  let l := [te_make (1 # 100); te_make (1 # 50); te_from_S [5 # 13] None] in
  Qred (te_eps (te_sum l)) = Qred ((1 # 100) + (1 # 50) + (25 # 169)) /\
  1 == (12 # 13) * (12 # 13) + sumQ (map qsq [5 # 13]) /\
  Qred (te_eps (te_from_norm (12 # 13) 1)) = 25 # 169.
Proof. vm_compute. repeat split; reflexivity. Qed.
Close Scope Q_scope.

Print Assumptions T15_threshold.
Print Assumptions T15_keeps_one.
Print Assumptions T15_chi_max.
Print Assumptions T15_chi_min.
Print Assumptions T15_degeneracy.
Print Assumptions T15_svd_min.
Print Assumptions T15_trunc_cut.
Print Assumptions T15_error_exact.
Print Assumptions T15_unsorted_input.
Print Assumptions T15_combine_constraints_gen.
Print Assumptions T15_priority_general.
Print Assumptions T15_priority_stage.
Print Assumptions T15_priority_sets_meaning.
Print Assumptions T15_svd_theta_bookkeeping.
Print Assumptions T15_svd_theta_truncate.
Print Assumptions T15_svd_theta_bookkeeping_sq.
Print Assumptions T15_eigh_rho_bookkeeping.
Print Assumptions T15_eigh_rho_truncate.
Print Assumptions T15_eigh_rho_bookkeeping_z.
Print Assumptions T15_svd_exact_check_sound.
Print Assumptions T15_eigh_exact_check_sound.
Print Assumptions T15_err_add.
Print Assumptions T15_err_from_norm.
Print Assumptions T15_err_from_norm_1.
