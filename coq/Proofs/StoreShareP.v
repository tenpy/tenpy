(* Model/StoreShare.v: what a function other than copy(deep=False) returns, and the receiver of a rebinding in-place
   method, owns only buffers allocated by the call (`owns_fresh`): the one reason why two tensors share nothing. *)
From TenpyV Require Import Base.Prelude Model.Store Model.StoreShare Proofs.StoreP Proofs.StoreP2.
Open Scope nat_scope.

Definition owns_fresh (h h' : heap) (c : nat) : Prop := Forall (fun j => length (bufs h) <= j) (blk (obj h' c)).

Lemma owns_fresh_later h0 h h1 h2 c : length (bufs h0) <= length (bufs h) -> obj h2 c = obj h1 c ->
  owns_fresh h h1 c -> owns_fresh h0 h2 c.
Proof. unfold owns_fresh. intros Hl ->. apply Forall_impl. intros j Hj. lia. Qed.

Lemma old_fresh_unshared h h' x c : wf h -> x < length (objs h) -> obj h' x = obj h x -> owns_fresh h h' c ->
  shares_buffer h' x c = false /\ shares_buffer h' c x = false.
Proof.
  intros Hwf Hx Ho Hc. destruct (wf_obj h x Hwf Hx) as [Hb _]. rewrite <- Ho in Hb.
  unfold owns_fresh in Hc. rewrite Forall_forall in Hb, Hc.
  split; apply shares_buffer_false; intros i Hi Hj; [specialize (Hb i Hi); specialize (Hc i Hj)|specialize (Hb i Hj); specialize (Hc i Hi)]; lia.
Qed.

Lemma returns_fresh_pure o : returns_fresh o = true -> inplace_receiver o = None.
Proof. destruct o; cbn [returns_fresh inplace_receiver]; intros H; (reflexivity || discriminate H). Qed.

(* r need not be live: then obj reads darr, without blocks *)
Lemma blk_set_obj (P : nat -> Prop) h r a : Forall P (blk a) -> Forall P (blk (obj (set_obj h r a) r)).
Proof.
  intros Ha. unfold obj, set_obj. cbn [objs]. destruct (Nat.lt_ge_cases r (length (objs h))) as [Hlt|Hge].
  - rewrite nth_upd_same by exact Hlt. exact Ha.
  - rewrite nth_overflow by (rewrite upd_length; exact Hge). constructor.
Qed.

Lemma exec_fresh h o : returns_fresh o = true \/ rebinds_fresh o = true ->
  owns_fresh h (fst (exec h o)) (snd (exec h o)).
Proof.
  intros Hf. unfold owns_fresh.
  destruct o as [nb lgs|deep r|r f|r b g|r f gt perm|r gt perm|r f gt newlegs|r f|r f|a b g|a b pa pb F];
    cbn [returns_fresh rebinds_fresh] in Hf; try (destruct Hf; discriminate);
    (* left: OMapRebind and OProject rebind the receiver; ONew, OCopy true, OUnary, OScaleAxis, OAdd and, last,
       OTensordot return the tensor they allocate last *)
    [> try (destruct deep; [|destruct Hf; discriminate]); cbn [exec deep_copy rebind fst snd];
       (apply blk_set_obj || (unfold obj; cbn [add_obj objs]; rewrite nth_middle)); apply fresh_ge; lia .. |].
  rewrite exec_tensordot. cbv zeta.
  destruct (keeps_transposed_copy h _ a pa eq_refl) as [K3 L3].
  destruct (keeps_transposed_copy _ _ b pb (eq_sym L3)) as [K6 L6].
  pose proof (keeps_bufs_le _ _ _ _ K3). pose proof (keeps_bufs_le _ _ _ _ K6).
  destruct (F _ _) as [rb rt]. cbn [fst snd]. rewrite (obj_add_new (mkHeap _ _ _ _)) by (symmetry; exact L6).
  apply fresh_ge. lia.
Qed.

Lemma fresh_unshared h o x : wf h -> returns_fresh o = true \/ rebinds_fresh o = true -> x < length (objs h) ->
  (forall r, inplace_receiver o = Some r -> x <> r) ->
  shares_buffer (fst (exec h o)) x (snd (exec h o)) = false /\
  shares_buffer (fst (exec h o)) (snd (exec h o)) x = false.
Proof.
  intros Hwf Hf Hx Hne. apply (old_fresh_unshared h _ x _ Hwf Hx); [|apply exec_fresh, Hf].
  apply exec_obj_other; [exact Hx|]. intros r Hr. right. exact (Hne r Hr).
Qed.

Lemma fresh_independent h h' x c : wf h -> wf h' -> keeps h h' [] [] -> x < length (objs h) ->
  length (objs h) <= c < length (objs h') -> owns_fresh h h' c ->
  (forall o, inplace_receiver o = Some x -> denote (fst (exec h' o)) c = denote h' c) /\
  (forall o, inplace_receiver o = Some c -> denote (fst (exec h' o)) x = denote h' x).
Proof.
  intros Hwf Hwf' K Hx Hc Hf.
  destruct (old_fresh_unshared h h' x c Hwf Hx (keeps_obj _ _ _ _ x K Hx (in_nil (a:=x))) Hf) as [S1 S2].
  pose proof (keeps_live _ _ _ _ x K Hx) as Lx. unfold live in Lx.
  split; intros o Hr; [apply (inplace_frame h' o x c Hwf' Hr)|apply (inplace_frame h' o c x Hwf' Hr)]; (assumption || lia).
Qed.

Lemma deep_copy_independent h a : wf h -> a < length (objs h) ->
  let h1 := fst (exec h (OCopy true a)) in
  let c := length (objs h) in
  denote h1 c = denote h a /\
  (forall o, inplace_receiver o = Some c -> denote (fst (exec h1 o)) a = denote h a) /\
  (forall o, inplace_receiver o = Some a -> denote (fst (exec h1 o)) c = denote h1 c).
Proof.
  intros Hwf Ha h1 c.
  destruct (fresh_independent h h1 a c Hwf (wf_deep_copy h a Hwf Ha) (exec_keeps h (OCopy true a)) Ha) as [I1 I2].
  - split; [apply le_n|exact (res_live h (OCopy true a) Ha)].
  - exact (exec_fresh h (OCopy true a) (or_introl eq_refl)).
  - split; [apply deep_copy_same_value|]. split; [|exact I1].
    intros o Ho. rewrite (I2 o Ho). exact (frame_may_change h (OCopy true a) a Hwf Ha (in_nil (a:=a))).
Qed.
