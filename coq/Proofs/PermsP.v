(* The loop of MPS.permute_sites (Model/Perms.v): termination within the fuel, the arrangement law new[perm[i]] = old[i], the
   fermionic sign and the number of swaps are all read off one invariant (permute_inv). *)
From TenpyV Require Import Base.Prelude Base.Lists Model.Perms Proofs.AdjSwapsP.
Open Scope Z_scope.

Lemma swap_at_app {A : Type} (l1 : list A) x y l2 i :
  length l1 = i -> swap_at i (l1 ++ x :: y :: l2) = l1 ++ y :: x :: l2.
Proof.
  revert i. induction l1 as [|a l1 IH]; intros i Hlen; cbn [length] in Hlen; subst i; cbn [app swap_at].
  - reflexivity.
  - f_equal. apply IH. reflexivity.
Qed.

Lemma split_two {A : Type} (l : list A) : forall i,
  (Datatypes.S i < length l)%nat -> exists l1 x y l2, l = l1 ++ x :: y :: l2 /\ length l1 = i.
Proof.
  intros i Hi. destruct (app_split i l) as (l1 & r & -> & Hl); [lia|]. rewrite app_length in Hi.
  destruct r as [|x [|y l2]]; cbn [length] in Hi; try lia. exists l1, x, y, l2. split; [reflexivity | exact Hl].
Qed.

Lemma nth_mid1 {A : Type} (l1 : list A) x y t d : nth (Datatypes.S (length l1)) (l1 ++ x :: y :: t) d = y.
Proof.
  rewrite app_nth2 by lia.
  replace (Datatypes.S (length l1) - length l1)%nat with 1%nat by lia. reflexivity.
Qed.

Lemma firstn_mid1 {A : Type} (l1 : list A) x t : firstn (Datatypes.S (length l1)) (l1 ++ x :: t) = l1 ++ [x].
Proof. rewrite <- Nat.add_1_r. exact (firstn_app_2 1 l1 (x :: t)). Qed.

Lemma firstn_mid2 {A : Type} (l1 : list A) x y t :
  firstn (Datatypes.S (Datatypes.S (length l1))) (l1 ++ x :: y :: t) = l1 ++ [x; y].
Proof. replace (Datatypes.S (Datatypes.S (length l1))) with (length l1 + 2)%nat by lia. exact (firstn_app_2 2 l1 (x :: y :: t)). Qed.

Lemma ssorted_snoc (l1 : list Z) a b :
  StronglySorted Z.le (l1 ++ [a]) -> a <= b -> StronglySorted Z.le (l1 ++ [a; b]).
Proof.
  intros Hs Hab. induction l1 as [|c l1 IH]; cbn [app] in *.
  - constructor; [constructor; [constructor|constructor] | constructor; [exact Hab|constructor]].
  - apply StronglySorted_inv in Hs as [Hs Hf]. constructor; [apply IH; exact Hs|].
    apply Forall_app in Hf as [Hf1 Hf2]. apply Forall_app. split; [exact Hf1|].
    inversion Hf2 as [|? ? Hca _]; subst. constructor; [lia|]. constructor; [lia|constructor].
Qed.

Lemma iota_sorted n : forall a, StronglySorted Z.le (map Z.of_nat (seq a n)).
Proof.
  induction n as [|n IH]; intros a; cbn [seq map]; constructor.
  - apply IH.
  - rewrite Forall_forall. intros y Hy. apply in_map_iff in Hy as (m & Hm & Hin).
    apply in_seq in Hin. lia.
Qed.

(* invariant: perm and arrangement have equal length and, zipped, come from the initial zipped list by as many exchanges
   of adjacent out-of-order neighbours (key = perm entry, odd = odd occupation) as the log is long, the sign being their
   parity; the prefix up to p_i is sorted.  variant: 2 * inversions + (L - i): a swap removes one inversion and moves i
   back by at most one. *)
Definition zipped (s : pst) : list (Z * (Z * bool)) := combine (p_perm s) (p_arr s).

Lemma inv_key_eq : inv_key = key_inv fst.
Proof. reflexivity. Qed.

Lemma inv_odd_eq : inv_odd = odd_inv fst (fun x => snd (snd x)).
Proof. reflexivity. Qed.

Definition permute_variant (s : pst) : nat := (2 * ginv inv_key (zipped s) + (length (p_perm s) - p_i s))%nat.

Definition permute_inv (z0 : list (Z * (Z * bool))) (s : pst) : Prop :=
  length (p_arr s) = length (p_perm s) /\
  swaps fst (fun x => snd (snd x)) z0 (zipped s) (length (p_log s)) (p_sign s) /\
  StronglySorted Z.le (firstn (Datatypes.S (p_i s)) (p_perm s)).

Lemma step_inv z0 s s' : permute_inv z0 s -> step s = Some s' ->
  permute_inv z0 s' /\ (permute_variant s' < permute_variant s)%nat.
Proof.
  destruct s as [i p ar lg sg].
  unfold permute_inv, permute_variant, zipped, step. cbn [p_i p_perm p_arr p_log p_sign].
  intros (Hlen & Hsw & Hsort) Hstep.
  destruct (Datatypes.S i <? length p)%nat eqn:Hlt; [|discriminate].
  apply Nat.ltb_lt in Hlt.
  destruct (split_two p i Hlt) as (l1 & a & b & l2 & -> & <-).
  destruct (split_two ar (length l1)) as (m1 & u & v & m2 & -> & Hm1); [lia|].
  assert (Hlen2 : length m2 = length l2) by (rewrite !app_length in Hlen; cbn [length] in Hlen; lia).
  unfold parity_at in Hstep. rewrite nth_middle, nth_mid1, <- Hm1, nth_middle, nth_mid1, Hm1 in Hstep.
  rewrite firstn_mid1 in Hsort.
  rewrite combine_app2 in Hsw by lia. cbn [combine] in Hsw.
  destruct (b <? a) eqn:Hba; injection Hstep as <-; cbn [p_i p_perm p_arr p_log p_sign].
  - (* swap: one more exchange *)
    rewrite (swap_at_app l1 a b l2 _ eq_refl), (swap_at_app m1 u v m2 _ Hm1).
    rewrite !combine_app2 by lia. cbn [combine].
    pose proof (sw_at fst (fun x => snd (snd x)) (combine l1 m1) (a, u) (b, v) (combine l2 m2) ltac:(cbn [fst]; lia)) as H1.
    destruct (swaps_ginv H1) as [Hk _]. repeat split.
    + rewrite !app_length in *. cbn [length] in *. lia.
    + rewrite app_length. exact (sw_trans Hsw H1).
    + destruct l1 as [|c l1]; [repeat constructor|].
      change (Datatypes.S (Nat.pred (length (c :: l1)))) with (length (c :: l1)). rewrite firstn_app_len.
      exact (ss_app_l _ _ _ Hsort).
    + rewrite inv_key_eq, Hk.
      rewrite !app_length. cbn [length]. lia.
  - (* no swap: the sorted prefix grows *)
    rewrite !combine_app2 by lia. cbn [combine]. repeat split; try assumption.
    + rewrite firstn_mid2. apply ssorted_snoc; [exact Hsort|lia].
    + lia.
Qed.

Lemma run_inv z0 fuel : forall s,
  permute_inv z0 s -> (permute_variant s < fuel)%nat -> permute_inv z0 (run fuel s) /\ step (run fuel s) = None.
Proof.
  induction fuel as [|f IH]; intros s Hinv Hm; [lia|].
  cbn [run]. destruct (step s) as [s'|] eqn:Hst.
  - destruct (step_inv z0 s s' Hinv Hst) as [Hinv' Hm']. apply IH; [exact Hinv'|lia].
  - split; assumption.
Qed.

Lemma permute_exit_inv (perm : list Z) (arr : list (Z * bool)) :
  length arr = length perm ->
  permute_inv (combine perm arr) (permute perm arr) /\ step (permute perm arr) = None.
Proof.
  intros Hlen. unfold permute. apply run_inv.
  - unfold permute_inv, zipped, init. cbn [p_i p_perm p_arr p_log p_sign].
    repeat split.
    + exact Hlen.
    + apply sw_refl.
    + destruct perm as [|x t]; cbn [firstn]; constructor; constructor.
  - unfold permute_variant, zipped, init, fuel_for. cbn [p_i p_perm p_arr].
    pose proof (ginv_le_sq inv_key (combine perm arr)) as Hg.
    rewrite combine_length, Hlen, Nat.min_id in Hg. lia.
Qed.

Lemma exit_prefix_all (s : pst) :
  step s = None -> firstn (Datatypes.S (p_i s)) (p_perm s) = p_perm s.
Proof.
  unfold step. intros Hst.
  destruct (Datatypes.S (p_i s) <? length (p_perm s))%nat eqn:Hlt.
  - destruct (nth (Datatypes.S (p_i s)) (p_perm s) 0 <? nth (p_i s) (p_perm s) 0); discriminate.
  - apply Nat.ltb_ge in Hlt. apply firstn_all2. exact Hlt.
Qed.

Lemma permute_terminates_sorts : forall (perm : list Z) (arr : list (Z * bool)),
  length arr = length perm ->
  let r := permute perm arr in
  step r = None /\ StronglySorted Z.le (p_perm r) /\
  length (p_perm r) = length perm /\ length (p_arr r) = length perm /\
  Permutation (combine perm arr) (combine (p_perm r) (p_arr r)).
Proof.
  intros perm arr Hlen. cbv zeta.
  destruct (permute_exit_inv perm arr Hlen) as [(Hl & HP & Hs) Hnone].
  rewrite (exit_prefix_all _ Hnone) in Hs. apply swaps_perm in HP. unfold zipped in HP.
  pose proof (Permutation_length HP) as HL. rewrite !combine_length, Hl, Hlen, !Nat.min_id in HL.
  repeat split; [exact Hnone | exact Hs | symmetry; exact HL | lia | exact HP].
Qed.

Lemma permute_arrangement : forall (perm : list Z) (arr : list (Z * bool)) (d : Z * bool),
  length arr = length perm ->
  Permutation perm (map Z.of_nat (seq 0 (length perm))) ->
  let r := permute perm arr in
  p_perm r = map Z.of_nat (seq 0 (length perm)) /\
  forall i, (i < length perm)%nat -> nth (Z.to_nat (nth i perm 0)) (p_arr r) d = nth i arr d.
Proof.
  intros perm arr d Hlen Hiota. cbv zeta.
  destruct (permute_terminates_sorts perm arr Hlen) as (_ & Hs & HLp & HLa & HP).
  cbv zeta in Hs, HLp, HLa, HP.
  set (r := permute perm arr) in *.
  assert (HPk : Permutation perm (p_perm r)).
  { apply (Permutation_map fst) in HP. rewrite !map_fst_combine in HP by lia. exact HP. }
  assert (Hid : p_perm r = map Z.of_nat (seq 0 (length perm))).
  { apply sorted_perm_eq; [exact Hs | apply iota_sorted |].
    eapply perm_trans; [apply Permutation_sym; exact HPk | exact Hiota]. }
  split; [exact Hid|]. intros i Hi.
  assert (Hin : In (nth i perm 0, nth i arr d) (combine (p_perm r) (p_arr r))).
  { apply (Permutation_in _ HP). rewrite <- combine_nth by lia. apply nth_In. rewrite combine_length. lia. }
  destruct (In_nth _ _ (0, d) Hin) as [n [Hn E]]. rewrite combine_length, HLp, HLa, Nat.min_id in Hn.
  rewrite combine_nth in E by lia. injection E as E1 E2.
  rewrite <- E1, Hid, nth_map_seq, Nat2Z.id by exact Hn. exact E2.
Qed.

Lemma permute_count_sign : forall (perm : list Z) (arr : list (Z * bool)),
  length arr = length perm ->
  length (p_log (permute perm arr)) = ginv inv_key (combine perm arr) /\
  p_sign (permute perm arr) = Nat.odd (ginv inv_odd (combine perm arr)).
Proof.
  intros perm arr Hlen.
  destruct (permute_exit_inv perm arr Hlen) as [(Hl & Hsw & Hs) Hnone].
  rewrite (exit_prefix_all _ Hnone) in Hs. rewrite inv_key_eq, inv_odd_eq.
  apply (swaps_sorted Hsw), ssorted_by_key. unfold zipped. rewrite map_fst_combine by (symmetry; exact Hl). exact Hs.
Qed.
