From TenpyV Require Import Base.Prelude Base.Lists Model.Lattice Model.LatticeMulti Proofs.LatticeP.
Open Scope Z_scope.

Lemma map_nonempty {A B} (f : A -> B) l : l <> [] -> map f l <> [].
Proof. destruct l; [congruence|discriminate]. Qed.

Lemma opt_all_some {A B} (f : A -> option B) : forall l r,
  opt_all (map f l) = Some r <-> Forall2 (fun a b => f a = Some b) l r.
Proof.
  intros l r. split.
  - revert r. induction l as [|a l IH]; intros r H; cbn [map opt_all] in H.
    + inversion H. constructor.
    + destruct (f a) as [b|] eqn:E; [|discriminate].
      destruct (opt_all (map f l)) as [r'|]; [|discriminate]. inversion H. constructor; auto.
  - induction 1 as [|a b l r Hab _ IH]; cbn [map opt_all]; [reflexivity|]. now rewrite Hab, IH.
Qed.

Lemma fold_sel_spec (f : Z -> Z -> Z) (le : Z -> Z -> Prop) :
  (forall a b, (f a b = a \/ f a b = b) /\ le (f a b) a /\ le (f a b) b) ->
  (forall a, le a a) -> (forall a b c, le a b -> le b c -> le a c) ->
  forall t a, In (fold_left f t a) (a :: t) /\ forall x, In x (a :: t) -> le (fold_left f t a) x.
Proof.
  intros Hf Hrefl Htrans. induction t as [|y t IH]; intros a; cbn [fold_left].
  - split; [now left|]. intros x [<-|[]]. apply Hrefl.
  - destruct (IH (f a y)) as (H1 & H2). destruct (Hf a y) as (Hs & Ha & Hy). split.
    + destruct H1 as [H1|H1]; [|right; now right]. rewrite <- H1. destruct Hs as [->| ->]; [now left|right; now left].
    + intros x [<-|[<-|Hx]]; [| |apply H2; now right]; (eapply Htrans; [apply H2; now left|assumption]).
Qed.

Lemma zmin_l_spec l : l <> [] -> In (zmin_l l) l /\ forall x, In x l -> zmin_l l <= x.
Proof. destruct l as [|a t]; [congruence|]. intros _. apply (fold_sel_spec Z.min Z.le); intros; lia. Qed.

Lemma zmax_l_spec l : l <> [] -> In (zmax_l l) l /\ forall x, In x l -> x <= zmax_l l.
Proof. destruct l as [|a t]; [congruence|]. intros _. apply (fold_sel_spec Z.max (fun a b => b <= a)); intros; lia. Qed.

Lemma zmin_map_add l d : l <> [] -> zmin_l (map (fun i => i + d) l) = zmin_l l + d.
Proof.
  destruct l as [|a t]; [congruence|]. intros _. cbn [map zmin_l]. revert a.
  induction t as [|y t IH]; intros a; cbn [map fold_left]; [reflexivity|].
  rewrite Z.add_min_distr_r. apply IH.
Qed.

(* multi_shape read direction by direction instead of through the transposed table of the dx (cols_of, the columns
   dx_col computes, is only the bridge: multi_shape_eq).  D lists the displacement vectors of the operators, one row each;
   its heads are the column of the current direction, its tails the rows for the remaining ones.
   fsh is one entry of the coupling shape, mins_r the `shift` of the code. *)
Definition fsh (L : Z) (o : bool) (c : list Z) : Z := L - (zmax_l c - zmin_l c) * (if o then 1 else 0).

Fixpoint shape_r (Ls : list Z) (os : list bool) (D : list (list Z)) : list Z :=
  match Ls, os with
  | L :: Ls', o :: os' => fsh L o (map (hd 0) D) :: shape_r Ls' os' (map (@tl Z) D)
  | _, _ => []
  end.

Fixpoint mins_r (n : nat) (D : list (list Z)) : list Z :=
  match n with
  | O => []
  | S n' => zmin_l (map (hd 0) D) :: mins_r n' (map (@tl Z) D)
  end.

Definition cols_of (n : nat) (D : list (list Z)) : list (list Z) :=
  map (fun a => map (fun r => nth a r 0) D) (seq 0 n).

Lemma cols_S n D : cols_of (S n) D = map (hd 0) D :: cols_of n (map (@tl Z) D).
Proof.
  unfold cols_of. cbn [seq map]. f_equal.
  - apply map_ext. intros [|x r]; reflexivity.
  - rewrite <- seq_shift, map_map. apply map_ext. intros a. rewrite map_map. apply map_ext.
    intros [|x r]; [destruct a; reflexivity|reflexivity].
Qed.

Lemma shape_r_cols Ls : forall os D,
  zip3 (fun L (o : bool) c => L - (zmax_l c - zmin_l c) * (if o then 1 else 0)) Ls os (cols_of (length Ls) D)
  = shape_r Ls os D.
Proof.
  induction Ls as [|L Ls IH]; intros os D; [reflexivity|]. cbn [length]. rewrite cols_S.
  destruct os as [|o os]; [reflexivity|]. cbn [zip3 shape_r]. unfold fsh at 1. f_equal. apply IH.
Qed.

Lemma mins_r_cols n : forall D, map zmin_l (cols_of n D) = mins_r n D.
Proof.
  induction n as [|n IH]; intros D; [reflexivity|]. rewrite cols_S. cbn [map mins_r]. f_equal. apply IH.
Qed.

Lemma mins_r_length n : forall D, length (mins_r n D) = n.
Proof. induction n as [|n IH]; intros D; cbn [mins_r length]; [reflexivity|]. now rewrite IH. Qed.

Definition col0 (ops : list op) : list Z := map (fun o : op => fst (fst o)) ops.
Definition Drs (ops : list op) : list (list Z) := map (fun o : op => snd (fst o)) ops.

Lemma multi_shape_eq lat ops :
  multi_shape lat ops =
  (fsh (L0 lat) (open0 lat) (col0 ops) :: shape_r (Lr lat) (openr lat) (Drs ops),
   zmin_l (col0 ops) :: mins_r (length (Lr lat)) (Drs ops)).
Proof.
  unfold multi_shape.
  assert (Hc : map (dx_col ops) (seq 0 (S (length (Lr lat)))) = col0 ops :: cols_of (length (Lr lat)) (Drs ops)).
  { cbn [seq map].
    assert (H0 : dx_col ops 0 = col0 ops).
    { unfold dx_col, col0. apply map_ext. intros [[dx0 dxr] u]. reflexivity. }
    rewrite H0. apply f_equal.
    rewrite <- seq_shift, map_map. unfold cols_of. apply map_ext. intros a.
    unfold dx_col, Drs. rewrite map_map. apply map_ext. intros [[dx0 dxr] u]. reflexivity. }
  rewrite Hc. cbn [zip3 map]. rewrite shape_r_cols, mins_r_cols. reflexivity.
Qed.

(* the closure `one` of multi_row: the MPS site of the operator o seen from the corner (c0, cr) *)
Definition one_op (lat : lattice) (m0 : Z) (mr : list Z) (c0 : Z) (cr : list Z) (o : op) : option Z :=
  let '(dx0, dxr, u) := o in
  match target lat c0 cr (dx0 - m0) (zip2 Z.sub dxr mr) with
  | Some (sh0, y0, yr) =>
      match perm_lookup lat (y0, yr, u) with
      | Some j0 => Some (if infinite lat then j0 + (sh0 - y0) * nsites lat / L0 lat else j0)
      | None => None
      end
  | None => None
  end.

Definition norm_ijkl (lat : lattice) (ijkl : list Z) : list Z :=
  if infinite lat then map (fun i => i + (zmin_l ijkl mod nsites lat - zmin_l ijkl)) ijkl else ijkl.

Definition shift_op (m0 : Z) (mr : list Z) (o : op) : op :=
  let '(dx0, dxr, u) := o in (dx0 - m0, zip2 Z.sub dxr mr, u).

Lemma norm_ijkl_fin lat ijkl : infinite lat = false -> norm_ijkl lat ijkl = ijkl.
Proof. intros Hi. unfold norm_ijkl. rewrite Hi. reflexivity. Qed.

Lemma norm_ijkl_inf lat ijkl : infinite lat = true ->
  exists z, norm_ijkl lat ijkl = map (fun i => i + z * nsites lat) ijkl /\
            zmin_l ijkl mod nsites lat = zmin_l ijkl + z * nsites lat.
Proof.
  intros Hi. unfold norm_ijkl. rewrite Hi. exists (- (zmin_l ijkl / nsites lat)).
  replace (zmin_l ijkl mod nsites lat - zmin_l ijkl) with (- (zmin_l ijkl / nsites lat) * nsites lat) by lia.
  split; [reflexivity|lia].
Qed.

Lemma multi_row_eq lat ops m0 mr c0 cr :
  multi_row lat ops (m0 :: mr) (c0 :: cr) =
  match opt_all (map (one_op lat m0 mr c0 cr) ops) with
  | Some ijkl => [(norm_ijkl lat ijkl, c0 :: cr)]
  | None => []
  end.
Proof.
  unfold multi_row, norm_ijkl. fold (one_op lat m0 mr c0 cr).
  destruct (opt_all (map (one_op lat m0 mr c0 cr) ops)); [|reflexivity].
  destruct (infinite lat); reflexivity.
Qed.

Lemma fsh_le L o c : c <> [] -> fsh L o c <= L.
Proof.
  intros Hne. unfold fsh. destruct (zmin_l_spec c Hne) as (_ & Hle). destruct (zmax_l_spec c Hne) as (Hin & _).
  specialize (Hle _ Hin). destruct o; lia.
Qed.

(* one direction of the corner: if in an open direction every operator of the column stays on the lattice, the anchor
   displaced by the least entry (wrapped if periodic) leaves room for the whole column *)
Lemma corner1 L o b col : 0 < L -> col <> [] -> (o = true -> Forall (fun d => 0 <= b + d < L) col) ->
  exists c k, 0 <= c < fsh L o col /\ b + zmin_l col = c + k * L /\ (o = true -> k = 0).
Proof.
  intros HL Hne H. unfold fsh. destruct o.
  - destruct (zmin_l_spec _ Hne) as (Hmin & _). destruct (zmax_l_spec _ Hne) as (Hmax & _).
    specialize (H eq_refl). rewrite Forall_forall in H. pose proof (H _ Hmin). pose proof (H _ Hmax).
    exists (b + zmin_l col), 0. lia.
  - exists ((b + zmin_l col) mod L), ((b + zmin_l col) / L). lia.
Qed.

(* the corner of the box is the cell reached from the anchor cell b by the displacement `shift`; it lies inside the
   coupling shape *)
Lemma corner_exists : forall Ls os ss bs D, D <> [] ->
  Forall (fun ds => exists ys tot, conn_rest Ls os ss bs ds ys tot) D ->
  exists cs T, conn_rest Ls os ss bs (mins_r (length Ls) D) cs T /\ in_box cs (shape_r Ls os D).
Proof.
  unfold in_box. induction Ls as [|L Ls IH]; intros os ss bs D Hne HD.
  - destruct D as [|d1 D1]; [congruence|]. inversion HD as [|? ? (ys1 & tot1 & H1) _]; subst. inversion H1; subst.
    exists [], 0. split; constructor.
  - (* the shapes of os, ss, bs from the first displacement vector *)
    destruct D as [|d1 D1] eqn:ED; [congruence|]. rewrite <- ED in *.
    assert (H1 : exists ys tot, conn_rest (L :: Ls) os ss bs d1 ys tot).
    { rewrite Forall_forall in HD. apply HD. rewrite ED. now left. }
    destruct H1 as (ys1 & tot1 & H1). inversion H1 as [|L' o s b d y k Ls' os' ss' bs' ds' ys' tot' Hy He Ho HC']; subst L' Ls' os ss bs.
    assert (Hheads : o = true -> Forall (fun dd => 0 <= b + dd < L) (map (hd 0) D)).
    { intros ->. rewrite Forall_map. rewrite Forall_forall in *. intros dv Hdv. destruct (HD dv Hdv) as (yv & tv & Hv).
      inversion Hv as [|? ? ? ? ? ? kk ? ? ? ? ? ? ? Hyy Hee Hoo]; subst. cbn [hd]. rewrite (Hoo eq_refl) in Hee. lia. }
    assert (Htails : Forall (fun dv => exists yv tv, conn_rest Ls os' ss' bs' dv yv tv) (map (@tl Z) D)).
    { rewrite Forall_map. rewrite Forall_forall in *. intros dv Hdv. destruct (HD dv Hdv) as (yv & tv & Hv).
      inversion Hv; subst. cbn [tl]. eauto. }
    destruct (IH os' ss' bs' _ (map_nonempty (@tl Z) D Hne) Htails) as (cs & T & HCs & HBs).
    pose proof (map_nonempty (hd 0) D Hne) as Hne1. pose proof (fsh_le L o _ Hne1) as Hle.
    destruct (corner1 L o b _ ltac:(lia) Hne1 Hheads) as (c & kc & Hc & Hec & Hoc).
    cbn [length mins_r shape_r]. exists (c :: cs), (kc * s + T). split; constructor; auto. lia.
Qed.

Lemma box_nonzero c shp : in_box c shp -> existsb (fun s => s =? 0) shp = false.
Proof. unfold in_box. induction 1 as [|x L c shp Hx _ IH]; cbn [existsb]; [reflexivity|]. rewrite IH. lia. Qed.

(* each multi-coupling once: the row determines the corner.  In an open direction there is no winding, in a periodic
   one the coupling shape is the whole length *)
Lemma conn_rest_inj Ls os ss xs ds ys tot : conn_rest Ls os ss xs ds ys tot ->
  forall D xs' tot', conn_rest Ls os ss xs' ds ys tot' ->
  in_box xs (shape_r Ls os D) -> in_box xs' (shape_r Ls os D) -> xs = xs' /\ tot = tot'.
Proof.
  unfold in_box. induction 1 as [|L o s x d y k Ls os ss xs ds ys tot Hy He Ho HC IH]; intros D xs2 tot2 H2 B1 B2.
  - inversion H2. split; reflexivity.
  - inversion H2 as [|L' o' s' x' d' y' k' Ls' os' ss' xs' ds' ys' tot' Hy' He' Ho' HC']; subst.
    cbn [shape_r] in B1, B2. inversion B1 as [|? ? ? ? Hx B1']; subst. inversion B2 as [|? ? ? ? Hx' B2']; subst.
    assert (k = k').
    { destruct o; [rewrite Ho, Ho' by reflexivity; reflexivity|]. unfold fsh in Hx, Hx'. nia. }
    subst k'. assert (x = x') by lia. subst x'.
    destruct (IH _ _ _ HC' B1' B2') as (-> & ->). split; reflexivity.
Qed.

Section Multi.
Variable lat : lattice.
Hypothesis Hwf : wf lat.

Let N := nsites lat.

Lemma one_op_iff m0 mr c0 cr dx0 dxr u i : 0 <= u < Lu lat ->
  (one_op lat m0 mr c0 cr (dx0, dxr, u) = Some i <-> op_at lat c0 cr (shift_op m0 mr (dx0, dxr, u)) i).
Proof.
  intros Hu. cbn [one_op shift_op]. rewrite (op_at_spec lat Hwf). split.
  - destruct (target lat c0 cr (dx0 - m0) (zip2 Z.sub dxr mr)) as [[[sh0 y0] yr]|] eqn:Et; [|discriminate].
    destruct (perm_lookup lat (y0, yr, u)) as [j0|] eqn:El; [|discriminate]. intros H. inversion H as [Hi']. clear H.
    destruct (reach_inv lat Hwf _ _ _ _ _ _ _ _ _ Hu Et El) as (n & tot & q & -> & Hn & HC & He & Ho & Hq).
    exists n, tot, q, y0, yr. split; [exact Hn|]. split; [exact HC|]. split; [exact He|]. split; [exact Ho|].
    destruct (infinite lat); [|lia]. rewrite Hq, div_cells by apply (wf_L0 lat Hwf). reflexivity.
  - intros (n & tot & q & y0 & yr & Hn & HC & Hq & Ho & ->).
    destruct (reach_at lat Hwf _ _ _ _ _ _ _ _ _ _ Hn HC Hq Ho) as (-> & ->).
    f_equal. destruct (infinite lat); [|lia]. rewrite Hq, div_cells by apply (wf_L0 lat Hwf). reflexivity.
Qed.

Lemma one_ops_iff m0 mr c0 cr (ops : list op) :
  Forall (fun o : op => length (snd (fst o)) = length (Lr lat) /\ 0 <= snd o < Lu lat) ops -> forall ijkl,
  opt_all (map (one_op lat m0 mr c0 cr) ops) = Some ijkl <->
  Forall2 (fun o i => op_at lat c0 cr (shift_op m0 mr o) i) ops ijkl.
Proof.
  intros HW ijkl. rewrite opt_all_some. revert ijkl.
  induction HW as [|[[dx0 dxr] u] l (_ & Hu) HF IH]; intros ijkl.
  - split; intros H; inversion H; constructor.
  - cbn [snd] in Hu. split; intros H; inversion H as [|o i l' r Hoi Hr]; subst; constructor.
    + now apply one_op_iff.
    + now apply IH.
    + now apply one_op_iff.
    + now apply IH.
Qed.

(* moving the anchor: from the corner c of the box back to the cell c - shift (soundness), by whole MPS unit cells (the
   representative), and from an arbitrary anchor cell b to a corner reached from it by shift (completeness) *)
Lemma ops_unshift m0 mr c0 cr (l : list op) : length mr = length (Lr lat) ->
  Forall (fun o : op => length (snd (fst o)) = length (Lr lat) /\ 0 <= snd o < Lu lat) l -> forall ijkl,
  Forall2 (fun o i => op_at lat c0 cr (shift_op m0 mr o) i) l ijkl ->
  Forall2 (op_at lat (c0 - m0) (zip2 Z.sub cr mr)) l ijkl.
Proof.
  intros Hmr. induction 1 as [|[[dx0 dxr] u] l (Hl & _) HF IH]; intros ijkl H; inversion H as [|o i l' r Hoi Hr]; subst;
    constructor; [|now apply IH].
  cbn [fst snd] in Hl. destruct Hoi as (y0 & yr & Hm & (tot & k0 & HC & He & Hk0)).
  exists y0, yr. split; [exact Hm|]. exists tot, k0. split; [|split; [lia|exact Hk0]].
  now apply (conn_rest_unshift _ _ _ _ _ _ _ HC).
Qed.

Lemma ops_translate : infinite lat = true -> forall b0 br z (l : list op) ijkl,
  Forall2 (op_at lat b0 br) l ijkl ->
  Forall2 (op_at lat (b0 + z * L0 lat) br) l (map (fun i => i + z * N) ijkl).
Proof.
  intros Hi b0 br z l ijkl H. induction H as [|o i l r Hoi Hr IH]; cbn [map]; constructor; [|exact IH].
  now apply op_at_translate.
Qed.

Lemma ops_compose b0 br m0 mr c0 cr T t0 (l : list op) :
  conn_rest (Lr lat) (openr lat) (shiftr lat) br mr cr T ->
  b0 + m0 - T = c0 + t0 * L0 lat -> (open0 lat = true -> t0 = 0) -> forall ijkl,
  Forall2 (op_at lat b0 br) l ijkl ->
  Forall2 (fun o i => op_at lat c0 cr (shift_op m0 mr o) i)
          l (map (fun i => i + (if infinite lat then (- t0) * N else 0)) ijkl).
Proof.
  intros HCc Hc0 Ht0 ijkl H. induction H as [|[[dx0 dxr] u] i l r Hoi Hr IH]; cbn [map]; constructor; [|exact IH].
  apply (op_at_spec lat Hwf) in Hoi. destruct Hoi as (n & tot & q & y0 & yr & Hn & HC & He & Ho & ->).
  apply (op_at_spec lat Hwf). exists n, (tot - T), (q - t0), y0, yr.
  split; [exact Hn|]. split; [exact (conn_rest_compose _ _ _ _ _ _ _ HCc _ _ _ HC)|]. split; [lia|].
  split; [intros Ho'; rewrite (Ho Ho'), (Ht0 Ho'); reflexivity|]. fold N. destruct (infinite lat); lia.
Qed.

(* x_0 open and no bc_shift: every operator sits inside the lattice *)
Lemma col0_open b0 br (l : list op) ijkl : open0 lat = true -> Forall (fun s => s = 0) (shiftr lat) ->
  Forall2 (op_at lat b0 br) l ijkl -> Forall (fun d => 0 <= b0 + d < L0 lat) (col0 l).
Proof.
  intros Ho Hs HF. unfold col0. rewrite Forall_map. induction HF as [|[[dx0 dxr] u] i l r Hoi _ IH]; constructor; [|exact IH].
  apply (op_at_spec lat Hwf) in Hoi. destruct Hoi as (n & tot & q & y0 & yr & Hn & HC & He & Hq & _). cbn [fst].
  rewrite (conn_rest_noshift _ _ _ _ _ _ _ HC Hs), (Hq Ho) in He. destruct (nth_in_box lat Hwf _ _ Hn) as (Hy & _). lia.
Qed.

Variable ops : list op.
Hypothesis Hops : ops_wf lat ops.

Let shape := fst (multi_shape lat ops).
Let m0 := zmin_l (col0 ops).
Let mr := mins_r (length (Lr lat)) (Drs ops).

Lemma mr_length : length mr = length (Lr lat).
Proof. apply mins_r_length. Qed.

Lemma multi_shape_fst : shape = fsh (L0 lat) (open0 lat) (col0 ops) :: shape_r (Lr lat) (openr lat) (Drs ops).
Proof. unfold shape. now rewrite multi_shape_eq. Qed.

Lemma multi_ijkl_eq : multi_ijkl lat ops =
  if existsb (fun s => s =? 0) shape then []
  else flat_map (fun c => map fst (multi_row lat ops (m0 :: mr) c)) (cstyle shape).
Proof.
  unfold multi_ijkl, possible_multi_couplings, shape. rewrite multi_shape_eq. cbn [fst].
  destruct (existsb _ _); [reflexivity|apply map_flat_map].
Qed.

Lemma multi_row_in c0 cr r :
  In r (map fst (multi_row lat ops (m0 :: mr) (c0 :: cr))) <->
  exists ijkl, Forall2 (fun o i => op_at lat c0 cr (shift_op m0 mr o) i) ops ijkl /\ r = norm_ijkl lat ijkl.
Proof.
  rewrite multi_row_eq. split.
  - destruct (opt_all (map (one_op lat m0 mr c0 cr) ops)) as [l|] eqn:Eo; [|intros []].
    intros [<-|[]]. exists l. split; [|reflexivity]. now apply (one_ops_iff _ _ _ _ _ (proj2 Hops)).
  - intros (ijkl & HF & ->). apply (one_ops_iff _ _ _ _ _ (proj2 Hops)) in HF. rewrite HF. now left.
Qed.

Lemma multi_in r :
  In r (multi_ijkl lat ops) <->
  existsb (fun s => s =? 0) shape = false /\
  exists c0 cr ijkl, in_box (c0 :: cr) shape /\
    Forall2 (fun o i => op_at lat c0 cr (shift_op m0 mr o) i) ops ijkl /\ r = norm_ijkl lat ijkl.
Proof.
  rewrite multi_ijkl_eq. destruct (existsb (fun s => s =? 0) shape).
  - split; [intros []|intros (H & _); discriminate].
  - rewrite in_flat_map. split.
    + intros (c & Hc & Hr). apply cstyle_in in Hc. destruct c as [|c0 cr]; [inversion Hc|].
      apply multi_row_in in Hr. destruct Hr as (ijkl & HF & ->). split; [reflexivity|]. exists c0, cr, ijkl. auto.
    + intros (_ & c0 & cr & ijkl & Hbox & HF & ->). exists (c0 :: cr). split; [now apply cstyle_in|].
      apply multi_row_in. eauto.
Qed.

Lemma sites_nonempty {P : op -> Z -> Prop} ijkl : Forall2 P ops ijkl -> ijkl <> [].
Proof. destruct Hops as (Hne & _). intros H. inversion H; subst; congruence. Qed.

Lemma multi_sound r : In r (multi_ijkl lat ops) -> multi_coupled lat ops r.
Proof.
  intros Hin. apply multi_in in Hin.
  destruct Hin as (_ & c0 & cr & ijkl & Hbox & HF & ->).
  pose proof (ops_unshift m0 mr c0 cr ops mr_length (proj2 Hops) ijkl HF) as HF2.
  pose proof (sites_nonempty _ HF2) as Hne.
  destruct (infinite lat) eqn:Hi.
  - destruct (norm_ijkl_inf lat ijkl Hi) as (z & -> & Hz).
    exists (c0 - m0 + z * L0 lat), (zip2 Z.sub cr mr). split.
    + now apply ops_translate.
    + intros _. rewrite zmin_map_add by exact Hne. rewrite <- Hz. apply Z.mod_pos_bound, (inf_nsites_pos lat Hwf Hi).
  - rewrite (norm_ijkl_fin lat _ Hi). exists (c0 - m0), (zip2 Z.sub cr mr). split; [exact HF2|intros Hc; congruence].
Qed.

Lemma multi_complete r : (open0 lat = true -> Forall (fun s => s = 0) (shiftr lat)) ->
  multi_coupled lat ops r -> In r (multi_ijkl lat ops).
Proof.
  intros Hsh (b0 & br & HF & Hmin). apply multi_in.
  destruct Hops as (Hne & HW).
  pose proof (wf_L0 lat Hwf) as HL.
  (* the corner: b displaced by the shift, wrapped along x_0 if periodic *)
  assert (Hconn : Forall (fun ds => exists ys tot, conn_rest (Lr lat) (openr lat) (shiftr lat) br ds ys tot) (Drs ops)).
  { unfold Drs. rewrite Forall_map. clear - HF. induction HF as [|[[dx0 dxr] u] i l r' Hoi _ IH]; constructor; [|exact IH].
    destruct Hoi as (y0 & yr & _ & (tot & k0 & HC & _)). cbn [fst snd]. eauto. }
  destruct (corner_exists _ _ _ _ _ (map_nonempty _ ops Hne) Hconn) as (cr & T & HCc & Hboxr). fold mr in HCc.
  destruct (corner1 (L0 lat) (open0 lat) (b0 - T) (col0 ops) HL (map_nonempty _ ops Hne)) as (c0 & t0 & Hbox0 & Hc0 & Ht0).
  { intros Ho. rewrite (conn_rest_noshift _ _ _ _ _ _ _ HCc (Hsh Ho)), Z.sub_0_r. exact (col0_open b0 br ops r Ho (Hsh Ho) HF). }
  fold m0 in Hc0.
  pose proof (ops_compose b0 br m0 mr c0 cr T t0 ops HCc ltac:(lia) Ht0 r HF) as HF2.
  assert (Hbox : in_box (c0 :: cr) shape).
  { rewrite multi_shape_fst. constructor; [exact Hbox0|exact Hboxr]. }
  split; [eapply box_nonzero; exact Hbox|].
  exists c0, cr, (map (fun i => i + (if infinite lat then - t0 * N else 0)) r). split; [exact Hbox|]. split; [exact HF2|].
  pose proof (sites_nonempty _ HF) as Hner.
  destruct (infinite lat) eqn:Hi.
  - unfold norm_ijkl. rewrite Hi. specialize (Hmin eq_refl). fold N in Hmin. fold N.
    rewrite zmin_map_add by exact Hner. rewrite map_map.
    rewrite Z.mod_add by lia. rewrite (Z.mod_small _ _ Hmin).
    rewrite <- (map_id r) at 1. apply map_ext. intros i. lia.
  - rewrite (norm_ijkl_fin lat _ Hi). rewrite <- (map_id r) at 1. apply map_ext. intros i. lia.
Qed.

Lemma corner_unique c0 cr c0' cr' r : in_box (c0 :: cr) shape -> in_box (c0' :: cr') shape ->
  In r (map fst (multi_row lat ops (m0 :: mr) (c0 :: cr))) ->
  In r (map fst (multi_row lat ops (m0 :: mr) (c0' :: cr'))) -> c0 :: cr = c0' :: cr'.
Proof.
  intros HB HB' Hr Hr'. apply multi_row_in in Hr. apply multi_row_in in Hr'.
  destruct Hr as (ijkl & HF & Hn). destruct Hr' as (ijkl' & HF' & Hn').
  destruct Hops as (Hne & HW). pose proof (wf_L0 lat Hwf) as HL.
  rewrite multi_shape_fst in HB, HB'.
  inversion HB as [|? ? ? ? Hc0 HBr]; subst. inversion HB' as [|? ? ? ? Hc0' HBr']; subst.
  assert (Hne0 : col0 ops <> []) by now apply map_nonempty.
  pose proof (fsh_le (L0 lat) (open0 lat) _ Hne0) as Hfle.
  destruct ops as [|[[dx0 dxr] u] ops']; [congruence|].
  inversion HF as [|? i1 ? l Hoi _]; subst. inversion HF' as [|? i1' ? l' Hoi' _]; subst.
  destruct Hoi as (y0 & yr & Hm & (tot & k0 & HC & He & Hk0)).
  destruct Hoi' as (y0' & yr' & Hm' & (tot' & k0' & HC' & He' & Hk0')).
  (* the first site of both rows is the same up to a translation by whole MPS unit cells *)
  assert (Hy : exists w, y0' = y0 + w * L0 lat /\ yr' = yr).
  { destruct (infinite lat) eqn:Hi.
    - destruct (norm_ijkl_inf lat (i1 :: l) Hi) as (z & Ez & _).
      destruct (norm_ijkl_inf lat (i1' :: l') Hi) as (z' & Ez' & _).
      rewrite Ez, Ez' in Hn'. cbn [map] in Hn'. inversion Hn' as [[Hh Ht]].
      exists (z - z'). assert (Hi1 : i1' = i1 + (z - z') * nsites lat) by lia.
      pose proof (mps2lat_translate lat Hi _ _ _ _ (z - z') Hm) as Hm2.
      rewrite <- Hi1 in Hm2. rewrite Hm2 in Hm'. inversion Hm'. split; reflexivity.
    - rewrite !(norm_ijkl_fin lat _ Hi) in Hn'. inversion Hn'. subst. rewrite Hm in Hm'. inversion Hm'.
      exists 0. split; [lia|reflexivity]. }
  destruct Hy as (w & -> & ->).
  destruct (conn_rest_inj _ _ _ _ _ _ _ HC _ _ _ HC' HBr HBr') as (-> & ->).
  f_equal. assert (Hd : c0 - c0' = (k0 - k0' - w) * L0 lat) by (clear - He He'; lia).
  assert (Hb : 0 <= c0 < L0 lat /\ 0 <= c0' < L0 lat) by (clear - Hc0 Hc0' Hfle; lia).
  assert (HK : k0 - k0' - w = 0) by (apply (small_multiple _ (L0 lat)); lia).
  rewrite HK in Hd. lia.
Qed.

Lemma multi_nodup : NoDup (multi_ijkl lat ops).
Proof.
  rewrite multi_ijkl_eq. destruct (existsb (fun s => s =? 0) shape); [constructor|].
  apply nodup_flat_map_inj.
  - intros c Hc. apply cstyle_in in Hc. destruct c as [|c0 cr]; [inversion Hc|].
    rewrite multi_row_eq. destruct (opt_all (map (one_op lat m0 mr c0 cr) ops)); cbn [map]; repeat constructor.
    intros [].
  - intros c c' r Hc Hc' Hr Hr'. apply cstyle_in in Hc. apply cstyle_in in Hc'.
    destruct c as [|c0 cr]; [inversion Hc|]. destruct c' as [|c0' cr']; [inversion Hc'|].
    now apply (corner_unique c0 cr c0' cr' r).
  - apply cstyle_nodup.
Qed.

Lemma multi_couplings_exact :
  (open0 lat = true -> Forall (fun s => s = 0) (shiftr lat)) ->
  NoDup (multi_ijkl lat ops) /\
  forall ijkl, In ijkl (multi_ijkl lat ops) <-> multi_coupled lat ops ijkl.
Proof.
  intros Hsh. split; [apply multi_nodup|]. intros r. split.
  - now apply multi_sound.
  - now apply multi_complete.
Qed.

End Multi.
