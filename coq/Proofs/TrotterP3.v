(* Property C14, a run split into several run() calls: from `powers` and the congruence of merge, by induction on the
   list of calls. *)
From TenpyV Require Import Base.Prelude Base.PyLib Gen.G_trotter.
From TenpyV Require Import Model.Trotter Model.TrotterMerge Model.TrotterMergeCheck Proofs.TrotterP Proofs.TrotterP2.
Open Scope Z_scope.

Lemma run_sched_rep o ds s1 : powers o ds s1 -> forall ns, Forall (fun n => 0 <= n) ns ->
  exists r, run_sched o ds ns = Some r /\
    sched_eq (merge r) (merge (repeat_nat (timed ds s1) (Z.to_nat (sumZ ns)))).
Proof.
  intros HP. induction 1 as [|n ns Hn Hns IH]; cbn [run_sched sumZ].
  - exists []. split; [reflexivity|apply sched_eq_refl].
  - destruct IH as (r & Er & Hr). destruct (HP n Hn) as (s & Es & Hs).
    rewrite Es, Er. eexists. split; [reflexivity|].
    assert (Hsum := sumZ_nonneg ns Hns).
    replace (Z.to_nat (n + sumZ ns)) with (Z.to_nat n + Z.to_nat (sumZ ns))%nat by lia.
    rewrite repeat_nat_add. apply merge_congruence; assumption.
Qed.

Lemma trotter_merge_splits o : In o orders -> forall ns, Forall (fun n => 0 <= n) ns ->
  exists ds steps runs,
    time_steps_gen o = Some ds /\ decomposition_gen o (sumZ ns) = Some steps /\
    run_sched o ds ns = Some runs /\
    sched_eqb (merge runs) (merge (timed ds steps)) = true.
Proof.
  intros Ho ns H. destruct (powers_all o Ho) as (ds & s1 & Hds & _ & HP).
  destruct (run_sched_rep o ds s1 HP ns H) as (r & Er & Hr).
  destruct (HP (sumZ ns) (sumZ_nonneg ns H)) as (s & Es & Hs).
  exists ds, s, r. split; [exact Hds|]. split; [exact Es|]. split; [exact Er|].
  apply sched_eqb_spec. apply (sched_eq_trans _ _ Hr). apply sched_eq_sym. exact Hs.
Qed.
