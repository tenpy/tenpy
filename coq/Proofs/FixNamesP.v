From TenpyV Require Import Base.Prelude Model.FixNames.
Local Open Scope nat_scope.

Lemma first_free_spec ex : forall fuel i,
  match first_free ex i fuel with
  | Some j => i <= j < i + fuel /\ ex j = false /\ (forall k, i <= k < j -> ex k = true)
  | None => forall k, i <= k < i + fuel -> ex k = true
  end.
Proof.
  induction fuel as [|f IH]; intros i; cbn [first_free].
  - intros k Hk. lia.
  - destruct (ex i) eqn:E.
    + specialize (IH (S i)). destruct (first_free ex (S i) f) as [j|].
      * destruct IH as (A & B & C). split; [lia|]. split; [exact B|].
        intros k Hk. destruct (Nat.eq_dec k i) as [->|Hne]; [exact E|apply C; lia].
      * intros k Hk. destruct (Nat.eq_dec k i) as [->|Hne]; [exact E|apply IH; lia].
    + split; [lia|]. split; [exact E|]. intros k Hk. lia.
Qed.

Lemma fix_name_fresh ex skip :
  match fix_name ex skip false false with
  | FName i => ex i = false /\ i <= 99 /\ (forall k, k < i -> ex k = true)
  | FRaise => skip = false /\ forall k, k <= 99 -> ex k = true
  | FSkip => skip = true /\ ex 0 = true
  end.
Proof.
  unfold fix_name. destruct (ex 0) eqn:E0.
  - destruct skip; [split; reflexivity|]. cbn [negb andb].
    pose proof (first_free_spec ex 99 1) as H. destruct (first_free ex 1 99) as [j|].
    + destruct H as (A & B & C). split; [exact B|]. split; [lia|].
      intros k Hk. destruct k; [exact E0|apply C; lia].
    + split; [reflexivity|]. intros k Hk. destruct k; [exact E0|apply H; lia].
  - split; [exact E0|]. split; [lia|]. intros k Hk. lia.
Qed.

(* resumed or overwriting runs keep the configured name (the safe-write protocol of save_results protects the old file) *)
Lemma fix_name_keep ex ov ld : (ov || ld)%bool = true -> fix_name ex false ov ld = FName 0.
Proof. unfold fix_name. destruct (ex 0), ov, ld; cbn; intros; try reflexivity; discriminate. Qed.
