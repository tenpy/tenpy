(* Model/Cache.v (property C20): DictCache over any storage meeting the contract simulates a plain dictionary; `Rel` is
   the simulation relation, preserved by every operation. *)
From TenpyV Require Import Base.Prelude Base.Lists Model.Cache.
Open Scope Z_scope.

Lemma d_get_set k k' v d : d_get k' (d_set k v d) = if k' =? k then Some v else d_get k' d.
Proof.
  induction d as [|[k2 v2] t IH]; cbn [d_set d_get]; [reflexivity|].
  destruct (k <? k2); cbn [d_get]; [reflexivity|].
  destruct (k =? k2) eqn:E2; cbn [d_get].
  - destruct (k' =? k) eqn:E; [reflexivity|]. replace k2 with k by lia. rewrite E. reflexivity.
  - rewrite IH. destruct (k' =? k2) eqn:E3; [|reflexivity]. destruct (k' =? k) eqn:E; [lia|reflexivity].
Qed.

Lemma d_get_set_eq k v d : d_get k (d_set k v d) = Some v.
Proof. rewrite d_get_set, Z.eqb_refl. reflexivity. Qed.

Lemma d_get_set_neq k k' v d : k' <> k -> d_get k' (d_set k v d) = d_get k' d.
Proof. intros H. rewrite d_get_set. destruct (k' =? k) eqn:E; [lia|reflexivity]. Qed.

Lemma d_get_filter (f : Z -> bool) k d :
  d_get k (filter (fun p => f (fst p)) d) = if f k then d_get k d else None.
Proof.
  induction d as [|[k' v'] t IH]; cbn [filter d_get fst].
  - destruct (f k); reflexivity.
  - destruct (f k') eqn:E1; cbn [d_get].
    + destruct (k =? k') eqn:E2.
      * replace k with k' by lia. rewrite E1. reflexivity.
      * exact IH.
    + rewrite IH. destruct (f k) eqn:E3; [|reflexivity].
      destruct (k =? k') eqn:E2; [|reflexivity].
      replace k with k' in E3 by lia. congruence.
Qed.

Lemma d_get_del k k' d : d_get k' (d_del k d) = if k' =? k then None else d_get k' d.
Proof.
  unfold d_del. pose proof (d_get_filter (fun x => negb (x =? k)) k' d) as H. cbn beta in H.
  rewrite H. destruct (k' =? k); reflexivity.
Qed.

Lemma d_get_del_neq k k' d : k' <> k -> d_get k' (d_del k d) = d_get k' d.
Proof. intros H. rewrite d_get_del. destruct (k' =? k) eqn:E; [lia|reflexivity]. Qed.

Variant d_has_spec k d : bool -> Prop :=
| DHasSome v : d_get k d = Some v -> d_has_spec k d true
| DHasNone : d_get k d = None -> d_has_spec k d false.

Lemma d_hasP k d : d_has_spec k d (d_has k d).
Proof. unfold d_has. destruct (d_get k d) as [v|] eqn:E; econstructor; exact E. Qed.

Lemma d_get_has k d v : d_get k d = Some v -> d_has k d = true.
Proof. intros E. destruct (d_hasP k d); congruence. Qed.

Lemma d_has_ext k d d' : d_get k d = d_get k d' -> d_has k d = d_has k d'.
Proof. unfold d_has. intros ->. reflexivity. Qed.

Lemma d_has_set k k' v d : d_has k' (d_set k v d) = (k' =? k) || d_has k' d.
Proof. unfold d_has. rewrite d_get_set. destruct (k' =? k); reflexivity. Qed.

Lemma d_has_del k k' d : d_has k' (d_del k d) = negb (k' =? k) && d_has k' d.
Proof. unfold d_has. rewrite d_get_del. destruct (k' =? k); reflexivity. Qed.

Lemma map_fst_d_set k v d : map fst (d_set k v d) = ks_add k (map fst d).
Proof.
  induction d as [|[k' v'] t IH]; cbn [d_set map fst ks_add]; [reflexivity|].
  destruct (k <? k'); cbn [map fst]; [reflexivity|].
  destruct (k =? k') eqn:E2; cbn [map fst]; [f_equal; lia|].
  f_equal. exact IH.
Qed.

Lemma map_fst_d_del k d : map fst (d_del k d) = ks_del k (map fst d).
Proof.
  unfold d_del, ks_del. induction d as [|[k' v'] t IH]; cbn [filter map fst]; [reflexivity|].
  destruct (negb (k' =? k)); cbn [map fst]; [f_equal|]; exact IH.
Qed.

Lemma ks_mem_map_fst k d : ks_mem k (map fst d) = d_has k d.
Proof.
  unfold ks_mem, d_has. induction d as [|[k' v'] t IH]; cbn [map fst existsb d_get]; [reflexivity|].
  rewrite (Z.eqb_sym k' k). destruct (k =? k'); cbn [orb]; [reflexivity|exact IH].
Qed.

Lemma ks_mem_add k k' s : ks_mem k (ks_add k' s) = (k' =? k) || ks_mem k s.
Proof.
  unfold ks_mem. induction s as [|x t IH]; cbn [ks_add existsb]; [reflexivity|].
  destruct (k' <? x) eqn:E1; cbn [existsb]; [reflexivity|].
  destruct (k' =? x) eqn:E2; cbn [existsb].
  - destruct (x =? k) eqn:E3, (k' =? k) eqn:E4; cbn [orb]; try reflexivity; lia.
  - rewrite IH. destruct (x =? k), (k' =? k); reflexivity.
Qed.

Lemma ks_mem_del k k' s : ks_mem k' (ks_del k s) = negb (k' =? k) && ks_mem k' s.
Proof.
  unfold ks_mem, ks_del. induction s as [|x t IH]; cbn [filter existsb]; [rewrite andb_false_r; reflexivity|].
  destruct (x =? k) eqn:E1; cbn [negb existsb]; rewrite IH;
    destruct (x =? k') eqn:E2, (k' =? k) eqn:E3; cbn [negb andb orb]; try reflexivity; lia.
Qed.

Lemma ks_mem_fold k ks : forall s, ks_mem k s = true ->
  ks_mem k (fold_left (fun a x => ks_add x a) ks s) = true.
Proof.
  induction ks as [|x t IH]; intros s H; cbn [fold_left]; [exact H|].
  apply IH. rewrite ks_mem_add, H. apply orb_true_r.
Qed.

Lemma d_del_absent k d : d_get k d = None -> d_del k d = d.
Proof.
  unfold d_del. induction d as [|[k' v'] t IH]; cbn [d_get filter fst]; [reflexivity|].
  rewrite (Z.eqb_sym k' k). destruct (k =? k'); [discriminate|]. intros H. cbn [negb]. f_equal. exact (IH H).
Qed.

(* the two short-term clauses of `Rel` survive a write-through of k *)
Lemma stc_update k v stc stk d d' :
  (forall k' v', d_get k' stc = Some v' -> d_get k' d = Some v') ->
  (forall k' v', d_get k' stc = Some v' -> ks_mem k' stk = true) ->
  d_get k d' = Some v -> (forall k', k' <> k -> d_get k' d' = d_get k' d) ->
  (forall k' v', d_get k' (if ks_mem k stk then d_set k v stc else stc) = Some v' -> d_get k' d' = Some v') /\
  (forall k' v', d_get k' (if ks_mem k stk then d_set k v stc else stc) = Some v' -> ks_mem k' stk = true).
Proof.
  intros Hsub Hkeys Hk Hoff. destruct (ks_mem k stk) eqn:E.
  - split; intros k' v' H; (destruct (Z.eq_dec k' k) as [->|Hne]; [|rewrite d_get_set_neq in H by exact Hne]).
    + rewrite d_get_set_eq in H. congruence.
    + rewrite Hoff by exact Hne. exact (Hsub _ _ H).
    + exact E.
    + exact (Hkeys _ _ H).
  - split; [|exact Hkeys]. intros k' v' H. destruct (Z.eq_dec k' k) as [->|Hne].
    + rewrite (Hkeys k v' H) in E. discriminate.
    + rewrite Hoff by exact Hne. exact (Hsub _ _ H).
Qed.

Lemma storage_ok_proj {St} (o : storage_ops St) (proj : St -> list (Z * Z)) abs (inv : St -> Prop) :
  (forall s k, inv s -> abs s k = d_get k (proj s)) ->
  (forall s k, inv s -> d_has k (proj s) = true ->
     inv (fst (s_load o s k)) /\ proj (fst (s_load o s k)) = proj s /\ snd (s_load o s k) = d_get k (proj s)) ->
  (forall s k v, inv s -> inv (s_save o s k v) /\ proj (s_save o s k v) = d_set k v (proj s)) ->
  (forall s k, inv s -> d_has k (proj s) = true -> inv (s_delete o s k) /\ proj (s_delete o s k) = d_del k (proj s)) ->
  (forall s k, inv s -> d_has k (proj s) = true -> inv (s_preload o s k) /\ proj (s_preload o s k) = proj s) ->
  storage_ok o abs inv.
Proof.
  intros Habs Hl Hs Hd Hp.
  assert (Hin : forall s k, inv s -> abs s k <> None -> d_has k (proj s) = true).
  { intros s k Hi H. rewrite Habs in H by exact Hi. destruct (d_hasP k (proj s)); congruence. }
  split; [|split; [|split]].
  - intros s k v Hi H. destruct (Hl s k Hi) as (L1 & L2 & L3); [apply Hin; congruence|].
    rewrite L3, <- (Habs s k Hi). split; [exact H|].
    split; [exact L1|]. intros k'. rewrite !Habs, L2 by assumption. reflexivity.
  - intros s k v Hi. destruct (Hs s k v Hi) as (S1 & S2). split; [exact S1|]. rewrite !Habs, S2 by assumption.
    split; [apply d_get_set_eq|]. intros k' Hne. rewrite !Habs, S2 by assumption. apply d_get_set_neq. exact Hne.
  - intros s k Hi H. destruct (Hd s k Hi (Hin s k Hi H)) as (D1 & D2). split; [exact D1|].
    intros k' Hne. rewrite !Habs, D2 by assumption. apply d_get_del_neq. exact Hne.
  - intros s k Hi H. destruct (Hp s k Hi (Hin s k Hi H)) as (P1 & P2). split; [exact P1|].
    intros k'. rewrite !Habs, P2 by assumption. reflexivity.
Qed.

Lemma dict_storage_ok : storage_ok dict_storage (fun s k => d_get k s) (fun _ => True).
Proof. apply (storage_ok_proj dict_storage (fun s => s)); cbn; auto. Qed.

Section Refine.
  Context {St : Type} (o : storage_ops St) (abs : St -> Z -> option Z) (inv : St -> Prop).
  Hypothesis Hok : storage_ok o abs inv.

  (* The third clause goes one way only: the contract says nothing about the deleted key itself (a storage that never
     deletes meets it), and DictCache asks long_term_keys before it loads *)
  Definition Rel (c : cache St) (d : list (Z * Z)) : Prop :=
    c_ltk c = map fst d /\
    inv (c_store c) /\
    (forall k v, d_get k d = Some v -> abs (c_store c) k = Some v) /\
    (forall k v, d_get k (c_stc c) = Some v -> d_get k d = Some v) /\
    (forall k v, d_get k (c_stc c) = Some v -> ks_mem k (c_stk c) = true).

  Lemma Rel_intro s ltk stc stk d :
    ltk = map fst d -> inv s -> (forall k v, d_get k d = Some v -> abs s k = Some v) ->
    (forall k v, d_get k stc = Some v -> d_get k d = Some v) /\ (forall k v, d_get k stc = Some v -> ks_mem k stk = true) ->
    Rel (mkC s ltk stc stk) d.
  Proof. unfold Rel. cbn [c_ltk c_store c_stc c_stk]. tauto. Qed.

  Lemma getitem_refines c d k : Rel c d ->
    snd (c_getitem o c k) = match d_get k d with Some v => OVal v | None => OKeyError end /\
    Rel (fst (c_getitem o c k)) d.
  Proof.
    intros HR. pose proof HR as (R1 & R2 & R3 & R4 & R5). unfold c_getitem.
    destruct (d_get k (c_stc c)) as [v|] eqn:E.
    - cbn [fst snd]. rewrite (R4 k v E). split; [reflexivity|exact HR].
    - rewrite R1, ks_mem_map_fst. destruct (d_hasP k d) as [v E2|E2]; rewrite E2.
      + destruct Hok as (Hl & _). destruct (Hl (c_store c) k v R2 (R3 k v E2)) as (L1 & L2 & L3).
        destruct (s_load o (c_store c) k) as [s' r] eqn:E3. cbn [fst snd] in L1, L2, L3. subst r.
        cbn [fst snd]. split; [reflexivity|].
        apply Rel_intro; [reflexivity|exact L2|intros k' v' H; rewrite L3; apply R3; exact H|].
        apply (stc_update k v _ _ d d R4 R5 E2). reflexivity.
      + cbn [fst snd]. split; [reflexivity|exact HR].
  Qed.

  Lemma preload_loop_spec d ltk rm : ltk = map fst d -> forall ks s,
    inv s -> (forall k v, d_get k d = Some v -> abs s k = Some v) ->
    inv (fst (preload_loop o s ltk ks rm)) /\
    (forall k, abs (fst (preload_loop o s ltk ks rm)) k = abs s k) /\
    snd (preload_loop o s ltk ks rm) = rm && existsb (fun k => negb (d_has k d)) ks.
  Proof.
    intros Hl. induction ks as [|k t IH]; intros s Hi Ha; cbn [preload_loop existsb].
    - cbn [fst snd]. rewrite andb_false_r. auto.
    - rewrite Hl, ks_mem_map_fst. destruct (d_hasP k d) as [v E|E]; cbn [negb orb].
      + destruct Hok as (_ & _ & _ & Hp).
        assert (Hne : abs s k <> None) by (rewrite (Ha k v E); discriminate).
        destruct (Hp s k Hi Hne) as (P1 & P2).
        rewrite <- Hl.
        destruct (IH (s_preload o s k) P1) as (I1 & I2 & I3).
        { intros k' v' H. rewrite P2. apply Ha. exact H. }
        split; [exact I1|]. split; [|exact I3]. intros k'. rewrite I2. apply P2.
      + destruct rm; cbn [fst snd andb].
        * auto.
        * rewrite <- Hl. destruct (IH s Hi Ha) as (I1 & I2 & I3). rewrite I3. auto.
  Qed.

  Lemma step_refines c d op : Rel c d ->
    snd (c_step o c op) = snd (d_step d op) /\ Rel (fst (c_step o c op)) (fst (d_step d op)).
  Proof.
    intros HR. pose proof HR as (R1 & R2 & R3 & R4 & R5).
    destruct op as [k v|k|k|k|k|ks rm|ks|]; cbn [c_step d_step fst snd]; rewrite ?R1, ?ks_mem_map_fst.
    - split; [reflexivity|].
      destruct Hok as (_ & Hs & _). destruct (Hs (c_store c) k v R2) as (S1 & S2 & S3).
      apply Rel_intro; [symmetry; apply map_fst_d_set|exact S1| |].
      { intros k' v' H. destruct (Z.eq_dec k' k) as [->|Hne].
        - rewrite d_get_set_eq in H. congruence.
        - rewrite d_get_set_neq in H by exact Hne. rewrite S3 by exact Hne. apply R3. exact H. }
      apply (stc_update k v _ _ d _ R4 R5 (d_get_set_eq k v d)). intros k' Hne. apply d_get_set_neq. exact Hne.
    - apply getitem_refines. exact HR.
    - destruct (getitem_refines c d k HR) as (G1 & G2).
      destruct (d_hasP k d) as [v E|E]; rewrite E in *; split; auto.
    - destruct (d_hasP k d) as [v E|E]; cbn [fst snd]; (split; [reflexivity|]); [|rewrite (d_del_absent k d E); exact HR].
      destruct Hok as (_ & _ & Hd & _).
      assert (Hne : abs (c_store c) k <> None) by (rewrite (R3 k v E); discriminate).
      destruct (Hd (c_store c) k R2 Hne) as (D1 & D2).
      apply Rel_intro; [symmetry; apply map_fst_d_del|exact D1| |split]; intros k' v' H; rewrite d_get_del in H;
        destruct (k' =? k) eqn:E2; try discriminate.
      + rewrite D2 by lia. apply R3. exact H.
      + rewrite d_get_del, E2. apply R4. exact H.
      + eapply R5. exact H.
    - split; [reflexivity|exact HR].
    - destruct (preload_loop_spec d _ rm eq_refl ks (c_store c) R2 R3) as (P1 & P2 & P3).
      destruct (preload_loop _ _ _ _ _) as [s' e]. cbn [fst snd] in *.
      split; [rewrite P3; reflexivity|].
      apply Rel_intro; [reflexivity|exact P1|intros k v H; rewrite P2; apply R3; exact H|].
      split; [exact R4|]. intros k v H. apply ks_mem_fold. eapply R5. exact H.
    - split; [reflexivity|].
      apply Rel_intro; [reflexivity|exact R2|exact R3|].
      split; intros k v H; rewrite (d_get_filter (fun x => ks_mem x (ks_of_list ks))) in H;
        destruct (ks_mem k (ks_of_list ks)) eqn:E; try discriminate.
      + apply R4. exact H.
      + reflexivity.
    - split; [reflexivity|exact HR].
  Qed.

  Lemma c_run_cons c op t :
    c_run o c (op :: t) = (fst (c_run o (fst (c_step o c op)) t),
                           snd (c_step o c op) :: snd (c_run o (fst (c_step o c op)) t)).
  Proof. exact (run_cons_proj (c_step o c op) (fun c1 => c_run o c1 t)). Qed.

  Lemma run_refines ops : forall c d, Rel c d ->
    snd (c_run o c ops) = snd (d_run d ops) /\ Rel (fst (c_run o c ops)) (fst (d_run d ops)).
  Proof.
    induction ops as [|op t IH]; intros c d HR; [split; [reflexivity|exact HR]|].
    rewrite c_run_cons. cbn [d_run].
    destruct (step_refines c d op HR) as (S1 & S2).
    destruct (d_step d op) as [d1 y]. cbn [fst snd] in S1, S2.
    destruct (IH _ _ S2) as (I1 & I2).
    destruct (d_run d1 t) as [d2 ys]. cbn [fst snd] in *.
    split; [rewrite S1, I1; reflexivity|exact I2].
  Qed.

  Lemma Rel_empty s : inv s -> Rel (c_empty s) [].
  Proof.
    intros Hi. apply Rel_intro; [reflexivity|exact Hi|discriminate|split; discriminate].
  Qed.
End Refine.

Lemma dictcache_refines_dict : forall St (o : storage_ops St) abs inv, storage_ok o abs inv ->
  forall s0, inv s0 -> forall ops, snd (c_run o (c_empty s0) ops) = snd (d_run [] ops).
Proof.
  intros St o abs inv Hok s0 Hi ops.
  apply (run_refines o abs inv Hok ops (c_empty s0) []). apply Rel_empty. exact Hi.
Qed.

Lemma d_run_cons d op t :
  d_run d (op :: t) = (fst (d_run (fst (d_step d op)) t), snd (d_step d op) :: snd (d_run (fst (d_step d op)) t)).
Proof. exact (run_cons_proj (d_step d op) (fun d1 => d_run d1 t)). Qed.

Lemma d_run_app a : forall d b,
  d_run d (a ++ b) = (fst (d_run (fst (d_run d a)) b), snd (d_run d a) ++ snd (d_run (fst (d_run d a)) b)).
Proof.
  induction a as [|op t IH]; intros d b; [apply surjective_pairing|].
  cbn [app]. rewrite !d_run_cons, IH. reflexivity.
Qed.

Lemma d_run_no_write k mid : forallb (fun op => negb (writes_key k op)) mid = true ->
  forall d, d_get k (fst (d_run d mid)) = d_get k d.
Proof.
  induction mid as [|op t IH]; intros H d; [reflexivity|].
  cbn [forallb] in H. apply andb_true_iff in H. destruct H as [H1 H2].
  rewrite d_run_cons. cbn [fst]. rewrite (IH H2).
  destruct op as [k' v'|k'|k'|k'|k'|ks rm|ks|]; cbn [d_step fst writes_key negb] in *; try reflexivity.
  - apply d_get_set_neq. destruct (k' =? k) eqn:E; [discriminate|lia].
  - apply d_get_del_neq. destruct (k' =? k) eqn:E; [discriminate|lia].
Qed.

Lemma dict_read_after pre w k mid : forallb (fun op => negb (writes_key k op)) mid = true ->
  last (snd (d_run [] (pre ++ w :: mid ++ [CGetItem k]))) ONone =
  match d_get k (fst (d_step (fst (d_run [] pre)) w)) with Some v => OVal v | None => OKeyError end.
Proof.
  intros H. rewrite d_run_app, d_run_cons, d_run_app. cbn [d_run d_step snd]. rewrite (d_run_no_write k mid H).
  rewrite app_comm_cons, app_assoc. apply last_last.
Qed.

Lemma dict_latest_write pre k v mid : forallb (fun op => negb (writes_key k op)) mid = true ->
  last (snd (d_run [] (pre ++ CSet k v :: mid ++ [CGetItem k]))) ONone = OVal v.
Proof. intros H. rewrite (dict_read_after pre _ k mid H). cbn [d_step fst]. rewrite d_get_set_eq. reflexivity. Qed.

Lemma dict_deleted_absent pre k mid : forallb (fun op => negb (writes_key k op)) mid = true ->
  last (snd (d_run [] (pre ++ CDel k :: mid ++ [CGetItem k]))) ONone = OKeyError.
Proof.
  intros H. rewrite (dict_read_after pre _ k mid H). cbn [d_step fst]. rewrite d_get_del, Z.eqb_refl. reflexivity.
Qed.

Lemma nth_error_upd_eq {A} (l : list A) : forall i x y, nth_error l i = Some y -> nth_error (upd_nth i x l) i = Some x.
Proof.
  induction l as [|a t IH]; intros [|i] x y H; cbn in *; try discriminate; [reflexivity|].
  eapply IH. exact H.
Qed.

Lemma nth_error_upd_neq {A} (l : list A) : forall i j x, i <> j -> nth_error (upd_nth j x l) i = nth_error l i.
Proof.
  induction l as [|a t IH]; intros [|i] [|j] x H; cbn; try reflexivity; try congruence.
  apply IH. congruence.
Qed.

Lemma m_run_cons cs op t :
  m_run cs (op :: t) = (fst (m_run (fst (m_step cs op)) t), snd (m_step cs op) :: snd (m_run (fst (m_step cs op)) t)).
Proof. exact (run_cons_proj (m_step cs op) (fun c1 => m_run c1 t)). Qed.

Lemma subcache_isolated ops : forall cs i c, nth_error cs i = Some c ->
  m_proj_out i ops (snd (m_run cs ops)) = snd (c_run dict_storage c (m_proj i ops)).
Proof.
  induction ops as [|op t IH]; intros cs i c Hc; [reflexivity|].
  rewrite m_run_cons. cbn [snd]. destruct op as [j op'|p]; cbn [m_proj m_proj_out].
  - destruct (Nat.eqb i j) eqn:E.
    + apply Nat.eqb_eq in E. subst j. cbn [m_step]. rewrite Hc.
      rewrite c_run_cons. cbn [snd].
      destruct (c_step dict_storage c op') as [c' x] eqn:E2. cbn [fst snd]. f_equal.
      apply IH. eapply nth_error_upd_eq. exact Hc.
    + apply Nat.eqb_neq in E. apply IH. cbn [m_step].
      destruct (nth_error cs j) as [cj|]; [|exact Hc].
      destruct (c_step dict_storage cj op') as [c' x]. cbn [fst].
      rewrite nth_error_upd_neq by exact E. exact Hc.
  - apply IH. cbn [m_step fst]. rewrite nth_error_app1; [exact Hc|].
    apply nth_error_Some. congruence.
Qed.

(* every cache of a family is, alone, a dictionary, whatever happens to the other caches in between *)
Lemma family_refines_dict : forall ops cs i c d, nth_error cs i = Some c ->
  Rel (fun s k => d_get k s) (fun _ => True) c d ->
  m_proj_out i ops (snd (m_run cs ops)) = snd (d_run d (m_proj i ops)).
Proof.
  intros ops cs i c d Hc HR. rewrite (subcache_isolated ops cs i c Hc).
  apply (run_refines dict_storage _ _ dict_storage_ok (m_proj i ops) c d HR).
Qed.

Lemma lZ_eqb_true_iff a b : lZ_eqb a b = true <-> a = b.
Proof. exact (forall2b_eq_spec Z.eqb Z.eqb_eq a b). Qed.
Lemma lZ_eqb_refl a : lZ_eqb a a = true.
Proof. apply lZ_eqb_true_iff. reflexivity. Qed.
Lemma lZ_eqb_neq a b : a <> b -> lZ_eqb a b = false.
Proof. intro H. destruct (lZ_eqb a b) eqn:E; [|reflexivity]. apply lZ_eqb_true_iff in E. contradiction. Qed.
