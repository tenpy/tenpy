(* Proofs about Model/ExpDecay.v (property C10): ExponentiallyDecayingTerms.add_to_graph, finite branch,
   uniform lambda, all sites: the closed graph denotes  sum_{i<j<L} w lam^(j-i) a_i s..s b_j  (+ what the
   graph denoted before), for all L and all graphs in which the label is fresh. *)
From TenpyV Require Import Base.Prelude Base.Lists Model.Automaton Proofs.AutomatonP Proofs.AutomatonP2 Model.ExpDecay.
Open Scope Z_scope.

Lemma add_edge_0 e es g : add_edge 0 e (es :: g) = (es ++ [e]) :: g.
Proof. reflexivity. Qed.
Lemma add_edge_S j e es g : add_edge (S j) e (es :: g) = es :: add_edge j e g.
Proof. reflexivity. Qed.
Lemma plain_edge_inv n e : plain_edge n e = true ->
  eL e <> Oth n /\ eR e <> Oth n /\ eR e <> IdL /\ eL e <> IdR.
Proof. unfold plain_edge. rewrite !andb_true_iff, !negb_true_iff, !key_eqb_neq. tauto. Qed.

Lemma fresh_cons n es g : fresh_in n (es :: g) = true <->
  (forall e, In e es -> plain_edge n e = true) /\ fresh_in n g = true.
Proof. unfold fresh_in. cbn [forallb]. rewrite andb_true_iff, forallb_forall. reflexivity. Qed.

Lemma fresh_noloop n g : fresh_in n g = true -> Forall noloop_site g.
Proof.
  induction g as [|es g IH]; intro H; constructor; apply fresh_cons in H; destruct H as [He Hg].
  - intros e Hin. apply (plain_edge_inv n e (He e Hin)).
  - apply IH. exact Hg.
Qed.

Lemma wf_plain n k e : wf_edge k e = true -> plain_edge n e = true.
Proof.
  destruct e as [[| |i a s|m|l|l] [| |i' a' s'|m'|r|r] op w]; intro H; try discriminate H; reflexivity.
Qed.

Lemma wf_fresh n g : forall k prev, wf_from k prev g = true -> fresh_in n g = true.
Proof.
  induction g as [|es g IH]; intros k prev H; [reflexivity|].
  apply wf_from_cons in H. destruct H as [Hs Hg]. apply wf_site_iff in Hs. destruct Hs as (H1 & _ & _).
  apply fresh_cons. split; [|apply (IH (S k) es Hg)].
  intros e He. apply (wf_plain n k). apply H1. exact He.
Qed.

Section ExpDecay.
Variables (n a s b : Z) (lam w : C).

Local Notation eS := (xstart n a lam).
Local Notation eT := (xstr n s lam).
Local Notation eE := (xend n b w).
Local Notation bulk := (add_exp_bulk n a s b lam w).

Definition new_edges (first last : bool) : list edge :=
  match first, last with
  | true, true => []
  | true, false => [eS]
  | false, true => [eE]
  | false, false => [eT; eE; eS]
  end.
Definition is_nil {A} (l : list A) : bool := match l with [] => true | _ => false end.
Fixpoint exp_sites (first : bool) (g : graph) : graph :=
  match g with
  | [] => []
  | es :: g' => (es ++ new_edges first (is_nil g')) :: exp_sites false g'
  end.

Lemma bulk_shift m : forall k x g1,
  fold_left bulk (seq (S k) m) (x :: g1) = x :: fold_left bulk (seq k m) g1.
Proof.
  induction m as [|m IH]; intros k x g1; cbn [seq fold_left]; [reflexivity|].
  change (bulk (x :: g1) (S k)) with (x :: bulk g1 k). apply IH.
Qed.

Lemma tail_sites m : forall g1, length g1 = S m ->
  add_edge m eE (fold_left bulk (seq 0 m) g1) = exp_sites false g1.
Proof.
  induction m as [|m IH]; intros g1 Hl.
  - destruct g1 as [|es [|es2 g2]]; try discriminate Hl. reflexivity.
  - destruct g1 as [|es g2]; [discriminate Hl|]. cbn [length] in Hl. injection Hl as Hl.
    cbn [seq fold_left].
    change (bulk (es :: g2) 0%nat) with ((((es ++ [eT]) ++ [eE]) ++ [eS]) :: g2).
    rewrite bulk_shift, add_edge_S, (IH g2 Hl).
    destruct g2 as [|es2 g3]; [discriminate Hl|].
    cbn [exp_sites is_nil new_edges]. rewrite <- !app_assoc. reflexivity.
Qed.

Lemma add_exp_sites g : add_exp (length g) n a s b lam w g = exp_sites true g.
Proof.
  destruct g as [|es0 [|es1 g2]].
  - reflexivity.
  - cbn [exp_sites is_nil new_edges]. rewrite app_nil_r. reflexivity.
  - set (g1 := es1 :: g2). assert (Hl : length g1 = S (length g2)) by reflexivity.
    unfold add_exp. change (length (es0 :: g1)) with (S (length g1)). rewrite Hl.
    replace (S (S (length g2)) - 1)%nat with (S (length g2)) by lia.
    replace (S (S (length g2)) - 2)%nat with (length g2) by lia.
    change (0 <? S (length g2))%nat with true. cbv iota.
    rewrite add_edge_0, bulk_shift, add_edge_S, (tail_sites (length g2) g1 Hl).
    reflexivity.
Qed.

Lemma new_out_other first last x : x <> IdL -> x <> Oth n -> out x (new_edges first last) = [].
Proof.
  intros H1 H2.
  assert (E1 : key_eqb IdL x = false) by (apply key_eqb_neq; congruence).
  assert (E2 : key_eqb (Oth n) x = false) by (apply key_eqb_neq; congruence).
  destruct first, last; unfold out; cbn [new_edges filter eL xstart xstr xend]; rewrite ?E1, ?E2; reflexivity.
Qed.

Lemma new_out_IdL first last : out IdL (new_edges first last) = if last then [] else [eS].
Proof. destruct first, last; reflexivity. Qed.

Lemma new_out_Oth last : out (Oth n) (new_edges false last) = if last then [eE] else [eT; eE].
Proof.
  destruct last; unfold out; cbn [new_edges filter eL xstart xstr xend]; rewrite ?key_eqb_refl;
    cbn [key_eqb]; reflexivity.
Qed.

Lemma new_plain n' first last e : n' <> n -> In e (new_edges first last) -> plain_edge n' e = true.
Proof.
  intros Hn Hin. assert (E : (n =? n') = false) by lia.
  destruct first, last; cbn [new_edges In] in Hin; repeat (destruct Hin as [<-|Hin]); try contradiction;
    unfold plain_edge; cbn [eL eR xstart xstr xend key_eqb]; rewrite ?E; reflexivity.
Qed.

Lemma new_noloop first last e : In e (new_edges first last) -> eR e <> IdL /\ eL e <> IdR.
Proof.
  (* new_plain at any label other than n: n + 1 *)
  intro Hin. apply (plain_edge_inv (n + 1) e). apply (new_plain _ first last); [lia|exact Hin].
Qed.

Lemma exp_noloop g : forall first, Forall noloop_site g -> Forall noloop_site (exp_sites first g).
Proof.
  induction g as [|es g IH]; intros first H; cbn [exp_sites]; [exact H|].
  apply Forall_cons_iff in H. destruct H as [He Hg]. constructor; [|apply IH; exact Hg].
  intros e Hin. apply in_app_or in Hin. destruct Hin as [Hin|Hin]; [apply (He e Hin)|apply (new_noloop _ _ e Hin)].
Qed.

Lemma exp_unch g : forall first k x, fresh_in n g = true -> x <> IdL -> x <> Oth n ->
  D (exp_sites first g) k x = D g k x.
Proof.
  induction g as [|es g IH]; intros first k x Hf Hx1 Hx2; [reflexivity|].
  apply fresh_cons in Hf. destruct Hf as [He Hg]. cbn [exp_sites].
  apply (D_cons_unch (fun y => y <> IdL /\ y <> Oth n)); auto.
  - rewrite out_app, new_out_other by assumption. apply app_nil_r.
  - intros y [Hy1 Hy2]. apply IH; assumption.
  - intros e Hin. apply in_out in Hin. destruct Hin as [Hin _].
    destruct (plain_edge_inv n e (He e Hin)) as (_ & H2 & H3 & _). split; assumption.
Qed.

(* the label: E k = sum_{j>=k} lam^(j-k) s_k .. s_{j-1} b_j w *)
Fixpoint Eden (k m : nat) : poly :=
  match m with
  | O => []
  | S m' => map (mstep k eT) (Eden (S k) m') ++ [mstep k eE (c1, [])]
  end.

Lemma D_label g : forall k, fresh_in n g = true -> D (exp_sites false g) k (Oth n) = Eden k (length g).
Proof.
  induction g as [|es g IH]; intros k Hf; [reflexivity|].
  apply fresh_cons in Hf. destruct Hf as [He Hg].
  cbn [exp_sites length Eden].
  rewrite D_cons, out_app, (out_nil_in (Oth n) es), new_out_Oth.
  2:{ intros e Hin. apply (plain_edge_inv n e (He e Hin)). }
  cbn [key_eqb app]. rewrite app_nil_r.
  destruct g as [|es2 g2].
  - cbn [is_nil flat_map exp_sites length Eden map app eR xend]. rewrite app_nil_r, D_nil. reflexivity.
  - cbn [is_nil flat_map eR xstr xend]. rewrite app_nil_r, (IH (S k) Hg).
    rewrite (exp_unch (es2 :: g2) false (S k) IdR Hg) by discriminate.
    rewrite (D_IdR_noloop _ (fresh_noloop n _ Hg)). reflexivity.
Qed.

(* IdL: F k = sum_{k<=i<j} ... *)
Fixpoint Fden (k m : nat) : poly :=
  match m with
  | O => []
  | S m' => map (mstep k eS) (Eden (S k) m') ++ Fden (S k) m'
  end.

Lemma D_IdL_exp g : forall first k, fresh_in n g = true ->
  peq (D (exp_sites first g) k IdL) (Fden k (length g) ++ D g k IdL).
Proof.
  induction g as [|es g IH]; intros first k Hf; [apply peq_refl|].
  apply fresh_cons in Hf. destruct Hf as [He Hg].
  cbn [exp_sites length Fden].
  rewrite !D_cons, out_app, flat_map_app, new_out_IdL. cbn [key_eqb]. rewrite !app_nil_r.
  rewrite (flat_map_ext_in _ (fun e => map (mstep k e) (D g (S k) (eR e))) (out IdL es)).
  2:{ intros e Hin. apply in_out in Hin. destruct Hin as [Hin _].
      destruct (plain_edge_inv n e (He e Hin)) as (_ & H2 & H3 & _).
      rewrite (exp_unch g false (S k) (eR e) Hg H3 H2). reflexivity. }
  intro w0. rewrite !coef_app.
  destruct g as [|es2 g2].
  - cbn [is_nil flat_map length Eden map Fden exp_sites coef]. csolve.
  - cbn [is_nil flat_map eR xstart]. rewrite app_nil_r. rewrite (D_label (es2 :: g2) (S k) Hg).
    rewrite (IH false (S k) Hg w0), coef_app. csolve.
Qed.

Definition emono (k j : nat) : mono :=
  (cmul (cpow lam (j - k)) w, wstring k (j - k) s ++ consop j b []).

Lemma Eden_closed m : forall k, Eden k m = map (emono k) (rev (seq k m)).
Proof.
  induction m as [|m IH]; intro k; cbn [Eden seq rev map]; [reflexivity|].
  rewrite map_app, IH. cbn [map]. f_equal.
  - rewrite map_map. apply map_ext_in. intros j Hj. rewrite <- in_rev in Hj. apply in_seq in Hj.
    unfold mstep, emono. cbn [ew eop xstr fst snd].
    replace (j - k)%nat with (S (j - S k)) by lia. cbn [cpow wstring]. rewrite consop_app.
    f_equal. symmetry. apply cmul_assoc.
  - unfold mstep, emono. cbn [ew eop xend fst snd]. rewrite Nat.sub_diag. cbn [cpow wstring app].
    rewrite cmul_1_r, cmul_1_l. reflexivity.
Qed.

Lemma Fden_closed m : forall k,
  Fden k m = flat_map (fun i => map (exp_mono a s b lam w i) (rev (seq (S i) (k + m - S i)))) (seq k m).
Proof.
  induction m as [|m IH]; intro k; cbn [Fden seq flat_map]; [reflexivity|].
  rewrite IH, Eden_closed. f_equal.
  - replace (k + S m - S k)%nat with m by lia. rewrite map_map. apply map_ext_in.
    intros j Hj. rewrite <- in_rev in Hj. apply in_seq in Hj.
    unfold mstep, emono, exp_mono. cbn [ew eop xstart fst snd].
    replace (j - k - 1)%nat with (j - S k)%nat by lia.
    replace (j - k)%nat with (S (j - S k)) by lia. cbn [cpow]. f_equal. csolve.
  - apply flat_map_ext_in. intros i _. replace (S k + m)%nat with (k + S m)%nat by lia. reflexivity.
Qed.

Lemma Fden_nf L : peq (Fden 0 L) (nf_exp L a s b lam w).
Proof.
  rewrite Fden_closed. unfold nf_exp. apply peq_perm. apply perm_flat_map_pointwise. intros i _.
  cbn [Nat.add]. apply Permutation_map. apply Permutation_sym. apply Permutation_rev.
Qed.

Theorem expdecay_add_fresh L g : fresh_in n g = true -> length g = L ->
  peq (denote (close (add_exp L n a s b lam w g))) (nf_exp L a s b lam w ++ denote (close g)).
Proof.
  intros Hf Hl. subst L. assert (Hn := fresh_noloop n g Hf).
  rewrite add_exp_sites, (close_noloop _ (exp_noloop g true Hn)), (close_noloop g Hn).
  change (denote (cl (exp_sites true g))) with (D (exp_sites true g) 0%nat IdL).
  change (denote (cl g)) with (D g 0%nat IdL).
  eapply peq_trans; [apply D_IdL_exp; exact Hf|].
  apply peq_app; [apply Fden_nf|apply peq_refl].
Qed.

Lemma fresh_exp_sites n' g : forall first, n' <> n -> fresh_in n' g = true ->
  fresh_in n' (exp_sites first g) = true.
Proof.
  induction g as [|es g IH]; intros first Hn H; [reflexivity|].
  apply fresh_cons in H. destruct H as [He Hg]. cbn [exp_sites]. apply fresh_cons.
  split; [|apply IH; assumption].
  intros e Hin. apply in_app_or in Hin. destruct Hin as [Hin|Hin]; [apply He; exact Hin|].
  exact (new_plain n' _ _ e Hn Hin).
Qed.

Lemma length_exp_sites g : forall first, length (exp_sites first g) = length g.
Proof. induction g as [|es g IH]; intro first; cbn [exp_sites length]; [reflexivity|]. rewrite IH. reflexivity. Qed.

End ExpDecay.

Theorem expdecay_add L n a s b lam w g : wf g = true -> length g = L ->
  peq (denote (close (add_exp L n a s b lam w g))) (nf_exp L a s b lam w ++ denote (close g)).
Proof. intros Hw Hl. apply expdecay_add_fresh; [apply (wf_fresh n g 0%nat [] Hw)|exact Hl]. Qed.

Theorem T10_expdecay L n a s b lam w : (2 <= L)%nat ->
  peq (denote (close (add_exp L n a s b lam w (empty_graph L)))) (nf_exp L a s b lam w).
Proof.
  intros _. eapply peq_trans.
  - apply expdecay_add; [apply wf_empty|apply repeat_length].
  - rewrite denote_empty, app_nil_r. apply peq_refl.
Qed.

Lemma fresh_add_exp L n n' a s b lam w g : length g = L -> n' <> n -> fresh_in n' g = true ->
  fresh_in n' (add_exp L n a s b lam w g) = true.
Proof. intros Hl Hn H. subst L. rewrite add_exp_sites. apply fresh_exp_sites; assumption. Qed.

Lemma length_add_exp L n a s b lam w g : length g = L -> length (add_exp L n a s b lam w g) = L.
Proof. intro Hl. subst L. rewrite add_exp_sites. apply length_exp_sites. Qed.

Theorem expdecay_add_all L ts : forall n g, (forall n', n <= n' -> fresh_in n' g = true) -> length g = L ->
  peq (denote (close (add_exps L n ts g))) (flat_map (nf_xterm L) ts ++ denote (close g)).
Proof.
  induction ts as [|t ts IH]; intros n g Hf Hl; cbn [add_exps flat_map]; [apply peq_refl|].
  eapply peq_trans.
  - apply IH; [|apply length_add_exp; exact Hl].
    intros n' Hn'. apply fresh_add_exp; [exact Hl|lia|apply Hf; lia].
  - intro w0. rewrite !coef_app.
    rewrite (expdecay_add_fresh n (xt_a t) (xt_s t) (xt_b t) (xt_lam t) (xt_w t) L g (Hf n (Z.le_refl n)) Hl w0).
    rewrite coef_app. unfold nf_xterm. csolve.
Qed.

Theorem expdecay_add_all_wf L ts n g : wf g = true -> length g = L ->
  peq (denote (close (add_exps L n ts g))) (flat_map (nf_xterm L) ts ++ denote (close g)).
Proof. intros Hw Hl. apply expdecay_add_all; [|exact Hl]. intros n' _. apply (wf_fresh n' g 0%nat [] Hw). Qed.

(* L = 4, label Oth 1000, op_i = 1, op_string = 2, op_j = 3, lambda = 1 + i, strength = 3:
   3 (1+i)^(j-i) on the six pairs i<j<4; (1+i)^2 = 2i, (1+i)^3 = -2+2i *)
Example ex_T10_expdecay :
  (2 <= 4)%nat /\
  normalize (denote (close (add_exp 4 1000 1 2 3 (1, 1) (3, 0) (empty_graph 4)))) =
    [((-6, 6), [(0%nat, 1); (1%nat, 2); (2%nat, 2); (3%nat, 3)]);
     ((0, 6), [(0%nat, 1); (1%nat, 2); (2%nat, 3)]);
     ((3, 3), [(0%nat, 1); (1%nat, 3)]);
     ((0, 6), [(1%nat, 1); (2%nat, 2); (3%nat, 3)]);
     ((3, 3), [(1%nat, 1); (2%nat, 3)]);
     ((3, 3), [(2%nat, 1); (3%nat, 3)])] /\
  normalize (nf_exp 4 1 2 3 (1, 1) (3, 0)) =
  normalize (denote (close (add_exp 4 1000 1 2 3 (1, 1) (3, 0) (empty_graph 4)))).
Proof. split; [lia|]. split; vm_compute; reflexivity. Qed.

(* the graph itself, in the order of the calls of graph.add *)
Example ex_add_exp_graph :
  add_exp 4 1000 1 2 3 (1, 1) (3, 0) (empty_graph 4) =
  [[mkE IdL (Oth 1000) 1 (1, 1)];
   [mkE (Oth 1000) (Oth 1000) 2 (1, 1); mkE (Oth 1000) IdR 3 (3, 0); mkE IdL (Oth 1000) 1 (1, 1)];
   [mkE (Oth 1000) (Oth 1000) 2 (1, 1); mkE (Oth 1000) IdR 3 (3, 0); mkE IdL (Oth 1000) 1 (1, 1)];
   [mkE (Oth 1000) IdR 3 (3, 0)]].
Proof. vm_compute. reflexivity. Qed.

(* adding to a well-formed graph with an onsite term (2+i) op4 on site 1 and a coupling 7 op5_0 op6_2:
   L = 3, lambda = 2, strength = 3 *)
Definition ex_g0 : graph :=
  fold_left add_cterm [mkCT 0 5 0 2 6 (7, 0)] (fold_left add_oterm [mkOT 1 4 (2, 1)] (empty_graph 3)).
Example ex_expdecay_add :
  wf ex_g0 = true /\ length ex_g0 = 3%nat /\ fresh_in 1000 ex_g0 = true /\
  normalize (denote (close (add_exp 3 1000 1 2 3 (2, 0) (3, 0) ex_g0))) =
    [((12, 0), [(0%nat, 1); (1%nat, 2); (2%nat, 3)]);
     ((6, 0), [(0%nat, 1); (1%nat, 3)]);
     ((7, 0), [(0%nat, 5); (2%nat, 6)]);
     ((6, 0), [(1%nat, 1); (2%nat, 3)]);
     ((2, 1), [(1%nat, 4)])] /\
  normalize (nf_exp 3 1 2 3 (2, 0) (3, 0) ++ denote (close ex_g0)) =
  normalize (denote (close (add_exp 3 1000 1 2 3 (2, 0) (3, 0) ex_g0))).
Proof. repeat split; vm_compute; reflexivity. Qed.

(* two terms (labels Oth 1000, Oth 1001), the second with identity string (op 0), lambda = i, strength 1 *)
Example ex_expdecay_add_all :
  normalize (denote (close (add_exps 3 1000 [mkXT 1 2 3 (2, 0) (3, 0); mkXT 1 0 1 (0, 1) (1, 0)] ex_g0))) =
    [((0, 1), [(0%nat, 1); (1%nat, 1)]);
     ((12, 0), [(0%nat, 1); (1%nat, 2); (2%nat, 3)]);
     ((6, 0), [(0%nat, 1); (1%nat, 3)]);
     ((-1, 0), [(0%nat, 1); (2%nat, 1)]);
     ((7, 0), [(0%nat, 5); (2%nat, 6)]);
     ((0, 1), [(1%nat, 1); (2%nat, 1)]);
     ((6, 0), [(1%nat, 1); (2%nat, 3)]);
     ((2, 1), [(1%nat, 4)])] /\
  normalize (flat_map (nf_xterm 3) [mkXT 1 2 3 (2, 0) (3, 0); mkXT 1 0 1 (0, 1) (1, 0)] ++ denote (close ex_g0)) =
  normalize (denote (close (add_exps 3 1000 [mkXT 1 2 3 (2, 0) (3, 0); mkXT 1 0 1 (0, 1) (1, 0)] ex_g0))).
Proof. split; vm_compute; reflexivity. Qed.

(* the hypothesis of expdecay_add_all is satisfiable by a graph that is NOT wf: after a first
   exponentially decaying term every label number >= 1001 is still fresh *)
Example ex_fresh_after :
  wf (add_exp 3 1000 1 2 3 (2, 0) (3, 0) ex_g0) = false /\
  forall n', 1001 <= n' -> fresh_in n' (add_exp 3 1000 1 2 3 (2, 0) (3, 0) ex_g0) = true.
Proof.
  split; [vm_compute; reflexivity|]. intros n' Hn.
  apply fresh_add_exp; [reflexivity|lia|]. apply (wf_fresh n' ex_g0 0%nat []). vm_compute. reflexivity.
Qed.

Example ex_check_expdecay :
  check_expdecay (4%nat, 1000, (1, 2, 3), ((1, 1), (3, 0)),
                  close (add_exp 4 1000 1 2 3 (1, 1) (3, 0) (empty_graph 4))) = true.
Proof. vm_compute. reflexivity. Qed.

Print Assumptions T10_expdecay.
Print Assumptions expdecay_add.
Print Assumptions expdecay_add_fresh.
Print Assumptions expdecay_add_all.
Print Assumptions expdecay_add_all_wf.
