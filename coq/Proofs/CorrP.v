(* correlation_function (Model/Corr.v) contracts the documented ordered product (corr_order), which for the string autoJW
   picks is the Jordan-Wigner product of the two operators (corr_jw). *)
From TenpyV Require Import Base.Prelude Base.Lists Model.JW Model.Corr Proofs.JWP.
Open Scope Z_scope.

Lemma site_word_app l1 l2 k : site_word (l1 ++ l2) k = site_word l1 k ++ site_word l2 k.
Proof. unfold site_word. apply flat_map_app. Qed.

Lemma site_word_range (s : Z -> letter) n : forall a k,
  site_word (map (fun r => (s r, r)) (zrange a n)) k =
  if (a <=? k) && (k <? a + Z.of_nat n) then [s k] else [].
Proof.
  induction n as [|n IH]; intros a k.
  - replace ((a <=? k) && (k <? a + Z.of_nat 0)) with false by lia. reflexivity.
  - cbn [zrange map]. unfold site_word in *. cbn [flat_map snd fst]. rewrite IH.
    destruct (a =? k) eqn:E1.
    + apply Z.eqb_eq in E1. subst k.
      replace ((a + 1 <=? a) && (a <? a + 1 + Z.of_nat n)) with false by lia.
      replace ((a <=? a) && (a <? a + Z.of_nat (S n))) with true by lia. reflexivity.
    + cbn [app].
      destruct ((a + 1 <=? k) && (k <? a + 1 + Z.of_nat n)) eqn:E2;
        destruct ((a <=? k) && (k <? a + Z.of_nat (S n))) eqn:E3; try reflexivity; lia.
Qed.

Lemma site_word_str opstr a b k : a <= b ->
  site_word (str_factors opstr a b) k = if (a <=? k) && (k <? b) then str_word opstr k else [].
Proof.
  intros Hab. unfold str_factors, str_word. destruct opstr as [s|].
  - rewrite site_word_range. rewrite Z2Nat.id by lia. replace (a + (b - a)) with b by lia. reflexivity.
  - cbn. destruct ((a <=? k) && (k <? b)); reflexivity.
Qed.

Lemma site_word_one x i k : site_word [(x, i)] k = if k =? i then [x] else [].
Proof. unfold site_word. cbn [flat_map fst snd]. rewrite app_nil_r, (Z.eqb_sym i k). reflexivity. Qed.

Lemma site_word_two x i y j k : site_word [(x, i); (y, j)] k = site_word [(x, i)] k ++ site_word [(y, j)] k.
Proof. apply (site_word_app [(x, i)] [(y, j)]). Qed.

Lemma str_on_first_split (sof : bool) (w : Z -> word) i j k : i < j ->
  (if ((if sof then i else i + 1) <=? k) && (k <? j) then w k else []) =
  if k =? i then (if sof then w i else []) else if (i <? k) && (k <? j) then w k else [].
Proof.
  intros Hij. destruct (k =? i) eqn:E.
  - apply Z.eqb_eq in E. subst k.
    destruct sof; [replace ((i <=? i) && (i <? j)) with true by lia | replace ((i + 1 <=? i) && (i <? j)) with false by lia];
      reflexivity.
  - replace ((if sof then i else i + 1) <=? k) with (i <? k) by (destruct sof; lia). reflexivity.
Qed.

Lemma corr_order op1 op2 opstr sof i j k :
  corr_words op1 op2 opstr sof i j k = site_word (doc_factors op1 op2 opstr sof i j) k.
Proof.
  unfold corr_words, doc_factors.
  destruct (i <? j) eqn:Eij; [|destruct (j <? i) eqn:Eji].
  - rewrite !site_word_app, !site_word_one, site_word_str, (str_on_first_split sof (str_word opstr)) by (destruct sof; lia).
    destruct (k =? i) eqn:E1; [replace (k =? j) with false by lia; rewrite app_nil_r; reflexivity|].
    destruct ((i <? k) && (k <? j)) eqn:E2; [replace (k =? j) with false by lia; rewrite app_nil_r; reflexivity|].
    destruct (k =? j); reflexivity.
  - rewrite !site_word_app, !site_word_one, site_word_str, (str_on_first_split sof (str_word opstr)) by (destruct sof; lia).
    destruct (k =? j) eqn:E1; [replace (k =? i) with false by lia; reflexivity|].
    destruct ((j <? k) && (k <? i)) eqn:E2; [replace (k =? i) with false by lia; rewrite app_nil_r; reflexivity|].
    destruct (k =? i); reflexivity.
  - assert (i = j) by lia. subst j. rewrite site_word_two, !site_word_one. destruct (k =? i); reflexivity.
Qed.

Lemma doc_factors_left op1 op2 opstr sof i j k : k < Z.min i j -> site_word (doc_factors op1 op2 opstr sof i j) k = [].
Proof.
  intros Hk. rewrite <- corr_order. unfold corr_words.
  replace (k =? i) with false by lia. replace (k =? j) with false by lia.
  replace (i <? k) with false by lia. replace (j <? k) with false by lia. destruct (i <? j), (j <? i); reflexivity.
Qed.

(* the opstr that autoJW picks (JW iff the operators need a string) covers the stretch between the sites, which is where the
   two strings JW_0 .. JW_{i-1} and JW_0 .. JW_{j-1} of the Jordan-Wigner product differ *)
Lemma doc_factors_jw a b (f : bool) i j k : Z.min i j <= k ->
  site_word (doc_factors (fun _ => Op a f) (fun _ => Op b f) (if f then Some (fun _ => JWl) else None) true i j) k =
  phys_word [mkItem a i f; mkItem b j f] k.
Proof.
  intros Hk. unfold doc_factors, phys_word, phys_letters. cbn [flat_map it_site it_f it_op].
  rewrite app_nil_r, (Z.eqb_sym i), (Z.eqb_sym j).
  assert (S : forall x, str_word (if f then Some (fun _ => JWl) else None) x = if f then [JWl] else []) by (destruct f; reflexivity).
  destruct (i <? j) eqn:Eij; [|destruct (j <? i) eqn:Eji];
    rewrite ?site_word_two, ?site_word_app, ?site_word_one, ?site_word_str, ?S by lia.
  - replace (k <? i) with false by lia. replace (i <=? k) with true by lia. rewrite andb_false_r. cbn [andb].
    destruct (k =? i) eqn:E1; [replace (k <? j) with true by lia; replace (k =? j) with false by lia; destruct f; reflexivity|].
    destruct (k <? j) eqn:E2; [replace (k =? j) with false by lia; destruct f; reflexivity|].
    rewrite andb_false_r. destruct (k =? j); reflexivity.
  - replace (k <? j) with false by lia. replace (j <=? k) with true by lia. rewrite andb_false_r. cbn [andb].
    destruct (k =? j) eqn:E1; [replace (k <? i) with true by lia; replace (k =? i) with false by lia; destruct f; reflexivity|].
    destruct (k <? i) eqn:E2; [replace (k =? i) with false by lia; destruct f; reflexivity|].
    rewrite andb_false_r. destruct (k =? i); reflexivity.
  - replace (k <? i) with false by lia. replace (k <? j) with false by lia. rewrite !andb_false_r. reflexivity.
Qed.

Lemma corr_jw a b (f : bool) i j k :
  let cw := corr_words (fun _ => Op a f) (fun _ => Op b f) (if f then Some (fun _ => JWl) else None) true i j k in
  let pw := phys_word [mkItem a i f; mkItem b j f] k in
  (Z.min i j <= k -> cw = pw) /\ (k < Z.min i j -> cw = [] /\ nf pw = (false, false, [])).
Proof.
  cbv zeta. rewrite corr_order. split; [apply doc_factors_jw|]. intros Hk. split; [apply doc_factors_left, Hk|].
  rewrite nf_left_of by (intros x [<-|[<-|[]]]; cbn [it_site]; lia). destruct f; reflexivity.
Qed.

Lemma auto_opstr_spec : forall need sof,
  (forallb (fun b => negb b) need = true -> auto_opstr need sof = Some None) /\
  (need <> [] -> forallb (fun b => b) need = true -> sof = true -> exists s, auto_opstr need sof = Some (Some s) /\ forall k, s k = JWl).
Proof.
  intros need sof. split.
  - intros H. unfold auto_opstr. replace (existsb (fun b => b) need) with false; [reflexivity|].
    induction need as [|b r IH]; [reflexivity|]. cbn [forallb existsb] in *. apply andb_prop in H. destruct H as [H1 H2].
    destruct b; [discriminate|]. cbn [orb]. apply IH. exact H2.
  - intros Hne H ->. unfold auto_opstr. rewrite H.
    destruct need as [|b r]; [congruence|]. cbn [forallb] in H. apply andb_prop in H. destruct H as [H1 _]. rewrite H1.
    cbn [existsb orb]. eexists. split; [reflexivity | intros k; reflexivity].
Qed.

Lemma hermitian_only_equal_sites : forall flag s1 s2, use_hermitian flag s1 s2 = true -> flag = true /\ s1 = s2.
Proof.
  intros flag s1 s2 H. apply andb_prop in H. destruct H as [H1 H2].
  exact (conj H1 (proj1 (forall2b_eq_spec Z.eqb Z.eqb_eq s1 s2) H2)).
Qed.
