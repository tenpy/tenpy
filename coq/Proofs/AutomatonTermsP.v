(* On-site and two-site terms as the special cases of multi-site terms.  On graphs whose keys carry no InA / InB
   (the keys of mwf are kleft / kright of triples, so only IdL, IdR and Lbl i a s = kleft [(i, a, s)] are left; wf
   allows no other key either, Oth included) the boolean wf of Model/Automaton.v is the invariant mwf of
   Model/AutomatonMulti.v (wf_mwf, mwf_wf), so what OnsiteTerms.add_to_graph /
   CouplingTerms.add_to_graph keep and what they add to the denotation is read off add_to_graph_multi, and
   MPOGraph.from_terms off from_terms_m_all. *)
From TenpyV Require Import Base.Prelude Base.Lists Model.Automaton Model.AutomatonMulti.
From TenpyV Require Import Proofs.AutomatonP Proofs.AutomatonP2 Proofs.AutomatonMultiP.
Open Scope Z_scope.

Definition untagged (es : list edge) : Prop :=
  forall e, In e es -> no_tags (eL e) = true /\ no_tags (eR e) = true.

Lemma wf_edge_ok k e : wf_edge k e = true ->
  edge_ok k e /\ no_tags (eL e) = true /\ no_tags (eR e) = true.
Proof.
  intro H. apply wf_edge_inv in H. destruct e as [l r o c]. cbn [eL eR eop ew] in H. unfold edge_ok.
  destruct H as [[-> ->]|[(a & s & -> & -> & -> & ->)|[(i & a & s & -> & -> & Hi & -> & ->)|(i & a & s & -> & -> & _)]]];
    (split; [|split; reflexivity]).
  - right. right. exists [], []. split; reflexivity.
  - left. exists (k, a, s), []. rewrite (canonL_at (k, a, s)). auto.
  - left. exists (i, a, s), []. rewrite (canonL_after k (i, a, s)) by exact Hi. split; [reflexivity|]. split; [reflexivity|].
    apply Nat.lt_le_incl, Hi.
  - right. right. exists [(i, a, s)], []. split; reflexivity.
Qed.

Lemma nodup_lbl_targets es : nodup_keys (lbl_targets es) = true <->
  forall x, is_lbl x = true -> (length (into x es) <= 1)%nat.
Proof.
  induction es as [|e es IH]; [split; [cbn; lia|reflexivity]|].
  rewrite lbl_targets_cons. unfold into in *. cbn [filter].
  destruct (is_lbl (eR e)) eqn:E.
  - cbn [nodup_keys]. rewrite andb_true_iff, negb_true_iff, IH, (lbl_targets_entered es _ E), entered_false.
    split.
    + intros [Hn H] x Hx. destruct (key_eqb (eR e) x) eqn:Ex; [|apply H, Hx]. apply key_eqb_eq in Ex. subst x.
      rewrite filter_none; [cbn; lia|]. intros e' He'. apply key_eqb_neq, Hn, He'.
    + intro H. split.
      * intros e' He' E'. specialize (H _ E). rewrite key_eqb_refl in H. cbn [length] in H.
        assert (Hin : In e' (filter (fun e0 => key_eqb (eR e0) (eR e)) es))
          by (apply filter_In; split; [exact He'|apply key_eqb_eq; exact E']).
        destruct (filter _ es); [destruct Hin|cbn [length] in H; lia].
      * intros x Hx. specialize (H x Hx). destruct (key_eqb (eR e) x); cbn [length] in H; lia.
  - rewrite IH. split; intros H x Hx; specialize (H x Hx);
      (destruct (key_eqb (eR e) x) eqn:Ex; [|exact H]); apply key_eqb_eq in Ex; congruence.
Qed.

Lemma wf_site_ok k prev es next : wf_site k prev es = true -> site_ok k prev es next.
Proof.
  intro H. apply wf_site_iff in H. destruct H as (H1 & H2 & H3).
  assert (Hno : forall x, no_tags x = false ->
            (forall e, In e es -> eL e <> x) /\ (forall e, In e es -> eR e <> x)).
  { intros x Hx. split; intros e He E; destruct (wf_edge_ok k e (H1 e He)) as (_ & HL & HR); congruence. }
  split; [intros e He; apply (wf_edge_ok k e (H1 e He))|]. split; [|split; [|split]].
  - intros t [|t' p]; [apply (proj1 (nodup_lbl_targets es) H2); reflexivity|].
    unfold into. rewrite filter_none; [cbn; lia|]. intros e He. apply key_eqb_neq.
    apply (Hno (kleft (t :: t' :: p))); [reflexivity|exact He].
  - intros t q. unfold outof. rewrite filter_none; [cbn; lia|]. intros e He. apply key_eqb_neq.
    apply (Hno (kright (t :: q))); [reflexivity|exact He].
  - intros e t [|t' p] He E; [apply (H3 e He); rewrite E; reflexivity|].
    exfalso. apply (proj1 (Hno (kleft (t :: t' :: p)) eq_refl) e He E).
  - intros e t q He E. exfalso. apply (proj2 (Hno (kright (t :: q)) eq_refl) e He E).
Qed.

(* prevs of Model/AutomatonMulti.v for a suffix graph: the site before site 0 is given *)
Definition prevs_from (prev : list edge) (g : graph) (j : nat) : list edge :=
  match j with O => prev | S j' => nth j' g [] end.

Lemma wf_from_ok g : forall k prev, wf_from k prev g = true ->
  forall j, site_ok (k + j) (prevs_from prev g j) (nth j g []) (nth (S j) g []).
Proof.
  induction g as [|es g IH]; intros k prev H j.
  - destruct j; apply (wf_site_ok _ _ []); reflexivity.
  - apply wf_from_cons in H. destruct H as [Hs Hg]. destruct j as [|j].
    + rewrite Nat.add_0_r. apply wf_site_ok. exact Hs.
    + replace (k + S j)%nat with (S k + j)%nat by lia. specialize (IH (S k) es Hg j).
      destruct j; exact IH.
Qed.

Lemma wf_mwf g : wf g = true -> mwf g.
Proof. intros H k. exact (wf_from_ok g 0%nat [] H k). Qed.

Lemma wf_untagged g : forall k prev, wf_from k prev g = true -> Forall untagged g.
Proof.
  induction g as [|es g IH]; intros k prev H; constructor; apply wf_from_cons in H; destruct H as [Hs Hg].
  - intros e He. apply wf_site_iff in Hs. apply (wf_edge_ok k e). apply Hs. exact He.
  - exact (IH (S k) es Hg).
Qed.

(* only the bound i < k of a connection Lbl i a s -> IdR is not local to the site: the label is entered on the site
   before, by an edge with that bound *)
Lemma ok_wf_edge k e : edge_ok k e -> no_tags (eL e) = true -> no_tags (eR e) = true ->
  (forall i a s, eL e = Lbl i a s -> (i < k)%nat) -> wf_edge k e = true.
Proof.
  intros [(t & p & H1 & H2 & H3)|[(t & q & H1 & H2 & H3)|(p & q & H1 & H2)]] HL HR Hi.
  - destruct p as [|t' p]; [|rewrite H1 in HR; discriminate HR]. subst e.
    destruct (Nat.eq_dec k (tsite t)) as [->|Hne]; [rewrite canonL_at|rewrite canonL_after by lia];
      unfold wf_edge; cbn [eL eR eop ew kleft].
    + rewrite Nat.eqb_refl, Z.eqb_refl. reflexivity.
    + rewrite Nat.eqb_refl, !Z.eqb_refl. destruct (Nat.ltb_spec (tsite t) k); [reflexivity|lia].
  - rewrite H1 in HL. discriminate HL.
  - destruct q as [|u q]; [|rewrite H2 in HR; discriminate HR].
    destruct p as [|t [|t' p]]; [| |rewrite H1 in HL; discriminate HL];
      unfold wf_edge; rewrite H1, H2; cbn [kleft kright]; [reflexivity|].
    apply Nat.ltb_lt. apply (Hi _ _ _ H1).
Qed.

Lemma ok_wf_site k prev es next : site_ok k prev es next -> untagged es ->
  (forall i a s, entered prev (Lbl i a s) = true -> (i < k)%nat) ->
  wf_site k prev es = true /\ (forall i a s, entered es (Lbl i a s) = true -> (i < S k)%nat).
Proof.
  intros (H1 & H2 & _ & H4 & _) Hp Hprev. split.
  - apply wf_site_iff. split; [|split].
    + intros e He. destruct (Hp e He) as [HL HR]. apply ok_wf_edge; try assumption; [apply H1, He|].
      intros i a s E. apply (Hprev i a s). rewrite <- E. apply (H4 e (i, a, s) [] He E).
    + apply nodup_lbl_targets. intros [| |i a s| | |] Hx; try discriminate Hx. apply (H2 (i, a, s) []).
    + intros e He Hl. destruct (eL e) as [| |i a s| | |] eqn:E; try discriminate Hl. rewrite <- E.
      apply (H4 e (i, a, s) [] He E).
  - intros i a s E. apply entered_true in E. destruct E as (e & He & E).
    destruct (ok_into_left k e (i, a, s) [] (H1 e He) E) as [_ Hts]. cbn [tsite fst] in Hts. lia.
Qed.

Lemma ok_wf_from g : forall k prev,
  (forall j, site_ok (k + j) (prevs_from prev g j) (nth j g []) (nth (S j) g [])) ->
  Forall untagged g -> (forall i a s, entered prev (Lbl i a s) = true -> (i < k)%nat) ->
  wf_from k prev g = true.
Proof.
  induction g as [|es g IH]; intros k prev H Hp Hprev; [reflexivity|].
  apply Forall_cons_iff in Hp. destruct Hp as [Hp Hpg].
  assert (H0 := H 0%nat). rewrite Nat.add_0_r in H0. cbn [nth] in H0.
  destruct (ok_wf_site k prev es _ H0 Hp Hprev) as [W Hes].
  apply wf_from_cons. split; [exact W|]. apply IH; [|exact Hpg|exact Hes].
  intro j. specialize (H (S j)). replace (k + S j)%nat with (S k + j)%nat in H by lia. destruct j; exact H.
Qed.

Lemma mwf_wf g : mwf g -> Forall untagged g -> wf g = true.
Proof. intros H Hp. apply ok_wf_from; [exact H|exact Hp|]. intros i a s E. discriminate E. Qed.

Lemma untagged_add_edge j e g : no_tags (eL e) = true -> no_tags (eR e) = true ->
  Forall untagged g -> Forall untagged (add_edge j e g).
Proof.
  intros HL HR H. unfold add_edge. revert j.
  induction H as [|es g Hes Hg IH]; intros [|j]; cbn [upd_site]; constructor; auto.
  intros e' He'. apply in_app_or in He'. destruct He' as [He'|[<-|[]]]; auto.
Qed.

Lemma untagged_add_string n : forall k ky op g, no_tags ky = true ->
  Forall untagged g -> Forall untagged (add_string k n ky op g).
Proof.
  induction n as [|n IH]; intros k ky op g Hk H; cbn [add_string]; [exact H|]. apply IH; [exact Hk|].
  destruct (has_edge k ky ky g); [exact H|apply untagged_add_edge; assumption].
Qed.

Lemma untagged_add_oterm g t : Forall untagged g -> Forall untagged (add_oterm g t).
Proof. apply untagged_add_edge; reflexivity. Qed.

Lemma untagged_add_cterm g t : Forall untagged g -> Forall untagged (add_cterm g t).
Proof.
  intro H. unfold add_cterm. apply untagged_add_edge; try reflexivity.
  apply untagged_add_string; [reflexivity|]. unfold add_skip.
  destruct (has_edge_op _ _ _ _ g); [exact H|apply untagged_add_edge; try reflexivity; exact H].
Qed.

Lemma add_to_graph_onsite g t : wf g = true -> oterm_ok (length g) t = true ->
  wf (add_oterm g t) = true /\
  peq (denote (close (add_oterm g t))) (nf_oterm t :: denote (close g)).
Proof.
  intros Hwf Hok.
  destruct (add_to_graph_multi g _ (wf_mwf g Hwf) (oterm_ok_mterm _ _ Hok)) as [M P].
  rewrite <- add_oterm_as_mterm, <- nf_oterm_as_mterm in *.
  split; [|exact P]. apply mwf_wf; [exact M|]. apply untagged_add_oterm. exact (wf_untagged g _ _ Hwf).
Qed.

Lemma add_to_graph_coupling g t : wf g = true -> cterm_ok (length g) t = true ->
  wf (add_cterm g t) = true /\
  peq (denote (close (add_cterm g t))) (nf_cterm t :: denote (close g)).
Proof.
  intros Hwf Hok.
  destruct (add_to_graph_multi g _ (wf_mwf g Hwf) (cterm_ok_mterm _ _ Hok)) as [M P].
  rewrite <- add_cterm_as_mterm, <- nf_cterm_as_mterm in *.
  split; [|exact P]. apply mwf_wf; [exact M|]. apply untagged_add_cterm. exact (wf_untagged g _ _ Hwf).
Qed.

Lemma fold_untagged {T} (add : graph -> T -> graph) :
  (forall g t, Forall untagged g -> Forall untagged (add g t)) ->
  forall ts g, Forall untagged g -> Forall untagged (fold_left add ts g).
Proof. intros Hadd ts. induction ts as [|t ts IH]; intros g H; [exact H|]. apply IH, Hadd, H. Qed.

Lemma from_terms_wf L ots cts : forallb (oterm_ok L) ots = true -> forallb (cterm_ok L) cts = true ->
  wf (fold_left add_cterm cts (fold_left add_oterm ots (empty_graph L))) = true.
Proof.
  intros Ho Hc. apply mwf_wf; [exact (proj1 (from_terms_m_all L ots cts [] Ho Hc eq_refl))|].
  apply fold_untagged; [exact untagged_add_cterm|]. apply fold_untagged; [exact untagged_add_oterm|].
  apply Forall_forall. intros es Hes. apply repeat_spec in Hes. subst es. intros e [].
Qed.

Lemma from_terms_denote L ots cts : forallb (oterm_ok L) ots = true -> forallb (cterm_ok L) cts = true ->
  peq (denote (from_terms L ots cts)) (map nf_oterm ots ++ map nf_cterm cts).
Proof.
  intros Ho Hc. destruct (from_terms_m_all L ots cts [] Ho Hc eq_refl) as [_ P].
  cbn [map] in P. rewrite app_nil_r in P. exact P.
Qed.
