(* Model/Events.v (property C20, event dispatch).  Invariant `ev_inv`: ids are below the counter, pairwise distinct, and
   listeners of equal priority stand in id order; under it the stable insertion sort of `emit` yields the order
   `before`. *)
From TenpyV Require Import Base.Prelude Base.Lists Model.Events.
Open Scope Z_scope.

(* `before` is ge_prio together with tie_ok (equal priority: a was connected first); the insertion sort of emit, an
   instance of Base/Lists.v, establishes the first and preserves the second *)
Definition ge_prio (a b : listener) : Prop := l_prio b <= l_prio a.
Definition tie_ok (a b : listener) : Prop := l_prio a = l_prio b -> l_id a < l_id b.

Lemma sort_l_perm l : Permutation (sort_l l) l.
Proof. exact (insertion_sort_perm (fun x y => l_prio y <=? l_prio x) insert_l (fun _ => eq_refl) (fun _ _ _ => eq_refl) l). Qed.

Lemma sort_l_sorted l : StronglySorted ge_prio (sort_l l).
Proof.
  apply (insertion_sort_ss (fun x y => l_prio y <=? l_prio x) insert_l (fun _ => eq_refl) (fun _ _ _ => eq_refl));
    unfold ge_prio; intros; lia.
Qed.

Lemma sort_l_tie l : StronglySorted tie_ok l -> StronglySorted tie_ok (sort_l l).
Proof.
  apply (insertion_sort_stable (fun x y => l_prio y <=? l_prio x) insert_l (fun _ => eq_refl) (fun _ _ _ => eq_refl)).
  unfold tie_ok. intros x y H. lia.
Qed.

Lemma sort_l_before l : StronglySorted tie_ok l -> StronglySorted before (sort_l l).
Proof.
  intros Hs. apply (ss_and ge_prio tie_ok before).
  - unfold ge_prio, tie_ok, before. intros a b H1 H2. lia.
  - apply sort_l_sorted.
  - apply sort_l_tie. exact Hs.
Qed.

Lemma remove_id_filter i l : NoDup (map l_id l) -> remove_id i l = filter (not_id i) l.
Proof.
  induction l as [|y t IH]; cbn [remove_id filter map]; intros Hn; [reflexivity|].
  inversion Hn as [|? ? Hy Ht]; subst. unfold not_id at 1.
  destruct (l_id y =? i) eqn:E; cbn [negb].
  - symmetry. apply filter_all. intros x Hx. unfold not_id.
    destruct (l_id x =? i) eqn:E2; [|reflexivity].
    exfalso. apply Hy. replace (l_id y) with (l_id x) by lia. apply in_map. exact Hx.
  - f_equal. apply IH. exact Ht.
Qed.

Lemma not_id_true i x : not_id i x = true <-> l_id x <> i.
Proof. unfold not_id. destruct (l_id x =? i) eqn:E; cbn [negb]; split; intros; try lia; congruence. Qed.

Definition ev_inv (h : handler) : Prop :=
  Forall (fun x => l_id x < h_counter h) (h_listeners h) /\
  StronglySorted tie_ok (h_listeners h) /\
  NoDup (map l_id (h_listeners h)).

Lemma ev_inv_empty : ev_inv empty_handler.
Proof. unfold ev_inv, empty_handler; cbn. repeat split; constructor. Qed.

Lemma emit_until_fst h : fst (ev_step h EEmitUntil) = fst (ev_step h EEmit).
Proof. cbn [ev_step]. destruct (call_until _). reflexivity. Qed.

Lemma step_counter h op : h_counter h <= h_counter (fst (ev_step h op)).
Proof. destruct op; rewrite ?emit_until_fst; cbn [ev_step fst h_counter]; lia. Qed.

Lemma ev_inv_emit h : ev_inv h -> ev_inv (fst (ev_step h EEmit)).
Proof.
  intros (Hf & Hs & Hn). cbn [ev_step fst h_listeners]. split; [|split].
  - eapply Permutation_Forall; [apply Permutation_sym, sort_l_perm|exact Hf].
  - apply sort_l_tie. exact Hs.
  - eapply Permutation_NoDup; [apply Permutation_map, Permutation_sym, sort_l_perm|exact Hn].
Qed.

Lemma ev_step_inv h op : ev_inv h -> ev_inv (fst (ev_step h op)).
Proof.
  intros Hi. destruct op as [p r|i| | |];
    [| |apply ev_inv_emit; exact Hi|rewrite emit_until_fst; apply ev_inv_emit; exact Hi|exact Hi];
    destruct Hi as (Hf & Hs & Hn); cbn [ev_step fst]; unfold ev_inv; cbn [h_listeners h_counter].
  - split; [|split].
    + apply Forall_app. split.
      * eapply Forall_impl; [|exact Hf]. cbn beta. intros a Ha. lia.
      * constructor; [cbn [l_id]; lia|constructor].
    + apply ss_app; [exact Hs|repeat constructor|]. intros a b Ha [<-|[]]. rewrite Forall_forall in Hf.
      specialize (Hf a Ha). unfold tie_ok. cbn [l_id]. lia.
    + rewrite map_app. cbn [map l_id]. apply NoDup_snoc; [exact Hn|].
      intros Hin. apply in_map_iff in Hin. destruct Hin as (x & Hx & Hin).
      rewrite Forall_forall in Hf. specialize (Hf x Hin). lia.
  - rewrite remove_id_filter by exact Hn. split; [|split].
    + exact (incl_Forall (incl_filter _ _) Hf).
    + apply ss_filter, Hs.
    + apply NoDup_map_filter, Hn.
Qed.

Lemma ev_run_cons_fst h op t : fst (ev_run h (op :: t)) = fst (ev_run (fst (ev_step h op)) t).
Proof. exact (f_equal fst (run_cons_proj (ev_step h op) (fun h1 => ev_run h1 t))). Qed.

Lemma ev_run_cons_snd h op t :
  snd (ev_run h (op :: t)) = snd (ev_step h op) :: snd (ev_run (fst (ev_step h op)) t).
Proof. exact (f_equal snd (run_cons_proj (ev_step h op) (fun h1 => ev_run h1 t))). Qed.

Lemma ev_run_inv ops : forall h, ev_inv h -> ev_inv (fst (ev_run h ops)).
Proof.
  induction ops as [|op t IH]; intros h Hi; [exact Hi|].
  rewrite ev_run_cons_fst. apply IH. apply ev_step_inv. exact Hi.
Qed.

Lemma ev_run_spec ops : forall h acc, ev_inv h -> Permutation (h_listeners h) acc ->
  Permutation (h_listeners (fst (ev_run h ops))) (spec_connected ops (h_counter h) acc).
Proof.
  induction ops as [|op t IH]; intros h acc Hi Hp; [exact Hp|].
  rewrite ev_run_cons_fst. assert (Hi1 := ev_step_inv h op Hi). revert Hi1.
  destruct op as [p r|i| | |]; rewrite ?emit_until_fst; cbn [spec_connected]; intros Hi1.
  - apply (IH _ (acc ++ [mkL (h_counter h) p r]) Hi1). apply Permutation_app_tail. exact Hp.
  - apply (IH _ (filter (not_id i) acc) Hi1). cbn [ev_step fst h_listeners].
    rewrite remove_id_filter by apply Hi. apply filter_perm. exact Hp.
  - apply (IH _ acc Hi1). eapply perm_trans; [apply sort_l_perm|exact Hp].
  - apply (IH _ acc Hi1). eapply perm_trans; [apply sort_l_perm|exact Hp].
  - apply (IH _ acc Hi1). exact Hp.
Qed.

Lemma call_order ops : let h := fst (ev_run empty_handler ops) in
  Permutation (sort_l (h_listeners h)) (spec_connected ops 0 []) /\ StronglySorted before (sort_l (h_listeners h)).
Proof.
  intros h. split.
  - eapply perm_trans; [apply sort_l_perm|].
    apply (ev_run_spec ops empty_handler [] ev_inv_empty). constructor.
  - apply sort_l_before. apply (ev_run_inv ops empty_handler ev_inv_empty).
Qed.

Lemma call_until_spec l :
  (exists pre x post r, l = pre ++ x :: post /\ Forall (fun y => l_ret y = None) pre /\
      l_ret x = Some r /\ call_until l = (map l_id (pre ++ [x]), Some r)) \/
  (Forall (fun y => l_ret y = None) l /\ call_until l = (map l_id l, None)).
Proof.
  induction l as [|y t IH]; [right; split; [constructor|reflexivity]|].
  cbn [call_until]. destruct (l_ret y) as [r|] eqn:E.
  - left. exists [], y, t, r. repeat split; try assumption. constructor.
  - destruct IH as [(pre & x & post & r & Hl & Hp & Hx & Hc)|(Hn & Hc)].
    + left. exists (y :: pre), x, post, r. rewrite Hc. subst t. repeat split; try assumption.
      constructor; assumption.
    + right. rewrite Hc. split; [constructor; assumption|reflexivity].
Qed.

Lemma emit_until_out h : let s := sort_l (h_listeners h) in
  snd (ev_step h EEmitUntil) = OEmitUntil (fst (call_until s)) (snd (call_until s)).
Proof. cbn [ev_step]. destruct (call_until _). reflexivity. Qed.

Lemma disconnect_filter h i : ev_inv h ->
  h_listeners (fst (ev_step h (EDisconnect i))) = filter (not_id i) (h_listeners h).
Proof. intros Hi. apply remove_id_filter, Hi. Qed.

Lemma connect_out h op i : snd (ev_step h op) = OConnected i ->
  i = h_counter h /\ h_counter (fst (ev_step h op)) = h_counter h + 1.
Proof.
  destruct op; cbn [ev_step snd fst h_counter]; try discriminate; [intros [= <-]; auto|].
  destruct (call_until _). discriminate.
Qed.

Lemma ev_run_ids ops : forall h,
  (forall i, In i (connected_ids (snd (ev_run h ops))) ->
             h_counter h <= i < h_counter (fst (ev_run h ops))) /\
  NoDup (connected_ids (snd (ev_run h ops))) /\
  h_counter h <= h_counter (fst (ev_run h ops)).
Proof.
  induction ops as [|op t IH]; intros h.
  - cbn. split; [tauto|]. split; [constructor|lia].
  - rewrite ev_run_cons_fst, ev_run_cons_snd.
    destruct (IH (fst (ev_step h op))) as (Hr & Hn & Hc).
    assert (Hs := step_counter h op).
    unfold connected_ids in *. cbn [flat_map].
    destruct (snd (ev_step h op)) as [i|f|c r|c r|] eqn:Eo; cbn [app].
    2-5: (split; [|split; [exact Hn|lia]]); intros j Hj; specialize (Hr j Hj); lia.
    destruct (connect_out h op i Eo) as [-> Hc']. split; [|split; [|lia]].
    + intros i [Hi|Hi]; [lia|]. specialize (Hr i Hi). lia.
    + constructor; [|exact Hn]. intros Hi. specialize (Hr _ Hi). lia.
Qed.
