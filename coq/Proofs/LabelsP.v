(* Model/Labels.v on strings: split_label inverts combine_labels on well-formed (arbitrarily nested) labels, by following scan
   (the balance of parentheses) along a concatenation. *)
From TenpyV Require Import Base.Prelude Base.Lists Model.Labels.
From Coq Require Import Ascii.
Open Scope char_scope.

Lemma scan_shift w d d' k : scan w d = Some d' -> scan w (d + k) = Some (d' + k)%nat.
Proof.
  revert d. induction w as [|c w IH]; intros d H; cbn [scan] in *.
  - injection H as <-. reflexivity.
  - destruct (Ascii.eqb c "(").
    + apply (IH (S d)). exact H.
    + destruct (Ascii.eqb c ")").
      * destruct d as [|d0]; [discriminate|]. cbn [Nat.add]. apply IH. exact H.
      * destruct (Ascii.eqb c ".").
        -- destruct d as [|d0]; [discriminate|]. cbn [Nat.add]. apply (IH (S d0)). exact H.
        -- apply IH. exact H.
Qed.

Lemma scan_app w1 w2 d d1 : scan w1 d = Some d1 -> scan (w1 ++ w2) d = scan w2 d1.
Proof.
  revert d. induction w1 as [|c w IH]; intros d H; cbn [scan app] in *.
  - injection H as <-. reflexivity.
  - destruct (Ascii.eqb c "("); [apply IH; exact H|].
    destruct (Ascii.eqb c ")"); [destruct d; [discriminate|apply IH; exact H]|].
    destruct (Ascii.eqb c "."); [destruct d; [discriminate|apply IH; exact H]|]. apply IH. exact H.
Qed.

Lemma split_top_skip w rest d d' cur : scan w d = Some d' ->
  split_top (w ++ rest) d cur = split_top rest d' (rev w ++ cur).
Proof.
  revert d cur. induction w as [|c w IH]; intros d cur H; cbn [scan app split_top rev] in *.
  - injection H as <-. reflexivity.
  - rewrite <- app_assoc. cbn [app].
    destruct (Ascii.eqb c "(").
    + apply IH. exact H.
    + destruct (Ascii.eqb c ")").
      * destruct d as [|d0]; [discriminate|]. cbn [pred]. apply IH. exact H.
      * destruct (Ascii.eqb c ".").
        -- destruct d as [|d0]; [discriminate|]. cbn [Nat.eqb andb]. apply IH. exact H.
        -- cbn [andb]. apply IH. exact H.
Qed.

Lemma join_map_cons {A} (f : A -> label) t t2 ts : join (map f (t :: t2 :: ts)) = f t ++ "." :: join (map f (t2 :: ts)).
Proof. reflexivity. Qed.

Lemma split_join ls : ls <> [] -> Forall (fun w => scan w 0 = Some 0%nat) ls -> split_top (join ls) 0 [] = ls.
Proof.
  induction ls as [|l t IH]; intros Hne HF; [contradiction|].
  inversion HF as [|x y Hl Ht]; subst.
  destruct t as [|l2 t'].
  - cbn [join]. rewrite <- (app_nil_r l) at 1. rewrite (split_top_skip l [] 0 0 [] Hl).
    cbn [split_top]. rewrite app_nil_r, rev_involutive. reflexivity.
  - change (join (l :: l2 :: t')) with (l ++ "." :: join (l2 :: t')).
    rewrite (split_top_skip l ("." :: join (l2 :: t')) 0 0 [] Hl).
    cbn [split_top]. cbn [Ascii.eqb Bool.eqb andb Nat.eqb].
    rewrite app_nil_r, rev_involutive. f_equal. apply IH; [discriminate|exact Ht].
Qed.

Theorem split_combine ls : ls <> [] -> Forall wf_label ls ->
  split_label (combine_labels ls) (length ls) = Some (map strip_q ls).
Proof.
  intros Hne HF. unfold combine_labels, split_label.
  rewrite rev_unit. unfold is_c. cbn [Ascii.eqb Bool.eqb andb].
  rewrite rev_involutive. rewrite split_join; [|exact Hne|].
  - rewrite Nat.eqb_refl. reflexivity.
  - eapply Forall_impl; [|exact HF]. intros w [H _]. exact H.
Qed.

Lemma atom_char_spec c : atom_char c = true ->
  Ascii.eqb c "(" = false /\ Ascii.eqb c ")" = false /\ Ascii.eqb c "." = false /\ Ascii.eqb c "*" = false.
Proof.
  unfold atom_char. intros H. apply negb_true_iff in H.
  apply orb_false_iff in H. destruct H as [H H4]. apply orb_false_iff in H. destruct H as [H H3].
  apply orb_false_iff in H. destruct H as [H1 H2]. auto.
Qed.

Lemma scan_atoms a d : forallb atom_char a = true -> scan a d = Some d.
Proof.
  revert d. induction a as [|c a IH]; intros d H; [reflexivity|].
  cbn [forallb] in H. apply andb_true_iff in H. destruct H as [H1 H2].
  destruct (atom_char_spec c H1) as [Ha [Hb [Hc _]]]. cbn [scan]. rewrite Ha, Hb, Hc. apply IH. exact H2.
Qed.

(* characters after which star_atoms inserts nothing *)
Definition plain_char (c : ascii) : bool := negb (Ascii.eqb c "." || Ascii.eqb c ")").

Lemma last_plain (s : list ascii) d : s <> [] -> forallb plain_char s = true -> Ascii.eqb (last s d) ")" = false.
Proof.
  induction s as [|c s IH]; intros Hne H; [contradiction|].
  cbn [forallb] in H. apply andb_true_iff in H. destruct H as [H1 H2].
  destruct s as [|c2 s'].
  - cbn [last]. unfold plain_char in H1. apply negb_true_iff in H1. apply orb_false_iff in H1. tauto.
  - change (last (c :: c2 :: s') d) with (last (c2 :: s') d). apply IH; [discriminate|exact H2].
Qed.

(* str.replace('**', '') without fuel *)
Fixpoint rm2 (s : label) : label :=
  match s with
  | [] => []
  | c :: r => match r with
              | d :: r' => if is_c c "*" && is_c d "*" then rm2 r' else c :: rm2 r
              | [] => s
              end
  end.

Lemma rm_fuel_rm2 n s : (length s <= n)%nat -> rm_dstar_fuel n s = rm2 s.
Proof.
  revert s. induction n as [|n IH]; intros s Hl.
  - destruct s; [reflexivity|cbn in Hl; lia].
  - destruct s as [|c [|d r']]; cbn [rm_dstar_fuel rm2]; try reflexivity.
    cbn [length] in Hl. destruct (is_c c "*" && is_c d "*").
    + apply IH. lia.
    + f_equal. apply IH. cbn [length]. lia.
Qed.

Lemma rm_dstar_rm2 s : rm_dstar s = rm2 s.
Proof. apply rm_fuel_rm2. lia. Qed.

Lemma rm2_cons_nostar c s : Ascii.eqb c "*" = false -> rm2 (c :: s) = c :: rm2 s.
Proof. intros H. destruct s as [|d r]; cbn [rm2]; [reflexivity|]. unfold is_c. rewrite H. reflexivity. Qed.

Definition nostar_head (s : label) : Prop := match s with [] => True | c :: _ => Ascii.eqb c "*" = false end.

Lemma rm2_star1 s : nostar_head s -> rm2 ("*" :: s) = "*" :: rm2 s.
Proof.
  destruct s as [|d r]; intros H; [reflexivity|]. cbn [nostar_head] in H.
  cbn [rm2]. unfold is_c. rewrite H. cbn [Ascii.eqb Bool.eqb andb]. reflexivity.
Qed.

Lemma rm2_star2 s : rm2 ("*" :: "*" :: s) = rm2 s.
Proof. reflexivity. Qed.

Lemma rm2_atoms a s : forallb atom_char a = true -> rm2 (a ++ s) = a ++ rm2 s.
Proof.
  induction a as [|c a IH]; intros H; [reflexivity|].
  cbn [forallb] in H. apply andb_true_iff in H. destruct H as [H1 H2].
  destruct (atom_char_spec c H1) as [_ [_ [_ Hs]]].
  cbn [app]. rewrite rm2_cons_nostar by exact Hs. rewrite IH by exact H2. reflexivity.
Qed.

Lemma atoms_plain a : forallb atom_char a = true -> forallb plain_char a = true.
Proof.
  induction a as [|c a IH]; intros H; [reflexivity|].
  cbn [forallb] in *. apply andb_true_iff in H. destruct H as [H1 H2].
  destruct (atom_char_spec c H1) as [_ [Hb [Hc _]]]. unfold plain_char. rewrite Hb, Hc. cbn. apply IH. exact H2.
Qed.

Lemma star_atoms_atomchars p a s : forallb atom_char a = true -> star_atoms p (a ++ s) = a ++ star_atoms (last a p) s.
Proof.
  revert p. induction a as [|c a IH]; intros p H; [reflexivity|].
  cbn [forallb] in H. apply andb_true_iff in H. destruct H as [H1 H2].
  destruct (atom_char_spec c H1) as [_ [Hb [Hc _]]].
  cbn [app star_atoms]. rewrite Hb, Hc. cbn [orb andb]. rewrite IH by exact H2.
  destruct a as [|c2 a']; [reflexivity|].
  rewrite (last_indep (c2 :: a') c p) by discriminate. reflexivity.
Qed.

Lemma last_atoms_noclose a p : a <> [] -> forallb atom_char a = true -> Ascii.eqb (last a p) ")" = false.
Proof.
  intros Hne H. apply last_plain; [exact Hne|]. apply atoms_plain. exact H.
Qed.
