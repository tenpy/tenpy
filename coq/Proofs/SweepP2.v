(* Property C13, finite bc: no stale environment is read, for every chain length L > n and every number of sweeps.
   Invariant at schedule position i0 (Shape): stored LP have index <= i0, stored RP have index >= i0 + n - 1, LP[0] and
   RP[L-1] are stored, every stored environment carries the current versions. *)
From TenpyV Require Import Base.Prelude Base.Lists Model.Sweep.
Local Open Scope nat_scope.

Lemma nth_repeat_lt {A} (a d : A) m k : (k < m)%nat -> nth k (repeat a m) d = a.
Proof. intros H. rewrite (nth_indep _ d a) by (rewrite repeat_length; exact H). apply nth_repeat. Qed.

Lemma combine_app2 {A B} (l1 l1' : list A) (l2 l2' : list B) : length l1 = length l2 ->
  combine (l1 ++ l1') (l2 ++ l2') = combine l1 l2 ++ combine l1' l2'.
Proof. apply Lists.combine_app2. Qed.

Lemma combine_repeat {A B} (l : list A) (x : B) k : k = length l ->
  combine l (repeat x k) = map (fun a => (a, x)) l.
Proof.
  intros ->. induction l as [|a l IH]; cbn [length repeat combine map]; [reflexivity|]. f_equal. exact IH.
Qed.

Lemma set_nth_length {A} (l : list A) k x : length (set_nth l k x) = length l.
Proof. revert k. induction l as [|y t IH]; intros [|k]; cbn [set_nth length]; auto. Qed.

Lemma nth_set_nth_eq {A} (l : list A) k x d : k < length l -> nth k (set_nth l k x) d = x.
Proof.
  revert k. induction l as [|y t IH]; intros [|k] H; cbn [set_nth nth length] in *; try lia; auto.
  apply IH. lia.
Qed.

Lemma nth_set_nth_neq {A} (l : list A) k i x d : i <> k -> nth i (set_nth l k x) d = nth i l d.
Proof.
  revert k i. induction l as [|y t IH]; intros [|k] [|i] H; cbn [set_nth nth]; try reflexivity; try lia.
  apply IH. lia.
Qed.

Lemma nth_set_nth_some {A} (l : list (option A)) k i x t :
  nth i (set_nth l k x) None = Some t ->
  (i = k /\ x = Some t) \/ (i <> k /\ nth i l None = Some t).
Proof.
  intros H. destruct (Nat.eq_dec i k) as [->|Hne].
  - destruct (Nat.lt_ge_cases k (length l)) as [Hlt|Hge].
    + rewrite nth_set_nth_eq in H by exact Hlt. left. split; [reflexivity|exact H].
    + rewrite nth_overflow in H by (rewrite set_nth_length; exact Hge). discriminate.
  - rewrite nth_set_nth_neq in H by exact Hne. right. split; assumption.
Qed.

Lemma firstn_set_nth {A} (v : list A) i k x : i <= k -> firstn i (set_nth v k x) = firstn i v.
Proof.
  revert i k. induction v as [|y t IH]; intros [|i] [|k] H; cbn [set_nth firstn]; try reflexivity; try lia.
  f_equal. apply IH. lia.
Qed.

Lemma skipn_set_nth {A} (v : list A) i k x : k < i -> skipn i (set_nth v k x) = skipn i v.
Proof.
  revert i k. induction v as [|y t IH]; intros [|i] [|k] H; cbn [set_nth skipn]; try reflexivity; try lia.
  apply IH. lia.
Qed.

Lemma firstn_snoc (v : list nat) j : j < length v -> firstn j v ++ [nth j v 0] = firstn (S j) v.
Proof. intros H. symmetry. apply firstn_S_nth. exact H. Qed.

Lemma skipn_cons (v : list nat) j : j < length v -> nth j v 0 :: skipn (S j) v = skipn j v.
Proof. intros H. symmetry. apply skipn_nth_cons. exact H. Qed.

(* A position p of the unrolled infinite chain stands for the key p mod L. *)
Lemma mod_add_L L x : 0 < L -> (x + L) mod L = x mod L.
Proof. intros HL. rewrite <- (Nat.mod_add x 1 L) by lia. f_equal. lia. Qed.

Lemma mod_near L p q : 0 < L -> p mod L = q mod L -> p < q + L -> p <= q.
Proof.
  intros HL E H. pose proof (Nat.div_mod p L ltac:(lia)) as Ep. pose proof (Nat.div_mod q L ltac:(lia)) as Eq.
  rewrite E in Ep. pose proof (Nat.mod_upper_bound q L ltac:(lia)) as B. clear E.
  set (r := q mod L) in *. set (x := p / L) in *. set (y := q / L) in *. clearbody r x y.
  destruct (Nat.le_gt_cases x y) as [Hxy|Hxy]; [pose proof (Nat.mul_le_mono_l x y L Hxy)|pose proof (Nat.mul_le_mono_l (S y) x L Hxy)]; lia.
Qed.

Definition apart (L p x : nat) : Prop := p <> x /\ p < x + L /\ x < p + L.

Lemma apart_mod L p x : 0 < L -> apart L p x -> p mod L <> x mod L.
Proof.
  intros HL (H0 & H1 & H2) E. pose proof (mod_near L p x HL E H1). pose proof (mod_near L x p HL (eq_sym E) H2). lia.
Qed.

Definition near (L p x : nat) : Prop := p = x \/ p + L = x.

Lemma near_mod L p x : 0 < L -> near L p x \/ near L x p -> p mod L = x mod L.
Proof. intros HL [[->|<-]|[->|<-]]; rewrite ?mod_add_L by exact HL; reflexivity. Qed.

Lemma i0s_length m : length (i0s m) = (2 * m)%nat.
Proof. unfold i0s. rewrite app_length, rev_length, !seq_length. lia. Qed.

Lemma move_rights_length m : length (move_rights m) = (2 * m)%nat.
Proof. unfold move_rights. rewrite app_length, !repeat_length. lia. Qed.

Lemma i0s_nth m k : (k < 2 * m)%nat ->
  nth k (i0s m) 0%nat = if (k <? m)%nat then k else (2 * m - k)%nat.
Proof.
  intros H. unfold i0s. destruct (Nat.ltb_spec k m) as [Hlt|Hge].
  - rewrite app_nth1 by (rewrite seq_length; exact Hlt). rewrite seq_nth by exact Hlt. reflexivity.
  - rewrite app_nth2 by (rewrite seq_length; exact Hge). rewrite seq_length.
    rewrite rev_nth by (rewrite seq_length; lia). rewrite seq_length.
    rewrite seq_nth by lia. lia.
Qed.

Lemma move_rights_nth m k : (k < 2 * m)%nat -> nth k (move_rights m) false = (k <? m)%nat.
Proof.
  intros H. unfold move_rights. destruct (Nat.ltb_spec k m) as [Hlt|Hge].
  - rewrite app_nth1 by (rewrite repeat_length; exact Hlt). apply nth_repeat_lt. exact Hlt.
  - rewrite app_nth2 by (rewrite repeat_length; exact Hge). rewrite repeat_length.
    apply nth_repeat_lt. lia.
Qed.

Lemma flags_length (fin : bool) (L n : nat) : (n = 1 \/ n = 2)%nat -> (n < L)%nat ->
  length (if fin then flags_finite (right_moves fin L n) else if (n =? 2)%nat then flags_inf2 L else flags_inf1 L)
  = (2 * right_moves fin L n)%nat.
Proof.
  intros Hn HL. destruct fin; cbn [right_moves].
  - unfold flags_finite. rewrite app_length, !repeat_length. lia.
  - destruct Hn as [-> | ->]; cbn [Nat.eqb].
    + unfold flags_inf1. cbn [length]. rewrite app_length. cbn [length]. rewrite !repeat_length. lia.
    + unfold flags_inf2. rewrite !app_length, !repeat_length. lia.
Qed.

Lemma schedule_lists fin L n : (n = 1 \/ n = 2)%nat -> (n < L)%nat ->
  map (fun e : entry => fst (fst e)) (schedule fin L n) = i0s (right_moves fin L n) /\
  map (fun e : entry => snd (fst e)) (schedule fin L n) = move_rights (right_moves fin L n).
Proof.
  intros Hn HL. unfold entry. rewrite <- (map_map fst fst), <- (map_map fst snd). unfold schedule. cbv zeta.
  rewrite map_fst_combine
    by (rewrite combine_length, i0s_length, move_rights_length, flags_length by assumption; lia).
  rewrite map_fst_combine, map_snd_combine by (rewrite i0s_length, move_rights_length; reflexivity).
  split; reflexivity.
Qed.

Lemma schedule_covers_full fin L n : (n = 1 \/ n = 2)%nat -> (n < L)%nat ->
  let m := right_moves fin L n in
  let is := map (fun e : entry => fst (fst e)) (schedule fin L n) in
  let ms := map (fun e : entry => snd (fst e)) (schedule fin L n) in
  length (schedule fin L n) = (2 * m)%nat /\
  (forall i, (i < m)%nat -> nth i is 0%nat = i /\ nth i ms false = true) /\
  (forall i, (1 <= i <= m)%nat -> nth (2 * m - i) is 0%nat = i /\ nth (2 * m - i) ms false = false) /\
  (forall k, (k < 2 * m)%nat ->
     nth ((k + 1) mod (2 * m)) is 0%nat =
     if nth k ms false then (nth k is 0 + 1)%nat else (nth k is 0 - 1)%nat).
Proof.
  intros Hn HL m is ms. destruct (schedule_lists fin L n Hn HL) as [Hi Hmr].
  assert (Hm : (1 <= m)%nat) by (unfold m, right_moves; destruct fin; lia).
  assert (Hlen : length (schedule fin L n) = (2 * m)%nat)
    by (rewrite <- (map_length (fun e : entry => fst (fst e))), Hi; apply i0s_length).
  unfold is, ms. rewrite Hi, Hmr. fold m. split; [exact Hlen|]. split; [|split].
  - intros i Hi'. rewrite i0s_nth by lia. rewrite move_rights_nth by lia.
    destruct (Nat.ltb_spec i m); [split; reflexivity|lia].
  - intros i Hi'. rewrite i0s_nth by lia. rewrite move_rights_nth by lia.
    destruct (Nat.ltb_spec (2 * m - i) m); [lia|]. split; [lia|reflexivity].
  - intros k Hk. rewrite (i0s_nth m k) by exact Hk. rewrite move_rights_nth by exact Hk.
    destruct (Nat.eq_dec k (2 * m - 1)) as [He|Hne].
    + subst k. replace (2 * m - 1 + 1)%nat with (2 * m)%nat by lia.
      rewrite Nat.mod_same by lia. rewrite i0s_nth by lia.
      destruct (Nat.ltb_spec 0 m); [|lia].
      destruct (Nat.ltb_spec (2 * m - 1) m); lia.
    + rewrite Nat.mod_small by lia. rewrite i0s_nth by lia.
      destruct (Nat.ltb_spec k m); destruct (Nat.ltb_spec (k + 1) m); lia.
Qed.

Lemma tag_eqb_refl (t : tag) : tag_eqb t t = true.
Proof.
  unfold tag_eqb. rewrite Nat.eqb_refl. cbn [andb].
  induction t as [|x t IH]; cbn [combine forallb fst snd]; [reflexivity|].
  rewrite Nat.eqb_refl. exact IH.
Qed.

Lemma bump_length v i : length (bump v i) = length v.
Proof. unfold bump. apply set_nth_length. Qed.

Lemma firstn_bump v i k : i <= k -> firstn i (bump v k) = firstn i v.
Proof. intros H. unfold bump. apply firstn_set_nth. exact H. Qed.

Lemma skipn_bump v i k : k < i -> skipn i (bump v k) = skipn i v.
Proof. intros H. unfold bump. apply skipn_set_nth. exact H. Qed.

Definition Base (L : nat) (s : st) : Prop :=
  length (ver s) = L /\ length (lp s) = L /\ length (rp s) = L /\
  nth 0 (lp s) None = Some [] /\ nth (L - 1) (rp s) None = Some [].
Definition LPok (b : nat) (s : st) : Prop :=
  forall i t, nth i (lp s) None = Some t -> i <= b /\ t = firstn i (ver s).
Definition RPok (a : nat) (s : st) : Prop :=
  forall i t, nth i (rp s) None = Some t -> a <= i /\ t = skipn (S i) (ver s).
Definition Shape (L a b : nat) (s : st) : Prop := Base L s /\ LPok b s /\ RPok a s.

Lemma LPok_mono b b' s : b <= b' -> LPok b s -> LPok b' s.
Proof. intros Hb H i t Hi. destruct (H i t Hi) as [H1 H2]. split; [lia|exact H2]. Qed.

Lemma RPok_mono a a' s : a' <= a -> RPok a s -> RPok a' s.
Proof. intros Ha H i t Hi. destruct (H i t Hi) as [H1 H2]. split; [lia|exact H2]. Qed.

Lemma LPok_eq b s s' : ver s' = ver s -> lp s' = lp s -> LPok b s -> LPok b s'.
Proof. intros Hv Hl H i t. rewrite Hv, Hl. apply H. Qed.

Lemma RPok_eq a s s' : ver s' = ver s -> rp s' = rp s -> RPok a s -> RPok a s'.
Proof. intros Hv Hl H i t. rewrite Hv, Hl. apply H. Qed.

Lemma Shape_mono L a a' b b' s : a' <= a -> b <= b' -> Shape L a b s -> Shape L a' b' s.
Proof.
  intros Ha Hb (HB & HL & HR). split; [exact HB|]. split; [apply (LPok_mono b)|apply (RPok_mono a)]; assumption.
Qed.

Lemma all_current_of_shape L a b s : Shape L a b s -> all_current s = true.
Proof.
  intros (_ & HL & HR). unfold all_current. apply andb_true_intro. split.
  - apply forallb_forall. intros i _. destruct (nth i (lp s) None) as [t|] eqn:E; [|reflexivity].
    destruct (HL i t E) as [_ ->]. apply tag_eqb_refl.
  - apply forallb_forall. intros i _. destruct (nth i (rp s) None) as [t|] eqn:E; [|reflexivity].
    destruct (HR i t E) as [_ ->]. apply tag_eqb_refl.
Qed.

Lemma Base_lp L s v k x : Base L s -> length v = L -> 1 <= k -> Base L (mkSt v (set_nth (lp s) k x) (rp s)).
Proof.
  intros (Hv & Hl & Hr & H0 & HR) Hv' Hk. unfold Base. cbn [ver lp rp].
  rewrite set_nth_length, nth_set_nth_neq by lia. auto.
Qed.

Lemma Base_rp L s v k x : Base L s -> length v = L -> k < L - 1 -> Base L (mkSt v (lp s) (set_nth (rp s) k x)).
Proof.
  intros (Hv & Hl & Hr & H0 & HR) Hv' Hk. unfold Base. cbn [ver lp rp].
  rewrite set_nth_length, nth_set_nth_neq by lia. auto.
Qed.

Lemma LPok_store b s k r : LPok b s -> k <= b -> LPok b (mkSt (ver s) (set_nth (lp s) k (Some (firstn k (ver s)))) r).
Proof.
  intros H Hk i t Hi. cbn [lp ver] in *. apply nth_set_nth_some in Hi. destruct Hi as [[-> Hx]|[_ Hi]].
  - injection Hx as <-. split; [exact Hk|reflexivity].
  - apply H. exact Hi.
Qed.

Lemma RPok_store a s k l : RPok a s -> a <= k -> RPok a (mkSt (ver s) l (set_nth (rp s) k (Some (skipn (S k) (ver s))))).
Proof.
  intros H Hk i t Hi. cbn [rp ver] in *. apply nth_set_nth_some in Hi. destruct Hi as [[-> Hx]|[_ Hi]].
  - injection Hx as <-. split; [exact Hk|reflexivity].
  - apply H. exact Hi.
Qed.

Lemma LPok_del b b' s k v r : LPok b s -> b <= k -> k <= S b' -> (forall i, i <= b' -> firstn i v = firstn i (ver s)) ->
  LPok b' (mkSt v (set_nth (lp s) k None) r).
Proof.
  intros H Hk Hb' Hv i t Hi. cbn [lp ver] in *. apply nth_set_nth_some in Hi.
  destruct Hi as [[_ Hx]|[Hne Hi]]; [discriminate|]. destruct (H i t Hi) as [H1 H2].
  split; [lia|]. rewrite Hv by lia. exact H2.
Qed.

Lemma RPok_del a a' s k v l : RPok a s -> k <= a -> a' <= S k -> (forall i, a' <= i -> skipn (S i) v = skipn (S i) (ver s)) ->
  RPok a' (mkSt v l (set_nth (rp s) k None)).
Proof.
  intros H Hk Ha' Hv i t Hi. cbn [rp ver] in *. apply nth_set_nth_some in Hi.
  destruct Hi as [[_ Hx]|[Hne Hi]]; [discriminate|]. destruct (H i t Hi) as [H1 H2].
  split; [lia|]. rewrite Hv by lia. exact H2.
Qed.

Lemma find_left_some (l : list (option tag)) (t0 : tag) : nth 0 l None = Some t0 -> forall i,
  exists j t, find_left l i (S i) = Some (j, t) /\ j <= i /\ nth j l None = Some t.
Proof.
  intros H0 i. induction i as [|i IH].
  - exists 0, t0. cbn [find_left]. rewrite H0. auto.
  - cbn [find_left]. destruct (nth (S i) l None) as [t|] eqn:E.
    + exists (S i), t. auto.
    + destruct IH as (j & t & E1 & E2 & E3). exists j, t. split; [exact E1|]. split; [lia|exact E3].
Qed.

Lemma extend_left_spec L b cnt : forall s j t,
  length (ver s) = L -> length (lp s) = L -> j + cnt < L -> j + cnt <= b ->
  t = firstn j (ver s) -> LPok b s ->
  let r := extend_left s j cnt t true in
  ver (fst r) = ver s /\ rp (fst r) = rp s /\ length (lp (fst r)) = L /\
  nth 0 (lp (fst r)) None = nth 0 (lp s) None /\ LPok b (fst r) /\ snd r = firstn (j + cnt) (ver s).
Proof.
  induction cnt as [|c IH]; intros s j t Hv Hl Hj Hb -> HL.
  - cbn [extend_left fst snd]. rewrite Nat.add_0_r. auto 10.
  - cbn [extend_left]. rewrite firstn_snoc by lia. replace (j + S c) with (S j + c) by lia.
    pose proof (IH (mkSt (ver s) (set_nth (lp s) (S j) (Some (firstn (S j) (ver s)))) (rp s)) (S j) _ Hv ltac:(cbn [lp]; rewrite set_nth_length; exact Hl) ltac:(lia) ltac:(lia) eq_refl) as H.
    cbn [ver lp rp] in H. rewrite nth_set_nth_neq in H by lia. apply H. apply LPok_store; [exact HL|lia].
Qed.

Lemma get_lp_spec L b s i : Base L s -> LPok b s -> i <= b -> i < L ->
  exists s', get_lp s i true = (s', Some (firstn i (ver s))) /\
    ver s' = ver s /\ rp s' = rp s /\ Base L s' /\ LPok b s'.
Proof.
  intros (Hv & Hl & Hr & H0 & HR) HL Hib HiL. unfold get_lp.
  destruct (find_left_some (lp s) [] H0 i) as (j & t & E & Hj & Hjt). rewrite E.
  destruct (HL j t Hjt) as [_ Ht].
  destruct (extend_left_spec L b (i - j) s j t Hv Hl ltac:(lia) ltac:(lia) Ht HL) as (I1 & I2 & I3 & I4 & I5 & I6).
  exists (fst (extend_left s j (i - j) t true)). cbn [fst snd]. rewrite I6.
  replace (j + (i - j)) with i by lia.
  split; [reflexivity|]. split; [exact I1|]. split; [exact I2|]. split; [|exact I5].
  unfold Base. rewrite I1, I2, I4. auto.
Qed.

Lemma find_right_some L (l : list (option tag)) : length l = L -> nth (L - 1) l None = Some ([] : tag) -> forall f i,
  f = L - i -> i < L ->
  exists j t, find_right l i f = Some (j, t) /\ i <= j /\ j < L /\ nth j l None = Some t.
Proof.
  intros Hl HR f. induction f as [|f IH]; intros i Hf Hi; [lia|].
  cbn [find_right]. destruct (nth i l None) as [t|] eqn:E.
  - exists i, t. split; [reflexivity|]. split; [lia|]. split; [exact Hi|exact E].
  - assert (S i < L).
    { destruct (Nat.eq_dec i (L - 1)) as [->|]; [rewrite HR in E; discriminate|lia]. }
    destruct (IH (S i) ltac:(lia) ltac:(lia)) as (j & t & E1 & E2 & E3 & E4).
    exists j, t. split; [exact E1|]. split; [lia|]. split; assumption.
Qed.

Lemma extend_right_spec L a cnt : forall s j t,
  length (ver s) = L -> length (rp s) = L -> j < L -> cnt <= j -> a <= j - cnt ->
  t = skipn (S j) (ver s) -> RPok a s ->
  let r := extend_right s j cnt t true in
  ver (fst r) = ver s /\ lp (fst r) = lp s /\ length (rp (fst r)) = L /\
  nth (L - 1) (rp (fst r)) None = nth (L - 1) (rp s) None /\ RPok a (fst r) /\
  snd r = skipn (S (j - cnt)) (ver s).
Proof.
  induction cnt as [|c IH]; intros s j t Hv Hl Hj Hc Ha -> HR.
  - cbn [extend_right fst snd]. rewrite Nat.sub_0_r. auto 10.
  - cbn [extend_right]. rewrite skipn_cons by lia.
    replace (skipn j (ver s)) with (skipn (S (j - 1)) (ver s)) by (f_equal; lia).
    replace (j - S c) with (j - 1 - c) by lia.
    pose proof (IH (mkSt (ver s) (lp s) (set_nth (rp s) (j - 1) (Some (skipn (S (j - 1)) (ver s))))) (j - 1) _ Hv ltac:(cbn [rp]; rewrite set_nth_length; exact Hl) ltac:(lia) ltac:(lia) ltac:(lia) eq_refl) as H.
    cbn [ver lp rp] in H. rewrite nth_set_nth_neq in H by lia. apply H. apply RPok_store; [exact HR|lia].
Qed.

Lemma get_rp_spec L a s i : Base L s -> RPok a s -> a <= i -> i < L ->
  exists s', get_rp s i true = (s', Some (skipn (S i) (ver s))) /\
    ver s' = ver s /\ lp s' = lp s /\ Base L s' /\ RPok a s'.
Proof.
  intros (Hv & Hl & Hr & H0 & HR) HRok Hai HiL. unfold get_rp. rewrite Hr.
  destruct (find_right_some L (rp s) Hr HR (L - i) i eq_refl HiL) as (j & t & E & Hj & HjL & Hjt). rewrite E.
  destruct (HRok j t Hjt) as [_ Ht].
  destruct (extend_right_spec L a (j - i) s j t Hv Hr HjL ltac:(lia) ltac:(lia) Ht HRok) as (I1 & I2 & I3 & I4 & I5 & I6).
  exists (fst (extend_right s j (j - i) t true)). cbn [fst snd]. rewrite I6.
  replace (j - (j - i)) with i by lia.
  split; [reflexivity|]. split; [exact I1|]. split; [exact I2|]. split; [|exact I5].
  unfold Base. rewrite I1, I2, I4. auto.
Qed.

Lemma del_lp_spec L a b s : Shape L a b s -> 1 <= b -> Shape L a (b - 1) (del_lp s b).
Proof.
  intros (HB & HLP & HRP) Hb. unfold del_lp. split; [|split].
  - apply Base_lp; [exact HB|apply HB|exact Hb].
  - apply (LPok_del b); [exact HLP|lia|lia|reflexivity].
  - exact HRP.
Qed.

Lemma del_rp_spec L a b s : Shape L a b s -> a < L - 1 -> Shape L (S a) b (del_rp s a).
Proof.
  intros (HB & HLP & HRP) Ha. unfold del_rp. split; [|split].
  - apply Base_rp; [exact HB|apply HB|exact Ha].
  - exact HLP.
  - apply (RPok_del a); [exact HRP|lia|lia|reflexivity].
Qed.

Lemma update_spec L a b s iL : Shape L a b s -> b <= S iL -> iL <= a -> S iL < L ->
  Shape L (S iL) iL (del_rp (del_lp (mkSt (bump (bump (ver s) iL) (S iL)) (lp s) (rp s)) (S iL)) iL).
Proof.
  intros (HB & HLP & HRP) Hb Ha HiL. unfold del_rp, del_lp. cbn [ver lp rp]. split; [|split].
  - destruct HB as (Hv & Hl & Hr & H0 & HR). unfold Base. cbn [ver lp rp].
    rewrite !bump_length, !set_nth_length, !nth_set_nth_neq by lia. auto.
  - apply (LPok_del b); [exact HLP|lia|lia|]. intros i Hi. rewrite !firstn_bump by lia. reflexivity.
  - apply (RPok_del a); [exact HRP|lia|lia|]. intros i Hi. rewrite !skipn_bump by lia. reflexivity.
Qed.

Lemma get_lp_shape L a b s i : Shape L a b s -> i <= b -> i < L ->
  exists s', get_lp s i true = (s', Some (firstn i (ver s))) /\ ver s' = ver s /\ Shape L a b s'.
Proof.
  intros (HB & HL & HR) Hib HiL. destruct (get_lp_spec L b s i HB HL Hib HiL) as (s' & E & V & R & HB' & HL').
  exists s'. split; [exact E|]. split; [exact V|]. split; [exact HB'|]. split; [exact HL'|]. apply (RPok_eq a s); assumption.
Qed.

Lemma get_rp_shape L a b s i : Shape L a b s -> a <= i -> i < L ->
  exists s', get_rp s i true = (s', Some (skipn (S i) (ver s))) /\ ver s' = ver s /\ Shape L a b s'.
Proof.
  intros (HB & HL & HR) Hai HiL. destruct (get_rp_spec L a s i HB HR Hai HiL) as (s' & E & V & R & HB' & HR').
  exists s'. split; [exact E|]. split; [exact V|]. split; [exact HB'|]. split; [|exact HR']. apply (LPok_eq b s); assumption.
Qed.

Lemma reads_spec L a b s i j : Shape L a b s -> i <= b -> i < L -> a <= j -> j < L ->
  exists s1 s2, get_lp s i true = (s1, Some (firstn i (ver s2))) /\
    get_rp s1 j true = (s2, Some (skipn (S j) (ver s2))) /\ Shape L a b s2.
Proof.
  intros HS Hi HiL Hj HjL.
  destruct (get_lp_shape L a b s i HS Hi HiL) as (s1 & E1 & V1 & HS1).
  destruct (get_rp_shape L a b s1 j HS1 Hj HjL) as (s2 & E2 & V2 & HS2).
  exists s1, s2. rewrite V2, V1. rewrite V1 in E2. auto.
Qed.

Lemma step_right L n i0 s : n = 1 \/ n = 2 -> i0 + n < L -> Shape L (i0 + n - 1) i0 s ->
  exists s', step n s (i0, true, (true, false)) = (s', true) /\ Shape L (i0 + n) (S i0) s'.
Proof.
  intros Hn HL HS.
  destruct (reads_spec L _ _ s i0 (i0 + n - 1) HS (le_n _) ltac:(lia) (le_n _) ltac:(lia)) as (s1 & s2 & E1 & E2 & HS2).
  unfold step. cbv zeta. rewrite E1. cbn [fst snd]. rewrite E2. cbn [fst snd].
  unfold fresh_l, fresh_r. rewrite !tag_eqb_refl. cbn [andb].
  pose proof (update_spec L (i0 + n - 1) i0 s2 i0 HS2 ltac:(lia) ltac:(lia) ltac:(lia)) as HS4.
  set (s4 := del_rp _ _) in *.
  destruct (get_lp_shape L (S i0) (S i0) s4 (S i0) (Shape_mono L (S i0) (S i0) i0 (S i0) s4 (le_n _) ltac:(lia) HS4) (le_n _) ltac:(lia))
    as (s5 & E5 & V5 & HS5).
  destruct Hn as [-> | ->]; unfold env_inds; cbn [Nat.eqb orb andb negb]; fold s4; rewrite E5; cbn [fst snd].
  - exists s5. split; [reflexivity|]. replace (i0 + 1) with (S i0) by lia. exact HS5.
  - exists (del_rp s5 (S i0)). split; [reflexivity|]. replace (i0 + 2) with (S (S i0)) by lia.
    apply del_rp_spec; [exact HS5|lia].
Qed.

Lemma step_left L n i0 s : n = 1 \/ n = 2 -> 1 <= i0 -> i0 + n - 1 < L -> Shape L (i0 + n - 1) i0 s ->
  exists s', step n s (i0, false, (false, true)) = (s', true) /\ Shape L (i0 + n - 2) (i0 - 1) s'.
Proof.
  intros Hn Hi0 HL HS.
  destruct (reads_spec L _ _ s i0 (i0 + n - 1) HS (le_n _) ltac:(lia) (le_n _) ltac:(lia)) as (s1 & s2 & E1 & E2 & HS2).
  unfold step. cbv zeta. rewrite E1. cbn [fst snd]. rewrite E2. cbn [fst snd].
  unfold fresh_l, fresh_r. rewrite !tag_eqb_refl. cbn [andb negb].
  (* for both engines the updated sites are iL = i0 + n - 2 and its right neighbour *)
  set (iL := i0 + n - 2).
  replace (env_inds n i0 false) with (iL, S iL)
    by (unfold env_inds, iL; destruct Hn as [-> | ->]; cbn [Nat.eqb orb]; f_equal; lia).
  pose proof (update_spec L (i0 + n - 1) i0 s2 iL HS2 ltac:(lia) ltac:(lia) ltac:(lia)) as HS4.
  set (s4 := del_rp _ _) in *.
  destruct (get_rp_shape L iL iL s4 iL (Shape_mono L (S iL) iL iL iL s4 ltac:(lia) (le_n _) HS4) (le_n _) ltac:(lia))
    as (s6 & E6 & V6 & HS6).
  rewrite E6. cbn [fst snd]. replace (i0 + n - 2) with iL by reflexivity.
  destruct Hn as [-> | ->]; cbn [Nat.eqb].
  - exists s6. split; [reflexivity|]. replace (i0 - 1) with iL by (unfold iL; lia). exact HS6.
  - exists (del_lp s6 iL). split; [reflexivity|]. replace (i0 - 1) with (iL - 1) by (unfold iL; lia).
    apply del_lp_spec; [exact HS6|unfold iL; lia].
Qed.

Definition exec (n : nat) (s : st) (es : list entry) : st := fold_left (fun s e => fst (step n s e)) es s.

Lemma run_ok_app n l1 : forall s l2, run_ok n s (l1 ++ l2) = run_ok n s l1 && run_ok n (exec n s l1) l2.
Proof.
  induction l1 as [|e l1 IH]; intros s l2; [reflexivity|].
  cbn [app run_ok exec fold_left]. rewrite IH. unfold exec. rewrite !andb_assoc. reflexivity.
Qed.

Lemma exec_app n l1 l2 s : exec n s (l1 ++ l2) = exec n (exec n s l1) l2.
Proof. unfold exec. apply fold_left_app. Qed.

Lemma exec_cons n e l s : exec n s (e :: l) = exec n (fst (step n s e)) l.
Proof. reflexivity. Qed.

Definition right_entry (i : nat) : entry := (i, true, (true, false)).
Definition left_entry (i : nat) : entry := (i, false, (false, true)).

Lemma run_ok_cons L n s e s' a b l : step n s e = (s', true) -> Shape L a b s' ->
  run_ok n s (e :: l) = run_ok n s' l /\ exec n s (e :: l) = exec n s' l.
Proof.
  intros E HS. rewrite exec_cons. cbn [run_ok]. rewrite E. cbn [fst snd].
  rewrite (all_current_of_shape _ _ _ _ HS). split; reflexivity.
Qed.

Lemma right_phase L n : n = 1 \/ n = 2 -> forall cnt i0 s, i0 + cnt + n <= L -> Shape L (i0 + n - 1) i0 s ->
  run_ok n s (map right_entry (seq i0 cnt)) = true /\
  Shape L (i0 + cnt + n - 1) (i0 + cnt) (exec n s (map right_entry (seq i0 cnt))).
Proof.
  intros Hn. induction cnt as [|c IH]; intros i0 s HL HS.
  - cbn [seq map run_ok exec fold_left]. rewrite Nat.add_0_r. auto.
  - cbn [seq map]. destruct (step_right L n i0 s Hn ltac:(lia) HS) as (s' & E & HS').
    destruct (run_ok_cons L n s (right_entry i0) s' _ _ (map right_entry (seq (S i0) c)) E HS') as [-> ->].
    replace (i0 + S c) with (S i0 + c) by lia. apply IH; [lia|].
    replace (S i0 + n - 1) with (i0 + n) by lia. exact HS'.
Qed.

Lemma left_phase L n : n = 1 \/ n = 2 -> forall m s, m + n <= L -> Shape L (m + n - 1) m s ->
  run_ok n s (map left_entry (rev (seq 1 m))) = true /\
  Shape L (n - 1) 0 (exec n s (map left_entry (rev (seq 1 m)))).
Proof.
  intros Hn. induction m as [|m IH]; intros s HL HS.
  - cbn [seq rev map run_ok exec fold_left]. auto.
  - rewrite seq_S, rev_app_distr. cbn [rev app map plus].
    destruct (step_left L n (S m) s Hn ltac:(lia) ltac:(lia) HS) as (s' & E & HS').
    destruct (run_ok_cons L n s (left_entry (S m)) s' _ _ (map left_entry (rev (seq 1 m))) E HS') as [-> ->].
    apply IH; [lia|]. replace (m + n - 1) with (S m + n - 2) by lia. replace m with (S m - 1) at 2 by lia. exact HS'.
Qed.

Lemma schedule_finite_eq L n :
  schedule true L n = map right_entry (seq 0 (L - n)) ++ map left_entry (rev (seq 1 (L - n))).
Proof.
  unfold schedule. cbn [right_moves]. set (m := L - n). cbv zeta.
  unfold i0s, move_rights, flags_finite.
  rewrite combine_app2 by (rewrite seq_length, repeat_length; reflexivity).
  rewrite !combine_repeat by (rewrite ?rev_length, seq_length; reflexivity).
  rewrite combine_app2 by (rewrite map_length, seq_length, repeat_length; reflexivity).
  rewrite !combine_repeat by (rewrite map_length, ?rev_length, seq_length; reflexivity).
  rewrite !map_map. reflexivity.
Qed.

Lemma sweep_spec L n s : n = 1 \/ n = 2 -> n < L -> Shape L (n - 1) 0 s ->
  run_ok n s (schedule true L n) = true /\ Shape L (n - 1) 0 (exec n s (schedule true L n)).
Proof.
  intros Hn HL HS. rewrite schedule_finite_eq, run_ok_app, exec_app.
  destruct (right_phase L n Hn (L - n) 0 s ltac:(lia) HS) as [R1 R2]. cbn [plus] in R2.
  destruct (left_phase L n Hn (L - n) _ ltac:(lia) R2) as [R3 R4].
  rewrite R1, R3. split; [reflexivity|exact R4].
Qed.

Lemma init_shape L n : 1 <= n -> n < L -> Shape L (n - 1) 0 (init_st L).
Proof.
  intros Hn HL. unfold init_st. split; [|split].
  - unfold Base. cbn [ver lp rp length]. rewrite app_length, !repeat_length. cbn [length].
    split; [reflexivity|]. split; [lia|]. split; [lia|]. split; [reflexivity|].
    rewrite app_nth2 by (rewrite repeat_length; lia). rewrite repeat_length, Nat.sub_diag. reflexivity.
  - intros i t Hi. cbn [lp ver] in *. destruct i as [|i].
    + cbn [nth] in Hi. injection Hi as <-. split; [lia|reflexivity].
    + cbn [nth] in Hi. rewrite nth_repeat in Hi. discriminate.
  - intros i t Hi. cbn [rp ver] in *.
    destruct (lt_eq_lt_dec i (L - 1)) as [[Hlt| ->]|Hgt].
    + rewrite app_nth1, nth_repeat in Hi by (rewrite repeat_length; exact Hlt). discriminate.
    + rewrite app_nth2, repeat_length, Nat.sub_diag in Hi by (rewrite repeat_length; lia). injection Hi as <-.
      split; [lia|]. symmetry. apply skipn_all2. rewrite repeat_length. lia.
    + rewrite nth_overflow in Hi by (rewrite app_length, repeat_length; cbn [length]; lia). discriminate.
Qed.

Lemma sweeps_spec L n : n = 1 \/ n = 2 -> n < L -> forall k s, Shape L (n - 1) 0 s ->
  run_ok n s (repeat_list (schedule true L n) k) = true /\
  Shape L (n - 1) 0 (exec n s (repeat_list (schedule true L n) k)).
Proof.
  intros Hn HL. induction k as [|k IH]; intros s HS; [split; [reflexivity|exact HS]|].
  cbn [repeat_list]. rewrite run_ok_app, exec_app. destruct (sweep_spec L n s Hn HL HS) as [R1 R2].
  destruct (IH _ R2) as [R3 R4]. rewrite R1, R3. split; [reflexivity|exact R4].
Qed.

Lemma sweeps_ok L n : n = 1 \/ n = 2 -> n < L -> forall k s, Shape L (n - 1) 0 s ->
  run_ok n s (repeat_list (schedule true L n) k) = true.
Proof. intros Hn HL k s HS. apply (sweeps_spec L n Hn HL k s HS). Qed.

Lemma no_stale_all : forall L n k, (n = 1 \/ n = 2)%nat -> (n < L)%nat -> no_stale L n k = true.
Proof.
  intros L n k Hn HL. unfold no_stale. apply sweeps_ok; [exact Hn|exact HL|].
  apply init_shape; lia.
Qed.

Lemma shape_after_sweeps L n k : n = 1 \/ n = 2 -> n < L ->
  Shape L (n - 1) 0 (exec n (init_st L) (repeat_list (schedule true L n) k)).
Proof. intros Hn HL. apply (sweeps_spec L n Hn HL k). apply init_shape; lia. Qed.
