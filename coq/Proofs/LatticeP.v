(* Model/Lattice.v (property C19).  The index maps: the MPS site k + m * N_sites is row k of the order moved by m unit
   cells, m = 0 for a finite MPS (mps2lat_at / mps2lat_inv), so both maps are mutually inverse.  The code fragment `target`
   + `perm_lookup` that possible_couplings and possible_multi_couplings share, and the specification `op_at`, have one
   normal form (reach_inv / reach_at / op_at_spec). *)
From TenpyV Require Import Base.Prelude Base.Lists Model.Lattice Model.LatticeMulti.
Open Scope Z_scope.

Lemma radix_inj L x x' a a' : 0 <= x < L -> 0 <= x' < L -> x + L * a = x' + L * a' -> x = x' /\ a = a'.
Proof. intros Hx Hx' H. assert (a = a') by nia. subst. lia. Qed.

Lemma mod_unique_k L y k sh : 0 <= y < L -> sh = y + k * L -> sh mod L = y /\ (sh - y) / L = k.
Proof.
  intros Hy ->. split.
  - rewrite Z.mod_add by lia. apply Z.mod_small. lia.
  - replace (y + k * L - y) with (k * L) by lia. apply Z.div_mul. lia.
Qed.

(* how the code reads a winding number, in units of M, off a shifted index *)
Lemma div_cells y k L M : 0 < L -> (y + k * L - y) * M / L = k * M.
Proof. intros HL. replace ((y + k * L - y) * M) with (k * M * L) by ring. apply Z.div_mul. lia. Qed.

Lemma small_multiple K L : - L < K * L < L -> K = 0.
Proof.
  intros H. assert (HL : 0 < L) by lia. assert (Hc : K <= -1 \/ K = 0 \/ K >= 1) by lia.
  destruct Hc as [Hc|[Hc|Hc]]; [exfalso|exact Hc|exfalso].
  - assert (0 <= (-1 - K) * L) by (apply Z.mul_nonneg_nonneg; lia). lia.
  - assert (0 <= (K - 1) * L) by (apply Z.mul_nonneg_nonneg; lia). lia.
Qed.

Lemma in_zrange x L : In x (zrange L) <-> 0 <= x < L.
Proof.
  unfold zrange. rewrite in_map_iff. split.
  - intros (n & Hn & Hin). apply in_seq in Hin. lia.
  - intros Hx. exists (Z.to_nat x). split; [lia|]. apply in_seq. lia.
Qed.

Lemma nodup_zrange L : NoDup (zrange L).
Proof.
  unfold zrange. apply FinFun.Injective_map_NoDup.
  - intros a b Hab. lia.
  - apply seq_NoDup.
Qed.

Lemma length_zrange L : length (zrange L) = Z.to_nat L.
Proof. unfold zrange. rewrite map_length, seq_length. reflexivity. Qed.

Lemma cstyle_in shape : forall row, In row (cstyle shape) <-> in_box row shape.
Proof.
  induction shape as [|L r IH]; intros row; cbn [cstyle].
  - split.
    + intros [<-|[]]. constructor.
    + intros H. inversion H. now left.
  - rewrite in_flat_map. split.
    + intros (x & Hx & Hin). apply in_map_iff in Hin. destruct Hin as (t & <- & Ht).
      constructor; [now apply in_zrange | now apply IH].
    + intros H. inversion H as [|x L' t r' Hx Ht]; subst.
      exists x. split; [now apply in_zrange|]. apply in_map. now apply IH.
Qed.

Lemma cstyle_nodup shape : NoDup (cstyle shape).
Proof.
  induction shape as [|L r IH]; cbn [cstyle].
  - constructor; [intros []|constructor].
  - apply nodup_flat_map_inj.
    + intros x _. apply FinFun.Injective_map_NoDup; [|exact IH]. intros a b Hab. now inversion Hab.
    + intros x x' row _ _ Hin Hin'. apply in_map_iff in Hin. apply in_map_iff in Hin'.
      destruct Hin as (t & <- & _). destruct Hin' as (t' & He & _). now inversion He.
    + apply nodup_zrange.
Qed.

Lemma cstyle_length shape : length (cstyle shape) = nprod shape.
Proof.
  induction shape as [|L r IH]; cbn [cstyle nprod]; [reflexivity|].
  rewrite (length_flat_map_const _ _ (nprod r)).
  - now rewrite length_zrange.
  - intros x. now rewrite map_length.
Qed.

Lemma snake_perm shape : forall flags, Permutation (snake flags shape) (cstyle shape).
Proof.
  induction shape as [|L r IH]; intros flags; cbn [snake cstyle]; [apply Permutation_refl|].
  apply perm_flat_map_pointwise. intros x _. apply Permutation_map.
  destruct (hd false (tl flags) && Z.odd x).
  - eapply Permutation_trans; [apply Permutation_sym, Permutation_rev|apply IH].
  - apply IH.
Qed.

Lemma get_order_perm flags shape :
  NoDup (snake flags shape) /\
  (forall row, In row (snake flags shape) <-> in_box row shape) /\
  length (snake flags shape) = nprod shape.
Proof.
  pose proof (snake_perm shape flags) as HP. split; [|split].
  - eapply Permutation_NoDup; [apply Permutation_sym, HP|apply cstyle_nodup].
  - intros row. rewrite <- cstyle_in. split; intros H.
    + eapply Permutation_in; [exact HP|exact H].
    + eapply Permutation_in; [apply Permutation_sym, HP|exact H].
  - rewrite (Permutation_length HP). apply cstyle_length.
Qed.

Lemma flat_r_inj Ls : forall xs xs' t t',
  Forall2 (fun x L => 0 <= x < L) xs Ls -> Forall2 (fun x L => 0 <= x < L) xs' Ls ->
  flat_r xs Ls t = flat_r xs' Ls t' -> xs = xs' /\ t = t'.
Proof.
  induction Ls as [|L Ls IH]; intros xs xs' t t' H1 H2 He.
  - inversion H1; inversion H2; subst. cbn [flat_r] in He. now split.
  - inversion H1 as [|x L1 xt Lt Hx Hxt]; inversion H2 as [|x' L2 xt' Lt' Hx' Hxt']; subst.
    cbn [flat_r] in He. rewrite !Z.mod_small in He by lia.
    apply radix_inj in He; [|lia|lia]. destruct He as [-> He].
    apply IH in He; [|assumption|assumption]. destruct He as [-> ->]. now split.
Qed.

Lemma flat_inj lat s s' : site_in_box lat s -> site_in_box lat s' -> flat lat s = flat lat s' -> s = s'.
Proof.
  destruct s as [[x0 xr] u], s' as [[x0' xr'] u']. intros (Hx & Hr & Hu) (Hx' & Hr' & Hu') He.
  (* x_0 is the least significant digit *)
  apply (flat_r_inj (L0 lat :: Lr lat) (x0 :: xr) (x0' :: xr')) in He; [|now constructor|now constructor].
  destruct He as [He Hu2]. rewrite !Z.mod_small in Hu2 by lia. congruence.
Qed.

Lemma find_pos_some f l k : find_pos f l = Some k -> nth_error l k = Some f.
Proof.
  revert k. induction l as [|y t IH]; intros k H; cbn [find_pos] in H; [discriminate|].
  destruct (f =? y) eqn:E.
  - inversion H. subst. cbn. f_equal. lia.
  - destruct (find_pos f t) as [k'|]; [|discriminate]. cbn in H. inversion H. subst. cbn. now apply IH.
Qed.

Lemma find_pos_nth f l k : NoDup l -> nth_error l k = Some f -> find_pos f l = Some k.
Proof.
  revert k. induction l as [|y t IH]; intros k Hnd H; [destruct k; discriminate|].
  inversion Hnd as [|y' t' Hy Ht]; subst. cbn [find_pos]. destruct k as [|k]; cbn in H.
  - inversion H. subst. now rewrite Z.eqb_refl.
  - destruct (f =? y) eqn:E.
    + exfalso. apply Hy. assert (f = y) by lia. subst. eapply nth_error_In. exact H.
    + rewrite (IH k Ht H). reflexivity.
Qed.

Lemma in_zenum {A} (l : list A) k s :
  In (k, s) (zenum l) <-> exists n, k = Z.of_nat n /\ nth_error l n = Some s.
Proof.
  unfold zenum.
  assert (G : forall a, In (k, s) (combine (map Z.of_nat (seq a (length l))) l) <->
                        exists n, k = Z.of_nat (a + n) /\ nth_error l n = Some s).
  { induction l as [|y t IH]; intros a; cbn [length seq map combine].
    - split; [intros []|]. intros (n & _ & Hn). destruct n; discriminate.
    - cbn [In]. rewrite IH. split.
      + intros [H|(n & Hk & Hn)].
        * inversion H. subst. exists O. split; [f_equal; lia|reflexivity].
        * exists (S n). split; [rewrite Hk; f_equal; lia|exact Hn].
      + intros (n & Hk & Hn). destruct n as [|n].
        * left. cbn in Hn. inversion Hn. subst. f_equal. f_equal. lia.
        * right. exists n. split; [rewrite Hk; f_equal; lia|exact Hn]. }
  rewrite (G O). split; intros (n & Hk & Hn); exists n; (split; [rewrite Hk; f_equal|exact Hn]).
Qed.

Lemma map_fst_zenum {A} (l : list A) : map fst (zenum l) = map Z.of_nat (seq 0 (length l)).
Proof. apply map_fst_combine. now rewrite map_length, seq_length. Qed.

(* for every order: wf is not needed *)
Section Rows.
Variable lat : lattice.

Let N := nsites lat.

Lemma nth_bound k (s : site) : nth_error (lorder lat) k = Some s -> 0 <= Z.of_nat k < N.
Proof.
  intros H. pose proof (nth_error_some_lt _ _ _ H). unfold N, nsites. lia.
Qed.

Lemma nth_total i : 0 <= i < N -> exists s, nth_error (lorder lat) (Z.to_nat i) = Some s.
Proof.
  intros Hi. destruct (nth_error (lorder lat) (Z.to_nat i)) eqn:E; [eauto|].
  apply nth_error_None in E. unfold N, nsites in Hi. lia.
Qed.

Lemma nonempty_pos : lorder lat <> [] -> 0 < N.
Proof. unfold N, nsites. destruct (lorder lat); [congruence|cbn [length]; lia]. Qed.

Lemma m2l_nth k s : nth_error (lorder lat) k = Some s -> mps2lat lat (Z.of_nat k) = Some s.
Proof.
  intros Hk. pose proof (nth_bound _ _ Hk) as Hb. unfold mps2lat. fold N. destruct (infinite lat).
  - rewrite Z.mod_small, Nat2Z.id, Hk by lia. destruct s as [[x0 xr] u].
    rewrite Z.sub_diag, Z.mul_0_l, Zdiv_0_l, Z.add_0_r. reflexivity.
  - replace ((0 <=? Z.of_nat k) && (Z.of_nat k <? N)) with true by lia. now rewrite Nat2Z.id.
Qed.

Lemma mps2lat_at k m x0 xr u : nth_error (lorder lat) k = Some (x0, xr, u) -> infinite lat = true \/ m = 0 ->
  mps2lat lat (Z.of_nat k + m * N) = Some (x0 + m * L0 lat, xr, u).
Proof.
  intros Hk Hm. pose proof (nth_bound _ _ Hk) as Hb. destruct Hm as [Hi| ->].
  - unfold mps2lat. rewrite Hi. fold N.
    rewrite Z.mod_add, Z.mod_small, Nat2Z.id, Hk, div_cells by lia. reflexivity.
  - rewrite !Z.mul_0_l, !Z.add_0_r. now apply m2l_nth.
Qed.

Lemma mps2lat_inv i X0 xr u : mps2lat lat i = Some (X0, xr, u) ->
  exists k m x0, i = Z.of_nat k + m * N /\ X0 = x0 + m * L0 lat /\
                 nth_error (lorder lat) k = Some (x0, xr, u) /\ (infinite lat = true \/ m = 0).
Proof.
  intros H. pose proof H as H0. unfold mps2lat in H0. fold N in H0. destruct (infinite lat) eqn:Hi.
  - destruct (nth_error (lorder lat) (Z.to_nat (i mod N))) as [[[x0 xr'] u']|] eqn:E; [|discriminate].
    assert (Ei : i = Z.of_nat (Z.to_nat (i mod N)) + i / N * N) by (pose proof (nth_bound _ _ E); lia).
    pose proof (mps2lat_at _ (i / N) _ _ _ E (or_introl Hi)) as H2. rewrite <- Ei, H in H2. inversion H2. subst.
    exists (Z.to_nat (i mod N)), (i / N), x0. auto.
  - destruct ((0 <=? i) && (i <? N)) eqn:Ei; [|discriminate].
    exists (Z.to_nat i), 0, X0. split; [lia|]. split; [lia|auto].
Qed.

Lemma mps2lat_total i : (if infinite lat then lorder lat <> [] else 0 <= i < N) -> exists s, mps2lat lat i = Some s.
Proof.
  intros Hi. unfold mps2lat. fold N. destruct (infinite lat).
  - destruct (nth_total (i mod N)) as ([[x0 xr] u] & ->); [apply Z.mod_pos_bound, nonempty_pos, Hi|eauto].
  - replace ((0 <=? i) && (i <? N)) with true by lia. now apply nth_total.
Qed.

Lemma mps2lat_translate : infinite lat = true -> forall i X0 xr u m,
  mps2lat lat i = Some (X0, xr, u) -> mps2lat lat (i + m * N) = Some (X0 + m * L0 lat, xr, u).
Proof.
  intros Hi i X0 xr u m H. destruct (mps2lat_inv _ _ _ _ H) as (k & m' & x0 & -> & -> & Hk & _).
  replace (Z.of_nat k + m' * N + m * N) with (Z.of_nat k + (m' + m) * N) by ring.
  rewrite (mps2lat_at _ (m' + m) _ _ _ Hk (or_introl Hi)). f_equal. f_equal. f_equal. ring.
Qed.

End Rows.

Lemma connected_inf lat x0 xr dx0 dxr y0 yr : infinite lat = true ->
  (connected lat x0 xr dx0 dxr y0 yr <->
   exists tot, conn_rest (Lr lat) (openr lat) (shiftr lat) xr dxr yr tot /\ x0 + dx0 - tot = y0).
Proof.
  intros Hi. split.
  - intros (tot & k0 & HC & He & Hk). rewrite (Hk (or_intror Hi)) in He. exists tot. split; [exact HC|lia].
  - intros (tot & HC & He). exists tot, 0. split; [exact HC|]. split; [lia|reflexivity].
Qed.

Lemma connected_translate lat x0 xr dx0 dxr y0 yr m :
  connected lat x0 xr dx0 dxr y0 yr ->
  connected lat (x0 + m * L0 lat) xr dx0 dxr (y0 + m * L0 lat) yr.
Proof.
  intros (tot & k0 & Hr & He & Hk). exists tot, k0. split; [exact Hr|]. split; [lia|exact Hk].
Qed.

Lemma op_at_translate lat : infinite lat = true -> forall b0 br o i z,
  op_at lat b0 br o i -> op_at lat (b0 + z * L0 lat) br o (i + z * nsites lat).
Proof.
  intros Hi b0 br [[dx0 dxr] u] i z (y0 & yr & Hm & HC).
  exists (y0 + z * L0 lat), yr. split; [now apply mps2lat_translate|now apply connected_translate].
Qed.

Lemma wrap1_spec L o x d y k : 0 < L ->
  (wrap1 L o x d = Some (y, k) <-> (0 <= y < L /\ x + d = y + k * L /\ (o = true -> k = 0))).
Proof.
  intros HL. unfold wrap1. split.
  - destruct (o && negb (x + d =? (x + d) mod L)) eqn:E; [discriminate|]. intros H. inversion H. subst y k.
    destruct (mod_unique_k L ((x + d) mod L) ((x + d) / L) (x + d)) as (_ & ->); [lia|lia|].
    split; [lia|]. split; [lia|]. intros ->. cbn in E. apply Z.div_small. lia.
  - intros (Hy & He & Ho). destruct (mod_unique_k L y k (x + d) Hy He) as (-> & ->).
    destruct o; cbn [andb negb]; [|reflexivity].
    rewrite (Ho eq_refl) in He. replace (x + d =? y) with true by lia. reflexivity.
Qed.

Lemma wrap_rest_spec Ls : Forall (fun L => 0 < L) Ls -> forall os ss xs ds ys tot,
  wrap_rest Ls os ss xs ds = Some (ys, tot) <-> conn_rest Ls os ss xs ds ys tot.
Proof.
  intros HLs os ss xs ds ys tot. split.
  - revert os ss xs ds ys tot. induction HLs as [|L Ls HL HLs IH]; intros os ss xs ds ys tot H.
    + destruct os, ss, xs, ds; cbn in H; try discriminate. inversion H. constructor.
    + destruct os as [|o os], ss as [|s ss], xs as [|x xs], ds as [|d ds]; cbn [wrap_rest] in H; try discriminate.
      destruct (wrap1 L o x d) as [[y k]|] eqn:E1; [|discriminate].
      destruct (wrap_rest Ls os ss xs ds) as [[ys' tot']|] eqn:E2; [|discriminate].
      inversion H. subst. apply wrap1_spec in E1; [|exact HL]. destruct E1 as (Hy & He & Ho).
      constructor; auto.
  - intros HC. induction HC as [|L o s x d y k Ls os ss xs ds ys tot Hy He Ho HC IH]; [reflexivity|].
    inversion HLs as [|L' Ls' HL HLs']; subst. cbn [wrap_rest].
    rewrite (proj2 (wrap1_spec L o x d y k HL)) by auto. rewrite (IH HLs'). reflexivity.
Qed.

Lemma conn_rest_box Ls os ss xs ds ys tot :
  conn_rest Ls os ss xs ds ys tot -> Forall2 (fun x L => 0 <= x < L) ys Ls.
Proof. induction 1; constructor; auto. Qed.

Lemma conn_rest_lengths Ls os ss xs ds ys tot : conn_rest Ls os ss xs ds ys tot ->
  length os = length Ls /\ length ss = length Ls /\ length xs = length Ls /\ length ds = length Ls /\
  length ys = length Ls.
Proof. induction 1; cbn [length]; [tauto|]. intuition congruence. Qed.

Lemma conn_rest_compose Ls os ss bs ms cs T : conn_rest Ls os ss bs ms cs T ->
  forall ds ys tot, conn_rest Ls os ss bs ds ys tot -> conn_rest Ls os ss cs (zip2 Z.sub ds ms) ys (tot - T).
Proof.
  induction 1 as [|L o s b m c k1 Ls os ss bs ms cs T Hc He1 Ho1 HC IH]; intros ds' ys' tot' H2.
  - inversion H2; subst. exact H2.
  - inversion H2 as [|? ? ? ? d y k2 ? ? ? ? ds ys tot Hy He2 Ho2 HC2]; subst. cbn [zip2].
    replace (k2 * s + tot - (k1 * s + T)) with ((k2 - k1) * s + (tot - T)) by ring.
    constructor; [exact Hy|lia|intros Ht; rewrite (Ho1 Ht), (Ho2 Ht); reflexivity|now apply IH].
Qed.

Lemma conn_rest_unshift Ls os ss cs ds' ys tot : conn_rest Ls os ss cs ds' ys tot ->
  forall ds ms, length ds = length Ls -> length ms = length Ls -> ds' = zip2 Z.sub ds ms ->
  conn_rest Ls os ss (zip2 Z.sub cs ms) ds ys tot.
Proof.
  induction 1 as [|L o s x d' y k Ls os ss xs ds' ys tot Hy He Ho HC IH]; intros [|d ds] [|m ms] Hd Hm E;
    try discriminate; cbn [zip2] in *; [constructor|].
  inversion E. subst d'. cbn in Hd, Hm. constructor; [exact Hy|lia|exact Ho|]. apply IH; [lia|lia|assumption].
Qed.

Lemma conn_rest_refl : forall Ls os ss xs,
  Forall2 (fun x L => 0 <= x < L) xs Ls -> length os = length Ls -> length ss = length Ls ->
  conn_rest Ls os ss xs (repeat 0 (length Ls)) xs 0.
Proof.
  intros Ls os ss xs H. revert os ss.
  induction H as [|x L xs Ls Hx HB IH]; intros os ss Ho Hs.
  - destruct os; [|discriminate]. destruct ss; [|discriminate]. cbn. constructor.
  - destruct os as [|o os]; [discriminate|]. destruct ss as [|s ss]; [discriminate|].
    cbn [length repeat].
    assert (Hc : conn_rest (L :: Ls) (o :: os) (s :: ss) (x :: xs) (0 :: repeat 0 (length Ls)) (x :: xs) (0 * s + 0)).
    { constructor; [lia|lia|reflexivity|]. apply IH; cbn in Ho, Hs; lia. }
    replace (0 * s + 0) with 0 in Hc by lia. exact Hc.
Qed.

Lemma conn_rest_sym : forall Ls os ss xs ds ys tot,
  conn_rest Ls os ss xs ds ys tot -> Forall2 (fun x L => 0 <= x < L) xs Ls ->
  conn_rest Ls os ss ys (map Z.opp ds) xs (- tot).
Proof.
  intros Ls os ss xs ds ys tot H. induction H as [|L o s x d y k Ls os ss xs ds ys tot Hy He Ho Hr IH]; intros HB.
  - cbn. constructor.
  - inversion HB as [|? ? ? ? Hx HB']; subst. cbn [map].
    replace (- (k * s + tot)) with ((- k) * s + (- tot)) by lia.
    constructor; [lia|lia|intros Ht; specialize (Ho Ht); lia|now apply IH].
Qed.

Lemma conn_rest_zero_shape Ls os ss xs ds ys tot :
  conn_rest Ls os ss xs ds ys tot -> Forall2 (fun x L => 0 <= x < L) xs Ls ->
  existsb (fun s => s =? 0) (zip3 cshape1 Ls os ds) = true -> False.
Proof.
  induction 1 as [|L o s x d y k Ls os ss xs ds ys tot Hy He Ho HC IH]; intros HB Hz; [discriminate|].
  inversion HB as [|x' L' xs' Ls' Hx HB']; subst. cbn [zip3 existsb] in Hz.
  apply orb_true_iff in Hz. destruct Hz as [Hz|Hz]; [|now apply IH].
  unfold cshape1 in Hz. destruct o.
  - rewrite (Ho eq_refl) in He. lia.
  - lia.
Qed.

Lemma conn_rest_noshift Ls os ss xs ds ys tot :
  conn_rest Ls os ss xs ds ys tot -> Forall (fun s => s = 0) ss -> tot = 0.
Proof.
  induction 1 as [|L o s x d y k Ls os ss xs ds ys tot Hy He Ho HC IH]; intros Hs; [reflexivity|].
  inversion Hs; subst. rewrite IH by assumption. lia.
Qed.

Section Index.
Variable lat : lattice.
Hypothesis Hwf : wf lat.

Let N := nsites lat.

Lemma nth_in_box k s : nth_error (lorder lat) k = Some s -> site_in_box lat s.
Proof.
  intros H. pose proof (wf_box lat Hwf) as HB. rewrite Forall_forall in HB. apply HB.
  eapply nth_error_In. exact H.
Qed.

Lemma lookup_of_nth k s : nth_error (lorder lat) k = Some s -> perm_lookup lat s = Some (Z.of_nat k).
Proof.
  intros H. unfold perm_lookup.
  rewrite (find_pos_nth (flat lat s) (map (flat lat) (lorder lat)) k); [reflexivity| |].
  - apply NoDup_map_in; [|apply (wf_nodup lat Hwf)].
    pose proof (wf_box lat Hwf) as HB. rewrite Forall_forall in HB.
    intros a b Ha Hb. apply flat_inj; now apply HB.
  - rewrite nth_error_map, H. reflexivity.
Qed.

Lemma nth_of_lookup s i : site_in_box lat s -> perm_lookup lat s = Some i ->
  0 <= i < N /\ nth_error (lorder lat) (Z.to_nat i) = Some s.
Proof.
  intros HB H. unfold perm_lookup in H.
  destruct (find_pos (flat lat s) (map (flat lat) (lorder lat))) as [k|] eqn:E; [|discriminate].
  cbn in H. inversion H. subst i. apply find_pos_some in E. rewrite nth_error_map in E.
  destruct (nth_error (lorder lat) k) as [s2|] eqn:E2; [|discriminate]. cbn in E. inversion E as [He].
  assert (s2 = s).
  { apply (flat_inj lat); [eapply nth_in_box; exact E2|exact HB|exact He]. }
  subst. rewrite Nat2Z.id. split; [eapply nth_bound|]; exact E2.
Qed.

Lemma inf_nsites_pos : infinite lat = true -> 0 < N.
Proof. intros Hi. apply nonempty_pos, (wf_inf lat Hwf Hi). Qed.

Lemma inf_periodic : infinite lat = true -> open0 lat = false.
Proof. intros Hi. apply (wf_inf lat Hwf Hi). Qed.

Lemma open_finite : open0 lat = true -> infinite lat = false.
Proof. intros Ho. destruct (infinite lat) eqn:Hi; [|reflexivity]. rewrite (inf_periodic Hi) in Ho. discriminate. Qed.

Lemma lat2mps_at k m x0 xr u : nth_error (lorder lat) k = Some (x0, xr, u) -> infinite lat = true \/ m = 0 ->
  lat2mps lat (x0 + m * L0 lat, xr, u) = Some (Z.of_nat k + m * N).
Proof.
  intros Hk Hm. pose proof (wf_L0 lat Hwf) as HL. destruct (nth_in_box _ _ Hk) as (Hx0 & _).
  unfold lat2mps. destruct (infinite lat).
  - fold N. rewrite Z.mod_add, Z.mod_small, div_cells by lia.
    replace (x0 + m * L0 lat - (x0 + m * L0 lat - x0)) with x0 by ring.
    rewrite (lookup_of_nth _ _ Hk). reflexivity.
  - destruct Hm as [Hm| ->]; [discriminate|]. rewrite !Z.mul_0_l, !Z.add_0_r. now apply lookup_of_nth.
Qed.

Lemma site_exists_at k m x0 xr u : nth_error (lorder lat) k = Some (x0, xr, u) -> infinite lat = true \/ m = 0 ->
  site_exists lat (x0 + m * L0 lat, xr, u).
Proof.
  intros Hk Hm. pose proof (wf_L0 lat Hwf) as HL. destruct (nth_in_box _ _ Hk) as (Hx0 & _).
  cbn [site_exists]. destruct (infinite lat).
  - rewrite Z.mod_add by lia. rewrite Z.mod_small by lia. eapply nth_error_In. exact Hk.
  - destruct Hm as [Hm| ->]; [discriminate|]. rewrite Z.mul_0_l, Z.add_0_r. eapply nth_error_In. exact Hk.
Qed.

Lemma site_exists_inv X0 xr u : site_exists lat (X0, xr, u) ->
  exists k m x0, X0 = x0 + m * L0 lat /\ nth_error (lorder lat) k = Some (x0, xr, u) /\ (infinite lat = true \/ m = 0).
Proof.
  cbn [site_exists]. intros HE. apply In_nth_error in HE. destruct HE as (k & Hk). destruct (infinite lat).
  - exists k, (X0 / L0 lat), (X0 mod L0 lat). split; [pose proof (wf_L0 lat Hwf); lia|auto].
  - exists k, 0, X0. split; [lia|auto].
Qed.

Lemma index_inverse :
  (forall i s, mps2lat lat i = Some s -> lat2mps lat s = Some i /\ site_exists lat s) /\
  (forall s i, site_exists lat s -> lat2mps lat s = Some i -> mps2lat lat i = Some s) /\
  (forall i, (if infinite lat then True else 0 <= i < N) -> exists s, mps2lat lat i = Some s) /\
  (forall s, site_exists lat s -> exists i, lat2mps lat s = Some i).
Proof.
  split; [|split; [|split]].
  - intros i [[X0 xr] u] H. destruct (mps2lat_inv lat _ _ _ _ H) as (k & m & x0 & -> & -> & Hk & Hm).
    split; [now apply lat2mps_at|now apply (site_exists_at k)].
  - intros [[X0 xr] u] i HE H. destruct (site_exists_inv _ _ _ HE) as (k & m & x0 & -> & Hk & Hm).
    rewrite (lat2mps_at _ _ _ _ _ Hk Hm) in H. inversion H. now apply mps2lat_at.
  - intros i Hi. apply mps2lat_total. destruct (infinite lat) eqn:E; [apply (wf_inf lat Hwf E)|exact Hi].
  - intros [[X0 xr] u] HE. destruct (site_exists_inv _ _ _ HE) as (k & m & x0 & -> & Hk & Hm).
    rewrite (lat2mps_at _ _ _ _ _ Hk Hm). eauto.
Qed.

Lemma index_injective :
  (forall i j s, mps2lat lat i = Some s -> mps2lat lat j = Some s -> i = j) /\
  (forall s t i, site_exists lat s -> site_exists lat t ->
     lat2mps lat s = Some i -> lat2mps lat t = Some i -> s = t).
Proof.
  destruct index_inverse as (H1 & H2 & _ & _). split.
  - intros i j s Hi Hj. destruct (H1 i s Hi) as [Ei _]. destruct (H1 j s Hj) as [Ej _]. congruence.
  - intros s t i Hs Ht Es Et. pose proof (H2 s i Hs Es) as A. pose proof (H2 t i Ht Et) as B. congruence.
Qed.

Lemma m2l_box i X0 xr u : mps2lat lat i = Some (X0, xr, u) ->
  Forall2 (fun x L => 0 <= x < L) xr (Lr lat) /\ (infinite lat = false -> 0 <= X0 < L0 lat).
Proof.
  intros H. destruct (mps2lat_inv lat _ _ _ _ H) as (k & m & x0 & _ & -> & Hk & Hm).
  destruct (nth_in_box _ _ Hk) as (Hx & Hr & _). split; [exact Hr|].
  intros Hf. destruct Hm as [Hm| ->]; [congruence|lia].
Qed.

(* q is the winding number along x_0 (the number of MPS unit cells for an infinite MPS) *)
Lemma target_spec x0 xr dx0 dxr sh0 y0 yr :
  target lat x0 xr dx0 dxr = Some (sh0, y0, yr) <->
  exists tot q, conn_rest (Lr lat) (openr lat) (shiftr lat) xr dxr yr tot /\
                sh0 = x0 + dx0 - tot /\ 0 <= y0 < L0 lat /\ sh0 = y0 + q * L0 lat /\ (open0 lat = true -> q = 0).
Proof.
  unfold target. pose proof (wf_L0 lat Hwf) as HL. split.
  - destruct (wrap_rest (Lr lat) (openr lat) (shiftr lat) xr dxr) as [[yr' tot]|] eqn:E; [|discriminate].
    destruct (open0 lat && negb (x0 + dx0 - tot =? (x0 + dx0 - tot) mod L0 lat)) eqn:E2; [discriminate|].
    intros H. inversion H. subst. exists tot, ((x0 + dx0 - tot) / L0 lat).
    split; [apply (wrap_rest_spec _ (wf_Lr lat Hwf)), E|].
    split; [reflexivity|]. split; [lia|]. split; [lia|].
    intros Ho. rewrite Ho in E2. cbn in E2. apply Z.div_small. lia.
  - intros (tot & q & HC & -> & Hy & Hq & Ho).
    rewrite (proj2 (wrap_rest_spec _ (wf_Lr lat Hwf) _ _ _ _ _ _) HC).
    destruct (mod_unique_k (L0 lat) y0 q _ Hy Hq) as (-> & _).
    destruct (open0 lat); cbn [andb]; [|reflexivity].
    rewrite (Ho eq_refl) in Hq. replace (x0 + dx0 - tot =? y0) with true by lia. reflexivity.
Qed.

Lemma reach_inv x0 xr dx0 dxr u sh0 y0 yr j0 : 0 <= u < Lu lat ->
  target lat x0 xr dx0 dxr = Some (sh0, y0, yr) -> perm_lookup lat (y0, yr, u) = Some j0 ->
  exists n tot q, j0 = Z.of_nat n /\ nth_error (lorder lat) n = Some (y0, yr, u) /\
     conn_rest (Lr lat) (openr lat) (shiftr lat) xr dxr yr tot /\
     x0 + dx0 - tot = y0 + q * L0 lat /\ (open0 lat = true -> q = 0) /\ sh0 = y0 + q * L0 lat.
Proof.
  intros Hu Et El. apply target_spec in Et. destruct Et as (tot & q & HC & Hsh & Hy & Hq & Ho).
  assert (HB : site_in_box lat (y0, yr, u)).
  { split; [exact Hy|]. split; [eapply conn_rest_box; exact HC|exact Hu]. }
  destruct (nth_of_lookup _ _ HB El) as (Hj0 & Hn).
  exists (Z.to_nat j0), tot, q. rewrite <- Hsh. split; [lia|auto 6].
Qed.

Lemma reach_at x0 xr dx0 dxr u y0 yr n tot q : nth_error (lorder lat) n = Some (y0, yr, u) ->
  conn_rest (Lr lat) (openr lat) (shiftr lat) xr dxr yr tot ->
  x0 + dx0 - tot = y0 + q * L0 lat -> (open0 lat = true -> q = 0) ->
  target lat x0 xr dx0 dxr = Some (x0 + dx0 - tot, y0, yr) /\ perm_lookup lat (y0, yr, u) = Some (Z.of_nat n).
Proof.
  intros Hn HC Hq Ho. destruct (nth_in_box _ _ Hn) as (Hy & _).
  split; [apply target_spec; exists tot, q; auto 6|now apply lookup_of_nth].
Qed.

(* op_at in the terms of the code: a row n of the order, the winding q *)
Lemma op_at_spec x0 xr dx0 dxr u j :
  op_at lat x0 xr (dx0, dxr, u) j <->
  exists n tot q y0 yr, nth_error (lorder lat) n = Some (y0, yr, u) /\
     conn_rest (Lr lat) (openr lat) (shiftr lat) xr dxr yr tot /\
     x0 + dx0 - tot = y0 + q * L0 lat /\ (open0 lat = true -> q = 0) /\
     j = Z.of_nat n + (if infinite lat then q * N else 0).
Proof.
  cbn [op_at]. split.
  - intros (Y0 & yr & Hm & (tot & k0 & HC & He & Hk0)).
    destruct (mps2lat_inv lat _ _ _ _ Hm) as (n & m & y0 & -> & -> & Hn & Hm').
    exists n, tot, (m + k0), y0, yr. split; [exact Hn|]. split; [exact HC|]. split; [lia|].
    destruct (infinite lat) eqn:Hi.
    + rewrite (Hk0 (or_intror eq_refl)). rewrite (inf_periodic Hi). split; [discriminate|]. fold N. lia.
    + destruct Hm' as [Hm'| ->]; [discriminate|]. split; [|lia]. intros Ho. rewrite (Hk0 (or_introl Ho)). lia.
  - intros (n & tot & q & y0 & yr & Hn & HC & He & Ho & ->). destruct (infinite lat) eqn:Hi.
    + exists (y0 + q * L0 lat), yr. split; [apply mps2lat_at; auto|].
      exists tot, 0. split; [exact HC|]. split; [lia|reflexivity].
    + exists y0, yr. split; [rewrite Z.add_0_r; now apply m2l_nth|].
      exists tot, q. split; [exact HC|]. split; [exact He|]. intros [Ho'|Hc]; [auto|congruence].
Qed.

End Index.

Section Couplings.
Variable lat : lattice.
Hypothesis Hwf : wf lat.
Variables u1 u2 dx0 : Z.
Variable dxr : list Z.
Hypothesis Hu2 : 0 <= u2 < Lu lat.

Let N := nsites lat.
Let cs := coupling_shape lat dx0 dxr.
Let row := coupling_row lat u1 u2 dx0 dxr cs.

(* what one row of the enumeration yields; jsh, ijs are mps_j_shift, mps_ij_shift of possible_couplings *)
Definition row_out (k : Z) (sh0 y0 j0 : Z) : Z * Z :=
  if infinite lat then
    let jsh := (sh0 - y0) * N / L0 lat in
    let ijs := if jsh <? 0 then - jsh else 0 in (k + ijs, j0 + jsh + ijs)
  else (k, j0).

Lemma coupling_row_eq k x0 xr u :
  coupling_row lat u1 u2 dx0 dxr cs (k, (x0, xr, u)) =
  if u =? u1 then
    match target lat x0 xr dx0 dxr with
    | Some (sh0, y0, yr) =>
        match perm_lookup lat (y0, yr, u2) with
        | Some j0 => [(row_out k sh0 y0 j0, zip3 (fun x d s => (x + Z.min 0 d) mod s) (x0 :: xr) (dx0 :: dxr) cs)]
        | None => []
        end
    | None => []
    end
  else [].
Proof using Type. unfold coupling_row, row_out. destruct (infinite lat); reflexivity. Qed.

Lemma row_in k x0 xr u i j li :
  In (i, j, li) (coupling_row lat u1 u2 dx0 dxr cs (k, (x0, xr, u))) <->
  u = u1 /\ exists sh0 y0 yr j0, target lat x0 xr dx0 dxr = Some (sh0, y0, yr) /\
     perm_lookup lat (y0, yr, u2) = Some j0 /\ (i, j) = row_out k sh0 y0 j0 /\
     li = zip3 (fun x d s => (x + Z.min 0 d) mod s) (x0 :: xr) (dx0 :: dxr) cs.
Proof using Type.
  rewrite coupling_row_eq. split.
  - destruct (u =? u1) eqn:Eu; [|intros []].
    destruct (target lat x0 xr dx0 dxr) as [[[sh0 y0] yr]|]; [|intros []].
    destruct (perm_lookup lat (y0, yr, u2)) as [j0|] eqn:El; [|intros []].
    intros [H|[]]. inversion H. split; [lia|]. exists sh0, y0, yr, j0. auto.
  - intros (-> & sh0 & y0 & yr & j0 & -> & -> & -> & ->). rewrite Z.eqb_refl. now left.
Qed.

Lemma pairs_in i j : existsb (fun s => s =? 0) cs = false ->
  (In (i, j) (coupling_pairs lat u1 u2 dx0 dxr) <->
   exists n x0 xr sh0 y0 yr j0, nth_error (lorder lat) n = Some (x0, xr, u1) /\
     target lat x0 xr dx0 dxr = Some (sh0, y0, yr) /\ perm_lookup lat (y0, yr, u2) = Some j0 /\
     (i, j) = row_out (Z.of_nat n) sh0 y0 j0).
Proof using Type.
  intros Hcs. unfold coupling_pairs, possible_couplings. fold cs. rewrite Hcs.
  rewrite in_map_iff. split.
  - intros ([[i' j'] li] & Hf & Hin). cbn in Hf. inversion Hf. subst i' j'.
    apply in_flat_map in Hin. destruct Hin as ([k [[x0 xr] u]] & Hz & Hrow).
    apply in_zenum in Hz. destruct Hz as (n & -> & Hn).
    apply row_in in Hrow. destruct Hrow as (-> & sh0 & y0 & yr & j0 & Et & El & Hij & _).
    exists n, x0, xr, sh0, y0, yr, j0. auto.
  - intros (n & x0 & xr & sh0 & y0 & yr & j0 & Hn & Et & El & Hij).
    exists (i, j, zip3 (fun x d s => (x + Z.min 0 d) mod s) (x0 :: xr) (dx0 :: dxr) cs). split; [reflexivity|].
    apply in_flat_map. exists (Z.of_nat n, (x0, xr, u1)). split.
    + apply in_zenum. eauto.
    + apply row_in. split; [reflexivity|]. exists sh0, y0, yr, j0. auto.
Qed.

Lemma row_out_fin k sh0 y0 j0 : infinite lat = false -> row_out k sh0 y0 j0 = (k, j0).
Proof using Type. intros Hi. unfold row_out. rewrite Hi. reflexivity. Qed.

(* q: the winding number along x_0; z = ijs / N moves the pair to its representative *)
Lemma row_out_inf k sh0 y0 j0 q : infinite lat = true -> sh0 = y0 + q * L0 lat ->
  exists z, row_out k sh0 y0 j0 = (k + z * N, j0 + q * N + z * N) /\
            (0 <= k < N -> 0 <= j0 < N -> 0 <= Z.min (k + z * N) (j0 + q * N + z * N) < N).
Proof using Hwf.
  intros Hi ->. unfold row_out. rewrite Hi, div_cells by apply (wf_L0 lat Hwf). fold N. destruct (q * N <? 0) eqn:Eq.
  - exists (- q). split; [f_equal; ring|]. intros Hk Hj. assert (q < 0) by nia. assert (- q * N >= N) by nia. lia.
  - exists 0. split; [f_equal; ring|]. lia.
Qed.

Lemma coupled_op_at i j : coupled lat u1 u2 dx0 dxr i j <->
  exists x0 xr, mps2lat lat i = Some (x0, xr, u1) /\ op_at lat x0 xr (dx0, dxr, u2) j /\
                (infinite lat = true -> 0 <= Z.min i j < N).
Proof using Type.
  split.
  - intros (x0 & xr & y0 & yr & Hi & Hj & HC & Hm). exists x0, xr. split; [exact Hi|]. split; [exists y0, yr; auto|exact Hm].
  - intros (x0 & xr & Hi & (y0 & yr & Hj & HC) & Hm). exists x0, xr, y0, yr. auto.
Qed.

Lemma pairs_sound i j : existsb (fun s => s =? 0) cs = false ->
  In (i, j) (coupling_pairs lat u1 u2 dx0 dxr) -> coupled lat u1 u2 dx0 dxr i j.
Proof using Hwf Hu2.
  intros Hcs Hin. apply pairs_in in Hin; [|exact Hcs].
  destruct Hin as (n & x0 & xr & sh0 & y0 & yr & j0 & Hn & Et & El & Hij).
  destruct (reach_inv lat Hwf _ _ _ _ _ _ _ _ _ Hu2 Et El) as (nj & tot & q & -> & Hnj & HC & He & Ho & Hq).
  pose proof (nth_bound _ _ _ Hn) as Hbn. pose proof (nth_bound _ _ _ Hnj) as Hbj. fold N in Hbn, Hbj.
  assert (Hj0 : op_at lat x0 xr (dx0, dxr, u2) (Z.of_nat nj + (if infinite lat then q * N else 0))).
  { apply (op_at_spec lat Hwf). exists nj, tot, q, y0, yr. auto 6. }
  destruct (infinite lat) eqn:Hi.
  - destruct (row_out_inf (Z.of_nat n) sh0 y0 (Z.of_nat nj) q Hi Hq) as (z & E & Hmin).
    rewrite E in Hij. inversion Hij. subst i j.
    apply coupled_op_at. exists (x0 + z * L0 lat), xr. split; [apply mps2lat_at; auto|]. split; [now apply op_at_translate|auto].
  - rewrite (row_out_fin _ _ _ _ Hi) in Hij. inversion Hij. subst i j. rewrite Z.add_0_r in Hj0.
    apply coupled_op_at. exists x0, xr. split; [now apply m2l_nth|]. split; [exact Hj0|congruence].
Qed.

Lemma pairs_complete i j : existsb (fun s => s =? 0) cs = false ->
  coupled lat u1 u2 dx0 dxr i j -> In (i, j) (coupling_pairs lat u1 u2 dx0 dxr).
Proof using Hwf.
  intros Hcs Hc. apply coupled_op_at in Hc. destruct Hc as (X0 & xr & Hmi & Hj & Hmin). apply pairs_in; [exact Hcs|].
  destruct (mps2lat_inv lat _ _ _ _ Hmi) as (n & m & x0 & -> & -> & Hn & Hm).
  apply (op_at_spec lat Hwf) in Hj. destruct Hj as (nj & tot & q & y0 & yr & Hnj & HC & He & Ho & ->). fold N in Hmin |- *.
  pose proof (nth_bound _ _ _ Hn) as Hbn. pose proof (nth_bound _ _ _ Hnj) as Hbj. fold N in Hbn, Hbj.
  (* seen from the row n of the order, the winding number is q - m *)
  assert (Hq : x0 + dx0 - tot = y0 + (q - m) * L0 lat) by lia.
  assert (Ho' : open0 lat = true -> q - m = 0).
  { intros Ho'. rewrite (Ho Ho'). destruct Hm as [Hm| ->]; [|reflexivity]. rewrite (inf_periodic lat Hwf Hm) in Ho'. discriminate. }
  exists n, x0, xr, (x0 + dx0 - tot), y0, yr, (Z.of_nat nj).
  split; [exact Hn|]. rewrite <- and_assoc. split.
  - now apply (reach_at lat Hwf _ _ _ _ _ _ _ _ _ (q - m)).
  - destruct (infinite lat) eqn:Hi.
    + destruct (row_out_inf (Z.of_nat n) _ y0 (Z.of_nat nj) (q - m) Hi Hq) as (z & -> & Hmin').
      specialize (Hmin eq_refl). specialize (Hmin' Hbn Hbj).
      assert (z = m); [|subst z; f_equal; ring].
      assert (z - m = 0); [|lia]. apply (small_multiple _ N). lia.
    + destruct Hm as [Hm| ->]; [discriminate|]. rewrite (row_out_fin _ _ _ _ Hi). f_equal; lia.
Qed.

Lemma row_cases ks : row ks = [] \/ exists e, row ks = [e].
Proof using Type.
  destruct ks as [k [[x0 xr] u]]. unfold row. rewrite coupling_row_eq.
  destruct (u =? u1); [|now left].
  destruct (target lat x0 xr dx0 dxr) as [[[sh0 y0] yr]|]; [|now left].
  destruct (perm_lookup lat (y0, yr, u2)); [|now left]. right; eauto.
Qed.

(* each pair once: the first entry of a pair determines the row of the order it comes from *)
Lemma row_key n s i j li : nth_error (lorder lat) n = Some s -> In (i, j, li) (row (Z.of_nat n, s)) ->
  (if infinite lat then i mod N else i) = Z.of_nat n.
Proof using Hwf.
  intros Hn Hin. destruct s as [[x0 xr] u]. apply row_in in Hin.
  destruct Hin as (_ & sh0 & y0 & yr & j0 & Et & El & Hij & _).
  apply (target_spec lat Hwf) in Et. destruct Et as (tot & q & _ & _ & _ & Hq & _).
  pose proof (nth_bound _ _ _ Hn) as Hbn. fold N in Hbn.
  destruct (infinite lat) eqn:Hi.
  - destruct (row_out_inf (Z.of_nat n) sh0 y0 j0 q Hi Hq) as (z & E & _).
    rewrite E in Hij. inversion Hij. rewrite Z.mod_add by lia. apply Z.mod_small. lia.
  - rewrite (row_out_fin _ _ _ _ Hi) in Hij. now inversion Hij.
Qed.

Lemma pairs_nodup : NoDup (coupling_pairs lat u1 u2 dx0 dxr).
Proof using Hwf.
  unfold coupling_pairs, possible_couplings. fold cs. destruct (existsb (fun s => s =? 0) cs); [constructor|].
  fold row. rewrite map_flat_map. apply nodup_flat_map_inj.
  - intros ks _. destruct (row_cases ks) as [->|(e & ->)]; repeat constructor. intros [].
  - intros [k s] [k' s'] [i j] Hin Hin' Hr Hr'.
    apply in_zenum in Hin. apply in_zenum in Hin'. destruct Hin as (n & -> & Hn). destruct Hin' as (n' & -> & Hn').
    apply in_map_iff in Hr. apply in_map_iff in Hr'.
    destruct Hr as ([[i1 j1] li] & E & Hr). destruct Hr' as ([[i2 j2] li'] & E' & Hr'). cbn in E, E'.
    inversion E. inversion E'. subst.
    assert (n = n') by (apply Nat2Z.inj; rewrite <- (row_key _ _ _ _ _ Hn Hr), <- (row_key _ _ _ _ _ Hn' Hr'); reflexivity).
    subst n'. congruence.
  - apply (NoDup_map_inv fst). rewrite map_fst_zenum.
    apply FinFun.Injective_map_NoDup; [intros a b; lia|apply seq_NoDup].
Qed.

(* the early return: coupling_shape has an entry 0 *)
Lemma empty_shape_no_coupling i j :
  (open0 lat = true -> Forall (fun s => s = 0) (shiftr lat) \/ Z.abs dx0 < L0 lat) ->
  existsb (fun s => s =? 0) cs = true -> ~ coupled lat u1 u2 dx0 dxr i j.
Proof using Hwf.
  intros Hsh Hz (X0 & xr & Y0 & yr & Hmi & Hmj & (tot & k0 & HC & He & Hk0) & _).
  destruct (m2l_box lat Hwf _ _ _ _ Hmi) as (HBx & HX). destruct (m2l_box lat Hwf _ _ _ _ Hmj) as (_ & HY).
  unfold cs, coupling_shape in Hz. cbn [zip3 existsb] in Hz. apply orb_true_iff in Hz.
  pose proof (wf_L0 lat Hwf) as HL. destruct Hz as [Hz|Hz].
  - unfold cshape1 in Hz. destruct (open0 lat) eqn:Ho; [|lia].
    pose proof (open_finite lat Hwf Ho) as Hf.
    destruct (Hsh eq_refl) as [Hs|Hs]; [|lia].
    rewrite (conn_rest_noshift _ _ _ _ _ _ _ HC Hs) in He. rewrite (Hk0 (or_introl eq_refl)) in He.
    specialize (HX Hf). specialize (HY Hf). lia.
  - eapply conn_rest_zero_shape; eauto.
Qed.

Lemma couplings_exact :
  (open0 lat = true -> Forall (fun s => s = 0) (shiftr lat) \/ Z.abs dx0 < L0 lat) ->
  NoDup (coupling_pairs lat u1 u2 dx0 dxr) /\
  forall i j, In (i, j) (coupling_pairs lat u1 u2 dx0 dxr) <-> coupled lat u1 u2 dx0 dxr i j.
Proof using Hwf Hu2.
  intros Hsh. split; [apply pairs_nodup|]. intros i j.
  destruct (existsb (fun s => s =? 0) cs) eqn:Hz.
  - split.
    + unfold coupling_pairs, possible_couplings. fold cs. rewrite Hz. intros [].
    + intros HC. exfalso. eapply empty_shape_no_coupling; eauto.
  - split; [now apply pairs_sound|now apply pairs_complete].
Qed.

End Couplings.

(* The restriction on bc_shift in couplings_exact is necessary: finite lattice, open x-direction,
   periodic y-direction with shift 2, dx = (2, 1): (0,1) + (2,1) = (2,2) ~ (0,0) exists, but the
   enumeration (as tenpy's) returns nothing because coupling_shape = (0, 2). *)
Definition shift_witness : lattice :=
  mkLat 2 [2] 1 true [false] [2] false [(0, [0], 0); (0, [1], 0); (1, [0], 0); (1, [1], 0)].

Lemma shift_witness_wf : wf shift_witness.
Proof.
  constructor; cbn; try lia; try discriminate.
  all: repeat constructor; cbn; try lia; try (intuition congruence).
Qed.

Lemma couplings_shift_refuted :
  exists lat u1 u2 dx0 dxr i j, wf lat /\ 0 <= u2 < Lu lat /\
    coupled lat u1 u2 dx0 dxr i j /\ coupling_pairs lat u1 u2 dx0 dxr = [].
Proof.
  exists shift_witness, 0, 0, 2, [1], 1, 0. split; [apply shift_witness_wf|]. split; [cbn; lia|]. split.
  - exists 0, [1], 0, [0]. split; [reflexivity|]. split; [reflexivity|]. split.
    + exists (1 * 2 + 0), 0. split.
      * apply (conn_cons 2 false 2 1 1 0 1); [lia|lia|discriminate|constructor].
      * split; [cbn; lia|reflexivity].
    + discriminate.
  - vm_compute. reflexivity.
Qed.
