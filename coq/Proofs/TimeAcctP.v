(* Property C14, accounting (Model/TimeAcct.v): a class that adds a counter k times per run reports k times the true
   total after any history; the classes of the regenerated table Gen/G_acct.v all have k = 1. *)
From TenpyV Require Import Base.Prelude Gen.G_acct Model.TimeAcct.
Open Scope Z_scope.

Lemma sumZ_concat (l : list (list Z)) : sumZ (concat l) = sumZ (map sumZ l).
Proof. induction l as [|x t IH]; cbn [concat map sumZ]; [reflexivity|]. rewrite sumZ_app, IH. reflexivity. Qed.

(* the loop of a class with run_loops c = true: TimeDependentHAlgorithm.run_evolution calls evolve(1, dt) once per time
   step (the model is updated in between); the other classes call evolve(N_steps, dt) once *)
Lemma loop_fold c dt errs : forall s tot,
  let r := fold_left (fun (st : acct * Z) es =>
                        let r1 := evolve_call c (fst st) 1 dt es in (fst r1, snd st + snd r1)) errs (s, tot) in
  a_time (fst r) = a_time s + Z.of_nat (ev_time_adds c) * (Z.of_nat (length errs) * dt) /\
  a_eps (fst r) = a_eps s + Z.of_nat (ev_err_adds c) * sumZ (map sumZ errs) /\
  snd r = tot + sumZ (map sumZ errs).
Proof.
  induction errs as [|es t IH]; intros s tot; cbn [fold_left length map sumZ fst snd].
  - repeat split; lia.
  - specialize (IH (fst (evolve_call c s 1 dt es)) (tot + snd (evolve_call c s 1 dt es))).
    cbn zeta in IH. destruct IH as [H1 [H2 H3]]. rewrite H1, H2, H3.
    unfold evolve_call. cbn [fst snd a_time a_eps]. rewrite Nat2Z.inj_succ. repeat split; lia.
Qed.

Lemma run_evolution_counts c s n dt errs : well_formed_call (n, dt, errs) ->
  a_time (run_evolution c s n dt errs) = a_time s + Z.of_nat (ev_time_adds c + run_time_adds c) * (n * dt) /\
  a_eps (run_evolution c s n dt errs) = a_eps s + Z.of_nat (ev_err_adds c + run_err_adds c) * sumZ (map sumZ errs).
Proof.
  unfold well_formed_call. cbn [fst snd]. intros Hwf. rewrite !Nat2Z.inj_add.
  unfold run_evolution. destruct (run_loops c).
  - destruct (loop_fold c dt errs s 0) as [H1 [H2 H3]]. cbn zeta in H1, H2, H3.
    cbn [a_time a_eps]. rewrite H1, H2, H3, Hwf. split; lia.
  - unfold evolve_call. cbn [fst snd a_time a_eps]. rewrite sumZ_concat. split; lia.
Qed.

Lemma run_history_counts c h : Forall well_formed_call h -> forall s,
  a_time (run_history c s h) = a_time s + Z.of_nat (ev_time_adds c + run_time_adds c) * total_time h /\
  a_eps (run_history c s h) = a_eps s + Z.of_nat (ev_err_adds c + run_err_adds c) * total_err h.
Proof.
  induction 1 as [|r t Hr _ IH]; intros s; unfold run_history, total_time, total_err in *;
    cbn [fold_left map sumZ]; [split; lia|].
  destruct r as [[n dt] errs]. cbn [fst snd].
  destruct (IH (run_evolution c s n dt errs)) as [H1 H2]. rewrite H1, H2.
  destruct (run_evolution_counts c s n dt errs Hr) as [H3 H4]. rewrite H3, H4. split; lia.
Qed.

Lemma run_history_exact c h : single_add c = true -> Forall well_formed_call h -> forall s,
  a_time (run_history c s h) = a_time s + total_time h /\
  a_eps (run_history c s h) = a_eps s + total_err h.
Proof.
  unfold single_add. intros H Hwf s. apply andb_prop in H. destruct H as [He Ht]. apply Nat.eqb_eq in He, Ht.
  destruct (run_history_counts c h Hwf s) as [H1 H2]. rewrite H1, H2, He, Ht. split; lia.
Qed.

Lemma engines_single_add : forallb single_add engines = true.
Proof. vm_compute. reflexivity. Qed.
