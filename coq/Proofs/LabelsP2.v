(* _conj_leg_label on the label trees of Model/LabelGrammar.v: the two phases of the code's algorithm (star_atoms, then rm2) are
   followed over a tree one after the other, through the intermediate string render1. *)
From TenpyV Require Import Base.Prelude Base.Lists Model.Labels Model.LabelGrammar Proofs.LabelsP.
From Coq Require Import Ascii.
Open Scope char_scope.

Section LtreeInd.
  Variable P : ltree -> Prop.
  Hypothesis Hatom : forall a st, P (LAtom a st).
  Hypothesis Hpipe : forall ts, Forall P ts -> P (LPipe ts).
  Fixpoint ltree_ind2 (t : ltree) : P t :=
    match t with
    | LAtom a st => Hatom a st
    | LPipe ts => Hpipe ts ((fix go (l : list ltree) : Forall P l :=
                               match l with [] => Forall_nil P | x :: r => Forall_cons x (ltree_ind2 x) (go r) end) ts)
    end.
End LtreeInd.

(* the string before '**' is removed: '*' after every atom *)
Fixpoint render1 (t : ltree) : label :=
  match t with
  | LAtom a st => a ++ (if st then ["*"; "*"] else ["*"])
  | LPipe ts => combine_labels (map render1 ts)
  end.

Lemma twf_atom a st : twf (LAtom a st) = true -> a <> [] /\ forallb atom_char a = true.
Proof.
  cbn [twf]. intros H. apply andb_true_iff in H. destruct H as [H1 H2]. split; [|exact H2].
  intros ->. discriminate H1.
Qed.

Lemma twf_pipe ts : twf (LPipe ts) = true -> ts <> [] /\ Forall (fun t => twf t = true) ts.
Proof.
  cbn [twf]. intros H. apply andb_true_iff in H. destruct H as [H1 H2]. split.
  - intros ->. discriminate H1.
  - apply Forall_forall. apply forallb_forall. exact H2.
Qed.

(* the Forall hypothesis is the induction hypothesis of star_atoms_tree for the components of a pipe, handed in (ltree_ind2) *)
Lemma star_atoms_join ts tail : ts <> [] ->
  Forall (fun t => forall p c rest, plain_char c = false -> star_atoms p (render t ++ c :: rest) = render1 t ++ c :: star_atoms c rest) ts ->
  forall q, star_atoms q (join (map render ts) ++ ")" :: tail) = join (map render1 ts) ++ ")" :: star_atoms ")" tail.
Proof.
  induction ts as [|t ts' IHts]; intros Hne HF q; [contradiction|]. inversion HF as [|x y Ht Hts']; subst.
  destruct ts' as [|t2 ts''].
  - cbn [map join]. apply Ht. reflexivity.
  - rewrite !join_map_cons, <- !app_assoc. cbn [app]. rewrite (Ht q ".") by reflexivity. f_equal. f_equal.
    apply IHts; [discriminate|exact Hts'].
Qed.

(* a label followed by a separator c ('.' or ')'): the '*' of the last atom is inserted when the separator is read *)
Lemma star_atoms_tree t : twf t = true -> forall p c rest, plain_char c = false ->
  star_atoms p (render t ++ c :: rest) = render1 t ++ c :: star_atoms c rest.
Proof.
  induction t as [a st|ts IH] using ltree_ind2; intros Hwf p c rest Hc.
  - destruct (twf_atom a st Hwf) as [Hne Ha]. cbn [render render1].
    apply negb_false_iff in Hc.
    rewrite <- !app_assoc. rewrite star_atoms_atomchars by exact Ha.
    pose proof (last_atoms_noclose a p Hne Ha) as Hl.
    destruct st; cbn [app star_atoms Ascii.eqb Bool.eqb orb andb negb].
    + rewrite Hc. cbn [andb]. reflexivity.
    + rewrite Hc, Hl. cbn [andb negb]. reflexivity.
  - destruct (twf_pipe ts Hwf) as [Hne HF]. cbn [render render1]. unfold combine_labels.
    cbn [app star_atoms Ascii.eqb Bool.eqb orb andb]. f_equal.
    rewrite <- !app_assoc. cbn [app]. rewrite star_atoms_join; [|exact Hne|].
    + cbn [star_atoms Ascii.eqb Bool.eqb negb]. rewrite andb_false_r. reflexivity.
    + rewrite Forall_forall in *. intros t Ht. exact (IH t Ht (HF t Ht)).
Qed.

(* in render1 t a starred atom carries two stars and loses both (rm2_star2), an unstarred one keeps its one (rm2_star1); that needs
   the text after the star not to begin with a star (nostar_head), or str.replace would pair the two: after an atom of a label
   stands '.', ')' or the end *)
Lemma rm2_tree t : twf t = true -> forall rest, nostar_head rest -> rm2 (render1 t ++ rest) = render (tconj t) ++ rm2 rest.
Proof.
  induction t as [a st|ts IH] using ltree_ind2; intros Hwf rest Hr.
  - destruct (twf_atom a st Hwf) as [Hne Ha]. cbn [render1 tconj render].
    rewrite <- !app_assoc. rewrite rm2_atoms by exact Ha. f_equal.
    destruct st; cbn [negb app].
    + apply rm2_star2.
    + apply rm2_star1. exact Hr.
  - destruct (twf_pipe ts Hwf) as [Hne HF]. cbn [render1 tconj render]. unfold combine_labels.
    cbn [app]. rewrite rm2_cons_nostar by reflexivity. f_equal.
    rewrite <- !app_assoc, map_map. cbn [app].
    clear Hwf. induction ts as [|t ts' IHts]; [contradiction|].
    inversion IH as [|x y IHt IHts']; subst. inversion HF as [|x y Ht Hts']; subst.
    destruct ts' as [|t2 ts''].
    + cbn [map join]. rewrite (IHt Ht) by reflexivity. f_equal. apply rm2_cons_nostar. reflexivity.
    + rewrite !join_map_cons, <- !app_assoc. cbn [app]. rewrite (IHt Ht) by reflexivity. f_equal.
      rewrite rm2_cons_nostar by reflexivity. f_equal.
      apply IHts; try assumption; discriminate.
Qed.

(* at top level no separator follows: the star of the last atom is appended at the end of the string *)
Lemma conj_label_star t : twf t = true -> conj_label (render t) = rm2 (render1 t).
Proof.
  intros Hwf. destruct t as [a st|ts].
  - destruct (twf_atom a st Hwf) as [Hne Ha]. destruct a as [|c r]; [contradiction|].
    pose proof Ha as Hr. cbn [forallb] in Hr. apply andb_true_iff in Hr. destruct Hr as [_ Hr].
    cbn [render render1 app]. unfold conj_label. rewrite rm_dstar_rm2, star_atoms_atomchars by exact Hr. destruct st.
    + change (c :: r ++ star_atoms (last r c) ["*"]) with ((c :: r) ++ ["*"]). rewrite last_last, <- app_assoc. reflexivity.
    + cbn [star_atoms]. rewrite app_nil_r, (last_atoms_noclose (c :: r)) by (discriminate || exact Ha). reflexivity.
  - destruct (twf_pipe ts Hwf) as [Hne HF]. cbn [render render1]. unfold combine_labels, conj_label.
    rewrite (star_atoms_join ts []); [|exact Hne|].
    2:{ rewrite Forall_forall in *. intros t Ht. apply star_atoms_tree, HF, Ht. }
    cbn [star_atoms].
    change ("(" :: join (map render1 ts) ++ [")"]) with (("(" :: join (map render1 ts)) ++ [")"]).
    rewrite last_last. apply rm_dstar_rm2.
Qed.

Theorem conj_label_tree t : twf t = true -> conj_label (render t) = render (tconj t).
Proof. intros Hwf. rewrite (conj_label_star t Hwf), <- (app_nil_r (render1 t)), (rm2_tree t Hwf [] I). apply app_nil_r. Qed.

Lemma tconj_invol t : tconj (tconj t) = t.
Proof.
  induction t as [a st|ts IH] using ltree_ind2; cbn [tconj].
  - rewrite negb_involutive. reflexivity.
  - f_equal. rewrite map_map. rewrite <- (map_id ts) at 2. apply map_ext_in. intros t Ht.
    rewrite Forall_forall in IH. apply IH. exact Ht.
Qed.

Lemma twf_tconj t : twf t = true -> twf (tconj t) = true.
Proof.
  induction t as [a st|ts IH] using ltree_ind2; cbn [tconj twf]; intros H; [exact H|].
  apply andb_true_iff in H. destruct H as [H1 H2]. rewrite map_length, H1. cbn [andb].
  rewrite forallb_forall in *. intros t Ht. apply in_map_iff in Ht. destruct Ht as [t0 [<- Ht0]].
  rewrite Forall_forall in IH. apply IH; [exact Ht0|]. apply H2. exact Ht0.
Qed.

Lemma scan_render t : twf t = true -> forall d, scan (render t) d = Some d.
Proof.
  induction t as [a st|ts IH] using ltree_ind2; intros Hwf d.
  - destruct (twf_atom a st Hwf) as [_ Ha]. cbn [render]. rewrite (scan_app a _ d d (scan_atoms a d Ha)).
    destruct st; reflexivity.
  - destruct (twf_pipe ts Hwf) as [Hne HF]. cbn [render]. unfold combine_labels.
    cbn [scan Ascii.eqb Bool.eqb]. clear Hwf.
    induction ts as [|t ts' IHts]; [contradiction|].
    inversion IH as [|x y IHt IHts']; subst. inversion HF as [|x y Ht Hts']; subst.
    destruct ts' as [|t2 ts''].
    + cbn [map join]. rewrite (scan_app _ _ _ _ (IHt Ht (S d))). reflexivity.
    + rewrite join_map_cons, <- app_assoc. rewrite (scan_app _ _ _ _ (IHt Ht (S d))). cbn [app scan Ascii.eqb Bool.eqb].
      apply IHts; try assumption; discriminate.
Qed.

Lemma render_wf_label t : twf t = true -> wf_label (render t).
Proof.
  intros H. split; [apply scan_render; exact H|]. destruct t as [a st|ts].
  - destruct (twf_atom a st H) as [Hne _]. cbn [render]. destruct a; [contradiction|discriminate].
  - cbn [render]. unfold combine_labels. discriminate.
Qed.
