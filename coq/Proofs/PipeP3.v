(* C06: the lexicographic order of block tuples, `lex_lt`.  The C-order grid is strictly sorted by it, and so are the rows
   of a pipe that is not sorted by charge. *)
From TenpyV Require Import Base.Prelude Base.Lists Model.Leg Model.Pipe.
Open Scope Z_scope.

(* first leg most significant, as np.lexsort(q_map[:, 3:].T[::-1]); meant for tuples of one length: when one tuple ends
   before the other, neither is below the other *)
Fixpoint lex_lt (a b : list nat) : Prop :=
  match a, b with
  | x :: a', y :: b' => (x < y)%nat \/ (x = y /\ lex_lt a' b')
  | _, _ => False
  end.
Fixpoint lex_ltb (a b : list nat) : bool :=
  match a, b with
  | x :: a', y :: b' => Nat.ltb x y || (Nat.eqb x y && lex_ltb a' b')
  | _, _ => false
  end.

Lemma lex_ltb_spec a : forall b, lex_ltb a b = true <-> lex_lt a b.
Proof.
  induction a as [|x a IH]; intros [|y b]; cbn [lex_ltb lex_lt]; try (split; [discriminate|intros []]).
  rewrite orb_true_iff, andb_true_iff, Nat.ltb_lt, Nat.eqb_eq, IH. reflexivity.
Qed.

Lemma lex_lt_irrefl a : ~ lex_lt a a.
Proof. induction a as [|x a IH]; cbn [lex_lt]; [tauto|]. intros [H|[_ H]]; [lia|exact (IH H)]. Qed.

Lemma lex_lt_trans a : forall b c, lex_lt a b -> lex_lt b c -> lex_lt a c.
Proof.
  induction a as [|x a IH]; intros [|y b] [|z c]; cbn [lex_lt]; try tauto.
  intros [H1|[H1 H1']] [H2|[H2 H2']]; try (left; lia). right. split; [lia|]. eapply IH; eassumption.
Qed.

Lemma ss_weaken {A} (R Q : A -> A -> Prop) l : (forall x y, R x y -> Q x y) -> StronglySorted R l -> StronglySorted Q l.
Proof. intros H. apply ss_weaken_in. intros x y _ _. apply H. Qed.

Lemma grid_lexsorted shape : StronglySorted lex_lt (grid shape).
Proof.
  induction shape as [|n t IH]; cbn [grid]; [repeat constructor|].
  generalize 0%nat. induction n as [|n IHn]; intros s; cbn [seq flat_map]; [constructor|].
  apply ss_app.
  - eapply ss_map; [|exact IH]. intros x y Hxy. cbn [lex_lt]. right. split; [reflexivity|exact Hxy].
  - apply IHn.
  - intros x y Hx Hy. apply in_map_iff in Hx. destruct Hx as (x0 & <- & _).
    apply in_flat_map in Hy. destruct Hy as (i & Hi & Hy). apply in_seq in Hi.
    apply in_map_iff in Hy. destruct Hy as (y0 & <- & _). cbn [lex_lt]. left. lia.
Qed.

Lemma rows0_q ci legs qconj : map r_q (rows0 ci legs qconj) = grid (map nblocks legs).
Proof. unfold rows0. rewrite map_map. cbn [r_q]. apply map_id. Qed.

Lemma pipe_rows_unsorted_lex ci legs qconj : StronglySorted lex_lt (map r_q (pipe_rows ci legs qconj false)).
Proof. unfold pipe_rows. cbn [andb]. rewrite rows0_q. apply grid_lexsorted. Qed.
