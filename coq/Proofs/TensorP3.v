(* outer: the grid of block pairs has no duplicate rows and is lexsorted when both operands are, hence WF.  Under the SUM semantics
   the dense form is the dense outer product block pair by block pair (rows_shape a is all it needs); with WF the same holds under
   the ASSIGNMENT semantics of to_ndarray. *)
From TenpyV Require Import Base.Prelude Base.Lists Model.Charge Model.Tensor Model.TensorOps.
From TenpyV Require Import Proofs.ChargeP Proofs.TensorP Proofs.TensorDotP.
Open Scope Z_scope.

Lemma app_inj_len {A} (x x' y y' : list A) : length x = length x' -> x ++ y = x' ++ y' -> x = x' /\ y = y'.
Proof.
  revert x'. induction x as [|c x IH]; intros [|c' x'] Hl H; cbn [length app] in *; try discriminate.
  - auto.
  - injection H as -> H. destruct (IH x') as [-> ->]; [lia|exact H|]. auto.
Qed.

Definition row_grid (A B : list (list nat)) : list (list nat) :=
  flat_map (fun rb => map (fun ra => ra ++ rb) A) B.

Lemma outer_rows ci a b : rows (outer ci a b) = row_grid (rows a) (rows b).
Proof.
  unfold outer, rows, row_grid. cbn [blks]. rewrite map_flat_map, flat_map_map.
  apply flat_map_ext. intros bb. rewrite !map_map. reflexivity.
Qed.

Lemma row_grid_in A B r : In r (row_grid A B) <-> exists ra rb, r = ra ++ rb /\ In ra A /\ In rb B.
Proof.
  unfold row_grid. rewrite in_flat_map. split.
  - intros [rb [Hb H]]. apply in_map_iff in H. destruct H as [ra [<- Ha]]. exists ra, rb. auto.
  - intros [ra [rb [-> [Ha Hb]]]]. exists rb. split; [exact Hb|]. apply in_map_iff. exists ra. auto.
Qed.

Lemma row_grid_nodup n A B : (forall r, In r A -> length r = n) -> NoDup A -> NoDup B -> NoDup (row_grid A B).
Proof.
  intros HA NA NB. apply nodup_flat_map_inj; [| |exact NB].
  - intros rb _. apply NoDup_map_in; [|exact NA]. intros x y Hx Hy E.
    apply app_inj_len in E; [tauto|]. rewrite (HA x Hx), (HA y Hy). reflexivity.
  - intros rb rb' r _ _ H1 H2. apply in_map_iff in H1, H2. destruct H1 as [ra [<- Ha]], H2 as [ra' [E Ha']].
    apply app_inj_len in E; [symmetry; tauto|]. rewrite (HA ra Ha), (HA ra' Ha'). reflexivity.
Qed.

Lemma row_lt_app_same ra ra' rb : row_lt (ra ++ rb) (ra' ++ rb) = row_lt ra ra'.
Proof. unfold row_lt. rewrite !rev_app_distr, lex_lt_app, lex_lt_irrefl, row_eqb_refl; reflexivity. Qed.

Lemma row_lt_app_lt ra ra' rb rb' : length rb = length rb' -> row_lt rb rb' = true ->
  row_lt (ra ++ rb) (ra' ++ rb') = true.
Proof.
  unfold row_lt. intros Hl H. rewrite !rev_app_distr, lex_lt_app, H by (rewrite !rev_length; exact Hl). reflexivity.
Qed.

Lemma row_grid_ssorted m A B : (forall r, In r B -> length r = m) -> ssorted A -> ssorted B -> ssorted (row_grid A B).
Proof.
  intros HB SA SB. unfold row_grid. induction B as [|rb B IH]; cbn [flat_map]; [exact I|].
  destruct SB as [S1 S2]. apply ssorted_app.
  - apply ssorted_map; [|exact SA]. intros x y _ _ H. rewrite row_lt_app_same. exact H.
  - apply IH; [|exact S2]. intros r Hr. apply HB. right. exact Hr.
  - intros x y Hx Hy. apply in_map_iff in Hx. destruct Hx as [ra [<- Hra]].
    apply (row_grid_in A B) in Hy. destruct Hy as [ra' [rb' [-> [Ha' Hb']]]].
    apply row_lt_app_lt; [|apply S1; exact Hb'].
    rewrite (HB rb (or_introl eq_refl)), (HB rb' (or_intror Hb')). reflexivity.
Qed.

Theorem charge_rule_outer ci a b : WF ci a -> WF ci b -> charge_rule ci (outer ci a b).
Proof.
  intros [Aq As _ Ar _] [Bq _ _ Br _] r Hr.
  rewrite outer_rows in Hr. apply row_grid_in in Hr. destruct Hr as [ra [rb [-> [Ha Hb]]]].
  apply row_ok_outer; try assumption; [apply As|apply Ar|apply Br]; assumption.
Qed.

Theorem wf_outer ci a b : WF ci a -> WF ci b -> WF ci (outer ci a b).
Proof.
  intros Wa Wb. pose proof (charge_rule_outer ci a b Wa Wb) as Hr.
  destruct Wa as [Aq As An Ar Ac], Wb as [Bq Bs Bn Br Bc].
  constructor; [| | |exact Hr|]; unfold rows_shape, claim_truthful; rewrite ?outer_rows.
  - cbn [outer qtot]. auto with vlen.
  - intros r Hi. apply row_grid_in in Hi. destruct Hi as [ra [rb [-> [Ia Ib]]]].
    unfold rank, outer. cbn [legs]. rewrite !app_length, (As ra Ia), (Bs rb Ib). reflexivity.
  - apply (row_grid_nodup (rank a)); assumption.
  - intros H. cbn [outer qsorted] in H. apply andb_true_iff in H. destruct H as [Ha Hb].
    apply strictly_of_ssorted, (row_grid_ssorted (rank b)); [exact Bs|apply ssorted_of_strictly, Ac, Ha|apply ssorted_of_strictly, Bc, Hb].
Qed.

Lemma bval_outer la lb ia ib (ba bb : block) : length (fst ba) = length la -> length ia = length la ->
  oval (bval (la ++ lb) (ia ++ ib) (outer_block (length la) ba bb)) = cmul (oval (bval la ia ba)) (oval (bval lb ib bb)).
Proof.
  intros Hq Hi. unfold outer_block. rewrite bval_app by assumption.
  rewrite (firstn_app_eq (length la)), (skipn_app_eq (length la)) by apply loc_length.
  unfold bval. destruct (inb la (fst ba) ia), (inb lb (fst bb) ib); cbn [andb oval]; rewrite ?cmul_0_l, ?cmul_0_r; reflexivity.
Qed.

(* the product of the two block sums is the sum over the pairs of blocks (csum_mul_csum, as for tensordot), and the grid stores one
   block per pair *)
Theorem outer_dense_sum ci a b ia ib : rows_shape a -> length ia = rank a ->
  dense_sum (outer ci a b) (ia ++ ib) = cmul (dense_sum a ia) (dense_sum b ib).
Proof.
  intros Hs Hi. unfold dense_sum, outer, rank in *. cbn [legs blks]. rewrite !osum_csum, csum_mul_csum, csum_flat_map.
  apply csum_ext. intros bb _. rewrite map_map. apply csum_ext. intros ba Hba.
  apply bval_outer; [apply Hs, in_map, Hba|exact Hi].
Qed.

Corollary outer_dense_app ci a b ia ib : WF ci a -> WF ci b -> length ia = rank a ->
  to_ndarray (outer ci a b) (ia ++ ib) = cmul (to_ndarray a ia) (to_ndarray b ib).
Proof.
  intros Wa Wb Hl. rewrite !(wf_dense ci) by (try apply wf_outer; assumption). apply outer_dense_sum; [apply Wa|exact Hl].
Qed.

Theorem outer_dense ci a b idx : WF ci a -> WF ci b -> (rank a <= length idx)%nat ->
  to_ndarray (outer ci a b) idx = cmul (to_ndarray a (firstn (rank a) idx)) (to_ndarray b (skipn (rank a) idx)).
Proof.
  intros Wa Wb Hl. rewrite <- (firstn_skipn (rank a) idx) at 1. apply outer_dense_app; try assumption.
  rewrite firstn_length. lia.
Qed.

Theorem outer_full ci a b : valid_ci ci -> WF ci a -> WF ci b ->
  WF ci (outer ci a b) /\
  qtot (outer ci a b) = make_valid ci (vadd (qtot a) (qtot b)) /\
  legs (outer ci a b) = legs a ++ legs b /\
  (forall idx, (rank a <= length idx)%nat ->
     to_ndarray (outer ci a b) idx = cmul (to_ndarray a (firstn (rank a) idx)) (to_ndarray b (skipn (rank a) idx))).
Proof.
  intros _ Wa Wb. split; [apply wf_outer; assumption|]. split; [reflexivity|]. split; [reflexivity|].
  intros idx Hl. apply outer_dense; assumption.
Qed.
