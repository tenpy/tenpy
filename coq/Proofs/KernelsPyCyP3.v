(* LegPipe._init_from_legs (Model/KernelsPyCy2.v).  Block sizes and raw charges are a left fold (loops) against a right fold (numpy
   model) of an associative-commutative operation (fold_symmetric); q_map[:, 2]: both sides = runsN over the cut positions, which
   frd_cy_shape shows to be 0 :: strictly increasing ++ [N]. *)
From TenpyV Require Import Base.Prelude Base.Lists Model.KernelsPyCy Model.KernelsPyCy2 Proofs.KernelsPyCyP.
Open Scope Z_scope.

Lemma Forall_repeat {A} (P : A -> Prop) x n : P x -> Forall P (repeat x n).
Proof. intros H. apply Forall_forall. intros y Hy. apply repeat_spec in Hy. subst y. exact H. Qed.

Lemma upd_at_app pre x t f : upd_at (pre ++ x :: t) (length pre) f = pre ++ f x :: t.
Proof. unfold upd_at, nthZ. rewrite nth_middle. apply write_app. Qed.

Lemma row_map2_length f : forall a b, length (row_map2 f a b) = Nat.min (length a) (length b).
Proof. induction a as [|x a IH]; intros [|y b]; cbn [row_map2 length]; try reflexivity. rewrite IH. reflexivity. Qed.

Lemma cumsum_app : forall l1 l2 s, cumsum_from s (l1 ++ l2) = cumsum_from s l1 ++ cumsum_from (s + sumZ l1) l2.
Proof.
  induction l1 as [|x l1 IH]; intros l2 s; cbn [app cumsum_from sumZ].
  - f_equal. lia.
  - f_equal. rewrite IH. f_equal. f_equal. lia.
Qed.
Lemma cumsum_zeros n s : cumsum_from s (repeat 0 n) = repeat s n.
Proof.
  induction n as [|n IH]; cbn [repeat cumsum_from]; [reflexivity|].
  replace (s + 0) with s by lia. rewrite IH. reflexivity.
Qed.
Lemma cumsum_length : forall l s, length (cumsum_from s l) = length l.
Proof. induction l as [|x l IH]; intros s; cbn [cumsum_from length]; [reflexivity|]. rewrite IH. reflexivity. Qed.
Lemma sumZ_zeros n : sumZ (repeat 0 n) = 0.
Proof. induction n as [|n IH]; cbn [repeat sumZ]; lia. Qed.

Lemma chainN_lt : forall ps prev N, chainN prev ps N -> (prev < N)%nat.
Proof.
  induction ps as [|p t IH]; intros prev N H; cbn [chainN] in H; [exact H|].
  destruct H as [H1 H2]. specialize (IH p N H2). lia.
Qed.

(* q_map[:, 2], by induction over the cuts ps still ahead of the cut `prev`.  A is the part of the array that is final: positions
   0 .. prev of the 0/1 mask in set_ones_spec, the positions below prev of the column in qi_loop_runs, where B is the filler not
   yet overwritten; a is the number of the run that starts at prev *)
Lemma set_ones_spec N : forall ps prev A, length A = S prev -> chainN prev ps N ->
  set_ones (A ++ repeat 0 (N - prev - 1)) (map Z.of_nat ps) = A ++ tailI prev ps N.
Proof.
  unfold set_ones. induction ps as [|p t IH]; intros prev A HA Hc; cbn [map fold_left tailI]; [reflexivity|].
  cbn [chainN] in Hc. destruct Hc as [Hp Hc]. pose proof (chainN_lt _ _ _ Hc) as HpN.
  replace (N - prev - 1)%nat with ((p - prev - 1) + S (N - p - 1))%nat by (clear - Hp HpN; lia).
  rewrite repeat_app, app_assoc. cbn [repeat].
  replace (Z.to_nat (Z.of_nat p)) with (length (A ++ repeat 0 (p - prev - 1)))
    by (rewrite app_length, repeat_length; clear - HA Hp; lia).
  rewrite upd_at_app, snoc_assoc.
  rewrite (IH p); [|rewrite last_length, app_length, repeat_length; clear - HA Hp; lia|exact Hc].
  rewrite <- !app_assoc. reflexivity.
Qed.

Lemma cumsum_tailI N : forall ps prev a, chainN prev ps N ->
  a :: cumsum_from a (tailI prev ps N) = runsN a prev (ps ++ [N]).
Proof.
  induction ps as [|p t IH]; intros prev a Hc; cbn [tailI app runsN chainN] in *.
  - rewrite cumsum_zeros, app_nil_r. remember (N - prev - 1)%nat as d. replace (N - prev)%nat with (S d) by lia. reflexivity.
  - destruct Hc as [Hp Hc]. rewrite cumsum_app, cumsum_zeros, sumZ_zeros. cbn [cumsum_from].
    replace (a + 0 + 1) with (a + 1) by lia. rewrite (IH p (a + 1) Hc).
    remember (p - prev - 1)%nat as d. replace (p - prev)%nat with (S d) by lia. reflexivity.
Qed.

Lemma qmap_tags_runs ps N : chainN 0 ps N ->
  qi_py N (map Z.of_nat (0%nat :: ps ++ [N])) = runsN 0 0 (ps ++ [N]).
Proof.
  intros Hc. unfold qi_py, inner. cbn [map tl]. rewrite map_app. cbn [map]. rewrite removelast_last.
  pose proof (chainN_lt _ _ _ Hc) as HN.
  pose proof (set_ones_spec N ps 0%nat [0] eq_refl Hc) as H. cbn [app] in H.
  replace N with (S (N - 0 - 1)) at 1 by lia. cbn [repeat]. rewrite H. apply (cumsum_tailI N ps 0%nat 0 Hc).
Qed.

Lemma qi_loop_runs N : forall ps prev A B a,
  length A = prev -> chainN prev ps N -> length B = (N - prev)%nat ->
  qi_loop (A ++ B) (Z.of_nat prev) (map Z.of_nat (ps ++ [N])) a (Z.of_nat N) = A ++ runsN a prev (ps ++ [N]).
Proof.
  induction ps as [|p t IH]; intros prev A B a HA Hc HB; subst prev; cbn [app map qi_loop runsN chainN] in *;
    rewrite Nat2Z.id.
  - rewrite Z.sub_diag. cbn [Z.to_nat fill].
    replace (Z.to_nat (Z.of_nat N - Z.of_nat (length A))) with (N - length A)%nat by lia.
    rewrite fill_app, skipn_all2 by (rewrite HB; reflexivity). reflexivity.
  - destruct Hc as [Hp Hc]. pose proof (chainN_lt _ _ _ Hc) as HpN.
    replace (Z.to_nat (Z.of_nat p - Z.of_nat (length A))) with (p - length A)%nat by lia.
    rewrite fill_app by lia.
    rewrite app_assoc, (IH p); [rewrite <- app_assoc; reflexivity| |exact Hc|].
    + rewrite app_length, repeat_length. lia.
    + rewrite skipn_length. lia.
Qed.

Lemma qi_cy_spec junk ps N : chainN 0 ps N ->
  qi_cy junk N (map Z.of_nat (0%nat :: ps ++ [N])) = runsN 0 0 (ps ++ [N]).
Proof.
  intros Hc. unfold qi_cy. cbn [map].
  apply (qi_loop_runs N ps 0%nat [] (repeat junk N) 0 eq_refl Hc). rewrite repeat_length. lia.
Qed.

Lemma runsN_length N : forall ps prev a, chainN prev ps N -> length (runsN a prev (ps ++ [N])) = (N - prev)%nat.
Proof.
  induction ps as [|p t IH]; intros prev a Hc; cbn [app runsN chainN] in *; rewrite app_length, repeat_length.
  - cbn [length]. lia.
  - destruct Hc as [Hp Hc]. rewrite (IH p (a + 1) Hc). apply chainN_lt in Hc. lia.
Qed.

Lemma qi_py_length ps N : chainN 0 ps N -> length (qi_py N (map Z.of_nat (0%nat :: ps ++ [N]))) = N.
Proof. intros Hc. rewrite (qmap_tags_runs ps N Hc), (runsN_length N ps 0%nat 0 Hc). lia. Qed.

(* q_map[:, 2] without bunch: np.arange against a loop *)
Lemma arange_loop junk : forall m A,
  fold_left (fun col j => fill col j 1 (Z.of_nat j)) (seq (length A) m) (A ++ repeat junk m)
  = A ++ map Z.of_nat (seq (length A) m).
Proof.
  induction m as [|m IH]; intros A; cbn [seq fold_left repeat map]; [reflexivity|].
  rewrite fill_app by (cbn [length]; lia). cbn [repeat skipn app].
  rewrite snoc_assoc, <- (last_length A (Z.of_nat (length A))), IH, <- app_assoc. reflexivity.
Qed.

Lemma arange_eq junk n :
  fold_left (fun col j => fill col j 1 (Z.of_nat j)) (seq 0 n) (repeat junk n) = map Z.of_nat (seq 0 n).
Proof. exact (arange_loop junk n []). Qed.

Lemma cols01_eq new_slices n : forall Qi slices, n = length Qi -> length slices = S n ->
  cols01_cy n slices new_slices Qi = cols01_py slices new_slices Qi.
Proof.
  unfold cols01_cy, cols01_py. intros Qi slices ->. revert slices.
  induction Qi as [|q Qi IH]; intros [|x [|y t]] Hl; try discriminate Hl; [reflexivity|].
  cbn [length seq map removelast tl row_map2 combine]. f_equal.
  rewrite <- seq_shift, map_map. apply (IH (y :: t)). cbn [length] in *. lia.
Qed.

Lemma frd_loop_chain M : forall rest prev i lo, (lo < i)%nat ->
  exists ps, frd_loop M (Z.of_nat i) prev rest = map Z.of_nat ps /\ chainN lo ps (i + length rest).
Proof.
  induction rest as [|r t IH]; intros prev i lo Hlo; cbn [frd_loop length].
  - exists []. split; [reflexivity|]. cbn [chainN]. lia.
  - replace (Z.of_nat i + 1) with (Z.of_nat (S i)) by lia. rewrite <- Nat.add_succ_comm.
    destruct (rows_equal_cy M 0 prev r).
    + apply IH. lia.
    + destruct (IH r (S i) i) as (ps & E & Hc); [lia|]. exists (i :: ps). cbn [map chainN]. rewrite E. auto.
Qed.

Lemma frd_cy_shape M rows : rows <> [] ->
  exists ps, frd_cy M rows = map Z.of_nat (0%nat :: ps ++ [length rows]) /\ chainN 0 ps (length rows).
Proof.
  intros Hne. unfold frd_cy. destruct (M =? 0).
  - exists []. split; [reflexivity|]. cbn [chainN]. destruct rows; [contradiction|cbn [length]; lia].
  - destruct rows as [|r t]; [contradiction|].
    destruct (frd_loop_chain (Z.to_nat M) t r 1%nat 0%nat) as (ps & E & Hc); [lia|].
    exists ps. change 1 with (Z.of_nat 1). rewrite E. split; [|exact Hc].
    cbn [map length]. rewrite map_app. reflexivity.
Qed.

Lemma qi_eq junk M rows :
  qi_cy junk (length rows) (frd_cy M rows) = qi_py (length rows) (frd_cy M rows)
  /\ length (qi_py (length rows) (frd_cy M rows)) = length rows.
Proof.
  destruct (list_eq_dec (list_eq_dec Z.eq_dec) rows []) as [->|Hne].
  - unfold frd_cy. destruct (M =? 0); split; reflexivity.
  - destruct (frd_cy_shape M rows Hne) as (ps & -> & Hc).
    split; [rewrite (qi_cy_spec junk ps _ Hc), (qmap_tags_runs ps _ Hc); reflexivity|exact (qi_py_length ps _ Hc)].
Qed.

Lemma row_map2_assoc f : (forall x y z, f x (f y z) = f (f x y) z) -> forall a b c,
  row_map2 f a (row_map2 f b c) = row_map2 f (row_map2 f a b) c.
Proof.
  intros Hf. induction a as [|x a IH]; intros [|y b] [|z c]; cbn [row_map2]; try reflexivity.
  rewrite Hf, IH. reflexivity.
Qed.
Lemma row_map2_comm f : (forall x y, f x y = f y x) -> forall a b, row_map2 f a b = row_map2 f b a.
Proof.
  intros Hf. induction a as [|x a IH]; intros [|y b]; cbn [row_map2]; try reflexivity. rewrite Hf, IH. reflexivity.
Qed.

Lemma bs_inner_spec leg_bs : forall col pre bs, length bs = length col ->
  bs_inner (pre ++ bs) leg_bs col (length pre)
  = pre ++ row_map2 Z.mul bs (map (fun qi => nthZ leg_bs (Z.to_nat qi)) col).
Proof.
  induction col as [|qi t IH]; intros pre bs Hl.
  - destruct bs; [reflexivity|discriminate].
  - destruct bs as [|x bs]; [discriminate|]. cbn [bs_inner map row_map2]. rewrite upd_at_app.
    set (y := x * nthZ leg_bs (Z.to_nat qi)).
    rewrite snoc_assoc, <- (last_length pre y).
    rewrite IH by (cbn [length] in Hl; lia). rewrite <- app_assoc. reflexivity.
Qed.

Lemma gcol_length gridT a : length (gcol gridT a) = length gridT.
Proof. apply map_length. Qed.

Lemma prod_axis0_length n : forall vs, Forall (fun v => length v = n) vs -> length (prod_axis0 n vs) = n.
Proof.
  induction 1 as [|v vs Hv _ IH]; cbn [prod_axis0]; [apply repeat_length|].
  rewrite row_map2_length, Hv, IH. lia.
Qed.

Lemma legvecs_length gridT (l : list (nat * pleg)) :
  Forall (fun v => length v = length gridT) (map (legvec gridT) l).
Proof. apply Forall_map, Forall_forall. intros al _. unfold legvec. rewrite map_length. apply gcol_length. Qed.

Lemma bs_outer_fold gridT : forall legs a bs, length bs = length gridT ->
  bs_outer bs legs gridT a
  = fold_left (row_map2 Z.mul) (map (legvec gridT) (combine (seq a (length legs)) legs)) bs.
Proof.
  induction legs as [|l t IH]; intros a bs Hl; cbn [bs_outer length seq combine map fold_left]; [reflexivity|].
  pose proof (bs_inner_spec (pl_bs l) (gcol gridT a) [] bs) as H. cbn [app length] in H.
  rewrite H by (rewrite gcol_length; exact Hl).
  apply IH. unfold legvec. rewrite row_map2_length, map_length, gcol_length, Hl. apply Nat.min_id.
Qed.

Lemma prod_axis0_fold n vs : prod_axis0 n vs = fold_right (row_map2 Z.mul) (repeat 1 n) vs.
Proof. induction vs as [|v vs IH]; cbn [prod_axis0 fold_right]; congruence. Qed.

Lemma blocksizes_eq legs gridT : blocksizes_cy legs gridT = blocksizes_py legs gridT.
Proof.
  unfold blocksizes_cy, blocksizes_py. rewrite bs_outer_fold by apply repeat_length. rewrite prod_axis0_fold.
  apply fold_symmetric; [apply row_map2_assoc, Z.mul_assoc|apply row_map2_comm, Z.mul_comm].
Qed.

Lemma blocksizes_length legs gridT : length (blocksizes_py legs gridT) = length gridT.
Proof. unfold blocksizes_py. apply prod_axis0_length. apply (legvecs_length gridT). Qed.

Lemma zipW_assoc : forall u v w, zipW u (zipW v w) = zipW (zipW u v) w.
Proof.
  unfold zipW. induction u as [|x u IH]; intros [|y v] [|z w]; cbn [combine map fst snd]; try reflexivity.
  f_equal; [apply row_map2_assoc, Z.add_assoc|apply IH].
Qed.
Lemma zipW_comm : forall u v, zipW u v = zipW v u.
Proof.
  unfold zipW. induction u as [|x u IH]; intros [|y v]; cbn [combine map fst snd]; try reflexivity.
  f_equal; [apply row_map2_comm, Z.add_comm|apply IH].
Qed.
Lemma zipW_length u v : length (zipW u v) = Nat.min (length u) (length v).
Proof. unfold zipW. rewrite map_length, combine_length. reflexivity. Qed.
Lemma zipW_rows qn : forall u v, Forall (fun r => length r = qn) u -> Forall (fun r => length r = qn) v ->
  Forall (fun r => length r = qn) (zipW u v).
Proof.
  unfold zipW. induction u as [|x u IH]; intros [|y v] Hu Hv; cbn [combine map fst snd]; try constructor.
  - apply Forall_cons_iff in Hu, Hv. destruct Hu as [Hx Hu], Hv as [Hy Hv]. unfold vaddZ. rewrite row_map2_length. lia.
  - apply Forall_cons_iff in Hu, Hv. destruct Hu as [Hx Hu], Hv as [Hy Hv]. apply IH; assumption.
Qed.

Lemma pq_k_spec ch sign : forall n pre row, length row = n ->
  pq_k (pre ++ row) ch sign (length pre) n
  = pre ++ vaddZ row (map (fun k => nthZ ch k * sign) (seq (length pre) n)).
Proof.
  unfold vaddZ. induction n as [|n IH]; intros pre row Hl.
  - destruct row; [reflexivity|discriminate].
  - destruct row as [|x row]; [discriminate|]. cbn [pq_k seq map row_map2]. rewrite upd_at_app.
    set (y := x + nthZ ch (length pre) * sign).
    rewrite snoc_assoc, <- (last_length pre y).
    rewrite IH by (cbn [length] in Hl; lia). rewrite <- app_assoc. reflexivity.
Qed.

Lemma chterm_length qn chs sign qi : length (chterm qn chs sign qi) = qn.
Proof. unfold chterm, chrow. rewrite !map_length. apply seq_length. Qed.

Lemma set_rowZ_app (pre : list (list Z)) r t row : set_rowZ (pre ++ r :: t) (length pre) row = pre ++ row :: t.
Proof. apply write_app. Qed.

Lemma pq_i_spec qn chs sign : forall col pre res, length res = length col ->
  Forall (fun r => length r = qn) res ->
  pq_i (pre ++ res) qn chs sign col (length pre) = pre ++ zipW res (map (chterm qn chs sign) col).
Proof.
  unfold zipW. induction col as [|qi t IH]; intros pre res Hl HF.
  - destruct res; [reflexivity|discriminate].
  - destruct res as [|r res]; [discriminate|]. apply Forall_cons_iff in HF. destruct HF as [Hr HF'].
    cbn [pq_i map combine fst snd]. rewrite nth_middle, set_rowZ_app.
    pose proof (pq_k_spec (nth (Z.to_nat qi) chs []) sign qn [] r Hr) as H. cbn [app length] in H.
    rewrite H.
    set (y := vaddZ r _).
    rewrite snoc_assoc, <- (last_length pre y).
    rewrite IH by (cbn [length] in Hl; try lia; exact HF'). rewrite <- app_assoc. cbn [app]. f_equal. f_equal.
    subst y. f_equal. unfold chterm, chrow. rewrite map_map. reflexivity.
Qed.

Lemma legterm_chterm qn qconj gridT a l :
  map (chterm qn (pl_charges l) (pl_qconj l * qconj)) (gcol gridT a) = legterm qn qconj gridT (a, l).
Proof.
  unfold legterm, chterm. cbn [fst snd]. apply map_ext. intros qi. apply map_ext. intros c. lia.
Qed.

Lemma sum_axis0_shape n qn : forall ms,
  Forall (fun m => length m = n /\ Forall (fun r => length r = qn) m) ms ->
  length (sum_axis0 n qn ms) = n /\ Forall (fun r => length r = qn) (sum_axis0 n qn ms).
Proof.
  induction 1 as [|m ms [Hm1 Hm2] _ [IH1 IH2]]; cbn [sum_axis0].
  - split; [apply repeat_length|apply Forall_repeat, repeat_length].
  - fold (zipW m (sum_axis0 n qn ms)). split; [rewrite zipW_length; lia|apply zipW_rows; assumption].
Qed.

Lemma legterms_shape qn qconj gridT (l : list (nat * pleg)) :
  Forall (fun m => length m = length gridT /\ Forall (fun r => length r = qn) m) (map (legterm qn qconj gridT) l).
Proof.
  apply Forall_map, Forall_forall. intros [a l0] _.
  rewrite <- legterm_chterm. split; [rewrite map_length; apply gcol_length|].
  apply Forall_map, Forall_forall. intros qi _. apply chterm_length.
Qed.

Lemma pq_a_fold qn qconj gridT : forall legs a res, length res = length gridT ->
  Forall (fun r => length r = qn) res ->
  pq_a res qn qconj legs gridT a
  = fold_left zipW (map (legterm qn qconj gridT) (combine (seq a (length legs)) legs)) res.
Proof.
  induction legs as [|l t IH]; intros a res Hl HF; cbn [pq_a length seq combine map fold_left]; [reflexivity|].
  pose proof (pq_i_spec qn (pl_charges l) (pl_qconj l * qconj) (gcol gridT a) [] res) as H. cbn [app length] in H.
  rewrite H, legterm_chterm by (try rewrite gcol_length; assumption).
  destruct (Forall_inv (legterms_shape qn qconj gridT [(a, l)])) as [Hm1 Hm2].
  apply IH; [rewrite zipW_length; lia|apply zipW_rows; assumption].
Qed.

Lemma sum_axis0_fold n qn ms : sum_axis0 n qn ms = fold_right zipW (repeat (repeat 0 qn) n) ms.
Proof. induction ms as [|m ms IH]; cbn [sum_axis0 fold_right]; [reflexivity|]. rewrite IH. reflexivity. Qed.

Lemma charges_raw_eq qn qconj legs gridT :
  charges_raw_cy qn qconj legs gridT = charges_raw_py qn qconj legs gridT.
Proof.
  unfold charges_raw_cy, charges_raw_py.
  rewrite pq_a_fold, sum_axis0_fold by (try apply Forall_repeat; apply repeat_length).
  apply fold_symmetric; [apply zipW_assoc|apply zipW_comm].
Qed.

Lemma charges_raw_shape qn qconj legs gridT :
  length (charges_raw_py qn qconj legs gridT) = length gridT
  /\ Forall (fun r => length r = qn) (charges_raw_py qn qconj legs gridT).
Proof. unfold charges_raw_py. apply sum_axis0_shape. apply (legterms_shape qn qconj gridT). Qed.

Lemma charges_eq mods qconj legs gridT :
  Forall (fun m => 1 <= m < two63) mods -> charges_cy mods qconj legs gridT = charges_py mods qconj legs gridT.
Proof.
  intros Hm. unfold charges_cy, charges_py. destruct (Nat.eqb (length mods) 0); [reflexivity|].
  rewrite charges_raw_eq. apply make_valid_int64, Hm.
Qed.

Lemma charges_py_shape mods qconj legs gridT :
  length (charges_py mods qconj legs gridT) = length gridT
  /\ Forall (fun r => length r = length mods) (charges_py mods qconj legs gridT).
Proof.
  unfold charges_py. destruct (Nat.eqb (length mods) 0) eqn:E.
  - apply Nat.eqb_eq in E. rewrite E. split; [apply repeat_length|apply Forall_repeat; reflexivity].
  - destruct (charges_raw_shape (length mods) qconj legs gridT) as [H1 H2].
    unfold make_valid_py. split; [rewrite map_length; exact H1|].
    apply Forall_map. revert H2. apply Forall_impl. intros r0 Hr0. rewrite row_map2_length, Hr0. lia.
Qed.

Lemma take_rows {A} (P : A -> Prop) d (l : list A) perm :
  Forall P l -> Forall (fun p => (p < length l)%nat) perm -> Forall P (take d l perm).
Proof.
  intros Hl Hp. unfold take. apply Forall_map. revert Hp. apply Forall_impl. intros p Hp.
  rewrite Forall_forall in Hl. apply Hl, nth_In, Hp.
Qed.

Section InitEq.
  Variable lexsort : list (list Z) -> list nat.
  Hypothesis lexsort_len : forall t, length (lexsort t) = length t.
  Hypothesis lexsort_rng : forall t, Forall (fun p => (p < length t)%nat) (lexsort t).

  Lemma init_from_legs_eq junk mods qconj legs gridT sort bunch :
    Forall (fun m => 1 <= m < two63) mods ->
    init_from_legs_cy lexsort junk mods qconj legs gridT sort bunch
    = init_from_legs_py lexsort mods qconj legs gridT sort bunch.
  Proof.
    intros Hm. unfold init_from_legs_cy, init_from_legs_py.
    rewrite blocksizes_eq, (charges_eq mods qconj legs gridT Hm).
    destruct (charges_py_shape mods qconj legs gridT) as [Hcl Hcr].
    pose proof (blocksizes_length legs gridT) as Hbl.
    set (ch0 := charges_py mods qconj legs gridT) in *.
    set (bs0 := blocksizes_py legs gridT) in *.
    set (do_sort := sort && negb (Nat.eqb (length mods) 0)).
    pose proof (lexsort_len ch0) as Hpl. pose proof (lexsort_rng ch0) as Hpr.
    set (perm := lexsort ch0) in *.
    set (gT := if do_sort then take [] gridT perm else gridT).
    set (ch := if do_sort then take [] ch0 perm else ch0).
    set (bs := if do_sort then take 0 bs0 perm else bs0).
    assert (Hchl : length ch = length gridT).
    { subst ch. destruct do_sort; [unfold take; rewrite map_length; lia|exact Hcl]. }
    assert (Hchr : Forall (fun r => length r = length mods) ch).
    { subst ch. destruct do_sort; [apply take_rows; assumption|exact Hcr]. }
    assert (Hbsl : length bs = length gridT).
    { subst bs. destruct do_sort; [unfold take; rewrite map_length; lia|exact Hbl]. }
    assert (Hsl : length (slices_of_bs bs) = S (length gridT)).
    { unfold slices_of_bs. cbn [length]. rewrite cumsum_length, Hbsl. reflexivity. }
    destruct bunch.
    - destruct (qi_eq junk (Z.of_nat (length mods)) ch) as [EQ LQ]. rewrite Hchl in EQ, LQ. rewrite EQ.
      rewrite <- (find_row_differences_eq (Z.of_nat (length mods)) ch) by (rewrite Nat2Z.id; exact Hchr).
      rewrite cols01_eq; [reflexivity|symmetry; exact LQ|exact Hsl].
    - rewrite arange_eq.
      rewrite cols01_eq; [reflexivity| |exact Hsl].
      rewrite map_length, seq_length. reflexivity.
  Qed.
End InitEq.

Lemma lexsort_ins_perm t : Permutation (seq 0 (length t)) (lexsort_ins t).
Proof.
  symmetry. apply (insertion_sort_perm (fun p q => negb (lexltb (nth q t []) (nth p t []))) (ins_idx t) (fun _ => eq_refl)).
  intros p q l. cbn [ins_idx]. destruct (lexltb _ _); reflexivity.
Qed.
Lemma lexsort_ins_len t : length (lexsort_ins t) = length t.
Proof. rewrite <- (Permutation_length (lexsort_ins_perm t)). apply seq_length. Qed.
Lemma lexsort_ins_rng t : Forall (fun p => (p < length t)%nat) (lexsort_ins t).
Proof.
  apply (Permutation_Forall (lexsort_ins_perm t)), Forall_forall. intros p Hp. apply in_seq in Hp. lia.
Qed.
