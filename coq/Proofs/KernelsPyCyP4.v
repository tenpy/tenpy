(* _sliced_copy (Model/KernelsPyCy3.v): both algorithms equal the elementwise reference ref_copy.  The compiled side (ssc_ref) goes by
   induction on a bound n of the rank, because the recursion strips three axes at once; memcpy_ref1 is the only place where last_ok
   is used. *)
From TenpyV Require Import Base.Prelude Model.KernelsPyCy3.

Lemma fold_left_ext_in {A B} (f g : A -> B -> A) : forall l a,
  (forall a x, In x l -> f a x = g a x) -> fold_left f l a = fold_left g l a.
Proof.
  induction l as [|x l IH]; intros a H; cbn [fold_left]; [reflexivity|].
  rewrite (H a x (or_introl eq_refl)). apply IH. intros a' y Hy. apply H. right. exact Hy.
Qed.

Lemma fold_left_flat_map {A B C} (f : A -> B -> A) (g : C -> list B) : forall l a,
  fold_left f (flat_map g l) a = fold_left (fun a x => fold_left f (g x) a) l a.
Proof.
  induction l as [|x l IH]; intros a; cbn [flat_map fold_left]; [reflexivity|].
  rewrite fold_left_app. apply IH.
Qed.

Lemma fold_left_map {A B C} (f : A -> B -> A) (g : C -> B) : forall l a,
  fold_left f (map g l) a = fold_left (fun a x => f a (g x)) l a.
Proof. induction l as [|x l IH]; intros a; cbn [map fold_left]; [reflexivity|]. apply IH. Qed.

Section Copy.
  Context {A : Type}.
  Variable dflt : A.
  Variable src : list A.

  Lemma ref_nil ds ss doff soff d :
    ref_copy dflt src [] ds ss doff soff d = cp dflt src d doff soff.
  Proof. unfold ref_copy. cbn [ngrid fold_left]. destruct ds, ss; cbn [dotN]; rewrite !Nat.add_0_r; reflexivity. Qed.

  Lemma ref_cons n t d0 ds s0 ss doff soff dest :
    ref_copy dflt src (n :: t) (d0 :: ds) (s0 :: ss) doff soff dest
    = fold_left (fun d i => ref_copy dflt src t ds ss (doff + i * d0) (soff + i * s0) d) (seq 0 n) dest.
  Proof.
    unfold ref_copy. cbn [ngrid]. rewrite fold_left_flat_map. apply fold_left_ext_in. intros a i _.
    rewrite fold_left_map. apply fold_left_ext_in. intros a' k _. cbn [dotN]. f_equal; lia.
  Qed.

  Lemma memcpy_ref1 l d0 s0 doff soff d :
    (d0 = 1 /\ s0 = 1) \/ l <= 1 ->
    memcpy dflt src d doff soff l = ref_copy dflt src [l] [d0] [s0] doff soff d.
  Proof.
    intros H. rewrite ref_cons. unfold memcpy. apply fold_left_ext_in. intros a i Hi. apply in_seq in Hi.
    rewrite ref_nil. destruct H as [[-> ->]|H].
    - f_equal; lia.
    - assert (i = 0) by lia. subst i. f_equal; lia.
  Qed.

  (* one unfolding of the recursive branch (cbn [ssc] would also unfold the inner call) *)
  Lemma ssc_4plus l0 l1 l2 r0 rest d0 d1 d2 ds s0 s1 s2 ss doff soff dest :
    ssc dflt src (l0 :: l1 :: l2 :: r0 :: rest) (d0 :: d1 :: d2 :: ds) (s0 :: s1 :: s2 :: ss) doff soff dest
    = fold_left (fun d i =>
        fold_left (fun d j =>
          fold_left (fun d k =>
            ssc dflt src (r0 :: rest) ds ss
                (doff + (i * d0 + j * d1 + k * d2)) (soff + (i * s0 + j * s1 + k * s2)) d)
            (seq 0 l2) d)
          (seq 0 l1) d)
        (seq 0 l0) dest.
  Proof. reflexivity. Qed.

  Lemma ssc_ref : forall n shape dstr sstr doff soff dest,
    length shape <= n -> shape <> [] -> length dstr = length shape -> length sstr = length shape ->
    last_ok shape dstr sstr ->
    ssc dflt src shape dstr sstr doff soff dest = ref_copy dflt src shape dstr sstr doff soff dest.
  Proof.
    induction n as [|n IH]; intros shape dstr sstr doff soff dest Hn Hne Hd Hs Hok.
    - destruct shape; [contradiction|inversion Hn].
    - destruct shape as [|l0 [|l1 [|l2 rest]]]; [contradiction| | |].
      + destruct dstr as [|d0 [|? ?]]; try discriminate Hd.
        destruct sstr as [|s0 [|? ?]]; try discriminate Hs.
        cbn [ssc]. apply memcpy_ref1. exact Hok.
      + destruct dstr as [|d0 [|d1 [|? ?]]]; try discriminate Hd.
        destruct sstr as [|s0 [|s1 [|? ?]]]; try discriminate Hs.
        cbn [ssc nth]. rewrite ref_cons. apply fold_left_ext_in. intros a i _.
        apply memcpy_ref1. exact Hok.
      + destruct rest as [|r0 rest].
        * destruct dstr as [|d0 [|d1 [|d2 [|? ?]]]]; try discriminate Hd.
          destruct sstr as [|s0 [|s1 [|s2 [|? ?]]]]; try discriminate Hs.
          cbn [ssc nth]. rewrite ref_cons. apply fold_left_ext_in. intros a i _.
          rewrite ref_cons. apply fold_left_ext_in. intros a' j _.
          rewrite (memcpy_ref1 l2 d2 s2) by exact Hok. f_equal; lia.
        * destruct dstr as [|d0 [|d1 [|d2 ds]]]; try discriminate Hd.
          destruct sstr as [|s0 [|s1 [|s2 ss]]]; try discriminate Hs.
          rewrite ssc_4plus. rewrite ref_cons. apply fold_left_ext_in. intros a i _.
          rewrite ref_cons. apply fold_left_ext_in. intros a' j _.
          rewrite ref_cons. apply fold_left_ext_in. intros a'' k _.
          rewrite IH; [f_equal; lia| |discriminate| | |exact Hok]; cbn [length] in *; [clear - Hn; lia|congruence|congruence].
  Qed.

  Lemma ngrid_length : forall shape k, In k (ngrid shape) -> length k = length shape.
  Proof.
    induction shape as [|n t IH]; intros k Hk; cbn [ngrid] in Hk.
    - destruct Hk as [<-|[]]. reflexivity.
    - apply in_flat_map in Hk. destruct Hk as (i & _ & Hk). apply in_map_iff in Hk.
      destruct Hk as (k' & <- & Hk'). cbn [length]. f_equal. apply IH. exact Hk'.
  Qed.

  Lemma dotN_addN : forall s a b, length a = length s -> length b = length s ->
    dotN s (addN a b) = dotN s a + dotN s b.
  Proof.
    induction s as [|x s IH]; intros [|y a] [|z b] Ha Hb; cbn [length] in *; try lia; cbn [addN dotN]; [reflexivity|].
    rewrite IH by lia. rewrite Nat.mul_add_distr_r. lia.
  Qed.

  Lemma sliced_copy_py_ref dest dstr dbeg sstr sbeg shape :
    length dstr = length shape -> length sstr = length shape ->
    length dbeg = length shape -> length sbeg = length shape ->
    sliced_copy_py dflt src dest dstr dbeg sstr sbeg shape
    = ref_copy dflt src shape dstr sstr (dotN dstr dbeg) (dotN sstr sbeg) dest.
  Proof.
    intros H1 H2 H3 H4. unfold sliced_copy_py, ref_copy. apply fold_left_ext_in. intros a k Hk.
    apply ngrid_length in Hk. rewrite !dotN_addN by lia. reflexivity.
  Qed.

  Lemma sliced_copy_eq dest dstr dbeg sstr sbeg shape :
    shape <> [] ->
    length dstr = length shape -> length sstr = length shape ->
    length dbeg = length shape -> length sbeg = length shape ->
    last_ok shape dstr sstr ->
    sliced_copy_cy dflt src dest dstr dbeg sstr sbeg shape = sliced_copy_py dflt src dest dstr dbeg sstr sbeg shape.
  Proof.
    intros Hne H1 H2 H3 H4 Hok. rewrite sliced_copy_py_ref by assumption. unfold sliced_copy_cy.
    apply (ssc_ref (length shape)); auto.
  Qed.
End Copy.

Lemma last_ok_cstrides : forall shape dshape sshape,
  length dshape = length shape -> length sshape = length shape ->
  last_ok shape (cstrides dshape) (cstrides sshape).
Proof.
  induction shape as [|l t IH]; intros [|d dt] [|s st] Hd Hs; try discriminate; [exact I|].
  injection Hd as Hd. injection Hs as Hs. specialize (IH dt st Hd Hs).
  destruct t, dt, st; try discriminate; [left; split; reflexivity|exact IH].
Qed.

Lemma cstrides_length : forall shape, length (cstrides shape) = length shape.
Proof. induction shape as [|n t IH]; cbn [cstrides length]; [reflexivity|]. rewrite IH. reflexivity. Qed.
