(* Blocks of different rows do not overlap (bval_disjoint), so with pairwise distinct rows the assignment semantics of to_ndarray
   (`olast`) is the sum of the embedded blocks (`osum`).  transpose, conj and scale map the blocks one by one and are proved for both
   semantics directly; add is proved on sums (its stored blocks are those of the operands reordered, two of one row fused: `fuses`),
   and its sorted merge needs ssorted operands, which isort_qdata delivers only for a truthful claim. *)
From TenpyV Require Import Base.Prelude Base.Lists Model.Charge Model.Tensor Model.TensorOps Model.TensorCheck Proofs.ChargeP.
Open Scope Z_scope.

(* the form in which the axis-wise definitions (a map or forallb over seq 0 (length ls)) meet a transposition *)
Lemma map_along {A} (G G' : nat -> A) p :
  (forall k, (k < length p)%nat -> G' k = G (nth k p 0%nat)) -> map G' (seq 0 (length p)) = map G p.
Proof.
  intros H. rewrite <- (map_nth_seq 0%nat p) at 2. rewrite map_map. apply map_ext_in.
  intros k Hk. apply in_seq in Hk. apply H. lia.
Qed.

Lemma nth_differ (r r' : list nat) : length r = length r' -> r <> r' ->
  exists k, (k < length r)%nat /\ nth k r 0%nat <> nth k r' 0%nat.
Proof.
  revert r'. induction r as [|x r IH]; intros [|y r'] Hl Hne; cbn [length] in *; try discriminate.
  - exfalso. apply Hne. reflexivity.
  - destruct (Nat.eq_dec x y) as [->|Hxy].
    + destruct (IH r') as [k [Hk1 Hk2]]; [lia|intros ->; apply Hne; reflexivity|].
      exists (S k). split; [lia|exact Hk2].
    + exists 0%nat. split; [lia|exact Hxy].
Qed.

Ltac cring := intros; repeat match goal with x : C |- _ => destruct x end;
  unfold cadd, cmul, cconj, c0; cbn [fst snd]; f_equal; ring.

Lemma cadd_comm x y : cadd x y = cadd y x.
Proof. cring. Qed.
Lemma cadd_assoc x y z : cadd x (cadd y z) = cadd (cadd x y) z.
Proof. cring. Qed.
Lemma cadd_0_l x : cadd c0 x = x.
Proof. cring. Qed.
Lemma cadd_0_r x : cadd x c0 = x.
Proof. cring. Qed.
Lemma cmul_add_r s x y : cmul s (cadd x y) = cadd (cmul s x) (cmul s y).
Proof. cring. Qed.
Lemma cmul_add_l x y s : cmul (cadd x y) s = cadd (cmul x s) (cmul y s).
Proof. cring. Qed.
Lemma cmul_0_r s : cmul s c0 = c0.
Proof. cring. Qed.
Lemma cmul_0_l s : cmul c0 s = c0.
Proof. cring. Qed.
Lemma cconj_add x y : cconj (cadd x y) = cadd (cconj x) (cconj y).
Proof. cring. Qed.
Lemma cconj_0 : cconj c0 = c0.
Proof. reflexivity. Qed.
Lemma ceqb_eq x y : ceqb x y = true -> x = y.
Proof. destruct x, y; unfold ceqb; cbn [fst snd]; intros H. f_equal; lia. Qed.

Lemma osum_cons o l : osum (o :: l) = match o with Some v => cadd v (osum l) | None => osum l end.
Proof. reflexivity. Qed.
Lemma osum_nil : osum [] = c0.
Proof. reflexivity. Qed.

Lemma osum_app l1 l2 : osum (l1 ++ l2) = cadd (osum l1) (osum l2).
Proof.
  induction l1 as [|[v|] l1 IH]; cbn [app]; rewrite ?osum_cons, ?osum_nil.
  - symmetry. apply cadd_0_l.
  - rewrite IH. apply cadd_assoc.
  - exact IH.
Qed.

Lemma osum_perm l1 l2 : Permutation l1 l2 -> osum l1 = osum l2.
Proof.
  induction 1 as [|x l l' _ IH|x y l|l l' l'' _ IH1 _ IH2]; rewrite ?osum_cons.
  - reflexivity.
  - destruct x; rewrite IH; reflexivity.
  - destruct x, y; try reflexivity. rewrite !cadd_assoc. f_equal. apply cadd_comm.
  - congruence.
Qed.

Lemma osum_omap g l : g c0 = c0 -> (forall x y, g (cadd x y) = cadd (g x) (g y)) ->
  osum (map (option_map g) l) = g (osum l).
Proof.
  intros H0 Hadd. induction l as [|[v|] l IH]; cbn [map option_map]; rewrite ?osum_cons, ?osum_nil; auto.
  rewrite IH. symmetry. apply Hadd.
Qed.

(* olast is a fold_left: the inductions about it go over the start value *)
Definition olast_from (acc : C) (l : list (option C)) : C :=
  fold_left (fun a o => match o with Some v => v | None => a end) l acc.

Lemma olast_from_omap g l acc : olast_from (g acc) (map (option_map g) l) = g (olast_from acc l).
Proof. revert acc. induction l as [|[v|] l IH]; intros acc; [reflexivity|exact (IH v)|exact (IH acc)]. Qed.

Lemma olast_omap g l : g c0 = c0 -> olast (map (option_map g) l) = g (olast l).
Proof. intros H0. change (olast l) with (olast_from c0 l). rewrite <- olast_from_omap, H0. reflexivity. Qed.

(* what the values of blocks with distinct rows at one index look like (vals_at_most_one), and what makes the last entry and the
   sum agree (olast_osum) *)
Fixpoint at_most_one (l : list (option C)) : Prop :=
  match l with
  | [] => True
  | o :: t => (o <> None -> Forall (fun x => x = None) t) /\ at_most_one t
  end.

Lemma all_none l acc : Forall (fun x => x = None) l -> osum l = c0 /\ olast_from acc l = acc.
Proof. induction 1 as [|x l -> _ IH]; [split; reflexivity|exact IH]. Qed.

Lemma olast_osum l : at_most_one l -> olast l = osum l.
Proof.
  change (olast l) with (olast_from c0 l). induction l as [|[v|] l IH]; intros H; [reflexivity| |apply IH, H].
  destruct (all_none l v (proj1 H ltac:(discriminate))) as [E1 E2].
  rewrite osum_cons, E1, cadd_0_r. exact E2.
Qed.

Lemma gather_length {A} (d : A) p l : length (gather d p l) = length p.
Proof. apply map_length. Qed.

Lemma nth_gather {A} (d : A) p l k : (k < length p)%nat -> nth k (gather d p l) d = nth (nth k p 0%nat) l d.
Proof. intros H. apply (nth_map_default (fun k0 => nth k0 l d) p k 0%nat d H). Qed.

Lemma gather_id {A} (d : A) l : gather d (seq 0 (length l)) l = l.
Proof. apply map_nth_seq. Qed.

Lemma map_gather {A B} (f : A -> B) da db p l : (forall k, In k p -> (k < length l)%nat) ->
  map f (gather da p l) = gather db p (map f l).
Proof.
  intros H. unfold gather. rewrite map_map. apply map_ext_in. intros k Hk.
  symmetry. apply nth_map_default. apply H. exact Hk.
Qed.

Lemma invperm_length p : length (invperm p) = length p.
Proof. unfold invperm. rewrite map_length, seq_length. reflexivity. Qed.

Lemma index_of_spec k p : In k p -> (index_of k p < length p)%nat /\ nth (index_of k p) p 0%nat = k.
Proof.
  induction p as [|x p IH]; intros Hin; [destruct Hin|].
  cbn [index_of]. destruct (x =? k)%nat eqn:E.
  - cbn. lia.
  - destruct Hin as [->|Hin]; [rewrite Nat.eqb_refl in E; discriminate|].
    destruct (IH Hin) as [H1 H2]. cbn [length nth]. split; [lia|exact H2].
Qed.

Lemma gather_inv p r (x : list nat) : Permutation p (seq 0 r) -> length x = r ->
  gather 0%nat (invperm p) (gather 0%nat p x) = x.
Proof.
  intros HP Hx. pose proof (perm_seq_length _ _ HP) as Hl.
  rewrite <- (map_nth_seq 0%nat x) at 2. rewrite Hx, <- Hl. unfold gather at 1, invperm. rewrite map_map.
  apply map_ext_in. intros k Hk. apply in_seq in Hk.
  assert (Hin : In k p) by (apply (Permutation_in _ (Permutation_sym HP)), in_seq; lia).
  destruct (index_of_spec k p Hin) as [H1 H2].
  rewrite nth_gather by exact H1. rewrite H2. reflexivity.
Qed.

Lemma index_of_nth p k : NoDup p -> (k < length p)%nat -> index_of (nth k p 0%nat) p = k.
Proof.
  revert k. induction p as [|x p IH]; intros k Hnd Hk; cbn [length] in Hk; [lia|].
  inversion Hnd as [|x' p' Hnin Hnd']; subst. destruct k as [|k]; cbn [nth index_of].
  - rewrite Nat.eqb_refl. reflexivity.
  - destruct (x =? nth k p 0%nat)%nat eqn:E.
    + apply Nat.eqb_eq in E. exfalso. apply Hnin. rewrite E. apply nth_In. lia.
    + f_equal. apply IH; [exact Hnd'|lia].
Qed.

Lemma gather_inv_r p r (j : list nat) : Permutation p (seq 0 r) -> length j = r ->
  gather 0%nat p (gather 0%nat (invperm p) j) = j.
Proof.
  intros HP Hj. pose proof (perm_seq_length _ _ HP) as Hl.
  assert (Hnd : NoDup p) by (apply (Permutation_NoDup (Permutation_sym HP)); apply seq_NoDup).
  rewrite <- (map_nth_seq 0%nat j) at 2. rewrite Hj, <- Hl. symmetry. apply map_along. intros k Hk.
  assert (Hpk : (nth k p 0 < length p)%nat).
  { rewrite Hl. apply (perm_seq_lt p r); [exact HP|]. apply nth_In. exact Hk. }
  rewrite nth_gather by (rewrite invperm_length; exact Hpk).
  unfold invperm. rewrite nth_map_seq by exact Hpk. rewrite index_of_nth by assumption. reflexivity.
Qed.

Lemma bstart_S l q : bstart l (S q) = (bstart l q + bsize l q)%nat.
Proof.
  unfold bstart, bsize, list_sum. revert q. induction (bsz l) as [|x s IH]; intros [|q]; cbn [firstn fold_right nth]; try lia.
  specialize (IH q). cbn [firstn] in IH. rewrite IH. lia.
Qed.

Lemma bstart_mono l q q' : (q <= q')%nat -> (bstart l q <= bstart l q')%nat.
Proof. induction 1 as [|q' _ IH]; [lia|]. rewrite bstart_S. lia. Qed.

Lemma bstart_past l q : (length (bsz l) <= q)%nat -> bstart l q = ind_len l.
Proof. intros H. unfold bstart, ind_len. rewrite firstn_all2 by exact H. reflexivity. Qed.

Lemma bstart_le l q : (bstart l q <= ind_len l)%nat.
Proof.
  destruct (Nat.le_ge_cases q (length (bsz l))) as [H|H]; [|rewrite bstart_past by exact H; lia].
  rewrite <- (bstart_past l (length (bsz l))) by lia. apply bstart_mono, H.
Qed.

Lemma in1_iff l q x : in1 l q x = true <-> (bstart l q <= x < bstart l (S q))%nat.
Proof. unfold in1. rewrite bstart_S, andb_true_iff, Nat.leb_le, Nat.ltb_lt. reflexivity. Qed.

Lemma in1_disjoint l q q' x : q <> q' -> in1 l q x = true -> in1 l q' x = false.
Proof.
  intros Hne H. apply not_true_iff_false. rewrite in1_iff in *. intros H'.
  destruct (Nat.lt_ge_cases q q') as [Hlt|Hge].
  - pose proof (bstart_mono l (S q) q' Hlt). lia.
  - pose proof (bstart_mono l (S q') q ltac:(lia)). lia.
Qed.

Lemma in1_exists l i : (i < ind_len l)%nat -> exists q, (q < length (bsz l))%nat /\ in1 l q i = true.
Proof.
  rewrite <- (bstart_past l (length (bsz l))) by lia.
  induction (length (bsz l)) as [|n IH]; intros Hi; [cbn in Hi; lia|].
  destruct (Nat.lt_ge_cases i (bstart l n)) as [Hlt|Hge].
  - destruct (IH Hlt) as [q [Hq H]]. exists q. split; [lia|exact H].
  - exists n. split; [lia|]. apply in1_iff. lia.
Qed.

Lemma bsz_nth l1 l2 k : map bsz l1 = map bsz l2 -> bsz (nth k l1 dleg) = bsz (nth k l2 dleg).
Proof.
  intros H. transitivity (nth k (map bsz l1) (bsz dleg)); [symmetry; apply map_nth|rewrite H; apply map_nth].
Qed.

Lemma inb_bsz l1 l2 qs idx : map bsz l1 = map bsz l2 -> inb l1 qs idx = inb l2 qs idx.
Proof.
  intros H. unfold inb. rewrite <- (map_length bsz l1), H, map_length.
  apply forallb_ext_in. intros k _. unfold in1, bstart, bsize. rewrite (bsz_nth l1 l2 k H). reflexivity.
Qed.
Lemma loc_bsz l1 l2 qs idx : map bsz l1 = map bsz l2 -> loc l1 qs idx = loc l2 qs idx.
Proof.
  intros H. unfold loc. rewrite <- (map_length bsz l1), H, map_length.
  apply map_ext. intros k. unfold bstart. rewrite (bsz_nth l1 l2 k H). reflexivity.
Qed.

Lemma loc_length ls qs idx : length (loc ls qs idx) = length ls.
Proof. unfold loc. rewrite map_length, seq_length. reflexivity. Qed.

Lemma bsz_conj ls : map bsz (map conj_leg ls) = map bsz ls.
Proof. rewrite map_map. reflexivity. Qed.

Lemma bval_bsz l1 l2 idx b : map bsz l1 = map bsz l2 -> bval l1 idx b = bval l2 idx b.
Proof. intros H. unfold bval. rewrite (inb_bsz l1 l2), (loc_bsz l1 l2) by exact H. reflexivity. Qed.

Lemma bval_map g ls idx (b : block) : bval ls idx (fst b, fun i => g (snd b i)) = option_map g (bval ls idx b).
Proof. unfold bval. cbn [fst snd]. destruct (inb ls (fst b) idx); reflexivity. Qed.

Lemma inb_cons l ls q qs x idx : inb (l :: ls) (q :: qs) (x :: idx) = in1 l q x && inb ls qs idx.
Proof. unfold inb. cbn [length seq forallb nth]. rewrite <- seq_shift, <- forallb_comp. reflexivity. Qed.
Lemma loc_cons l ls q qs x idx : loc (l :: ls) (q :: qs) (x :: idx) = (x - bstart l q)%nat :: loc ls qs idx.
Proof. unfold loc. cbn [length seq map nth]. rewrite <- seq_shift, map_map. reflexivity. Qed.

Lemma inb_app la lb qa qb ia ib : length qa = length la -> length ia = length la ->
  inb (la ++ lb) (qa ++ qb) (ia ++ ib) = inb la qa ia && inb lb qb ib.
Proof.
  revert qa ia. induction la as [|l la IH]; intros [|q qa] [|x ia] Hq Hi; try discriminate; cbn [app]; [reflexivity|].
  injection Hq as Hq. injection Hi as Hi. rewrite !inb_cons, IH by assumption. apply andb_assoc.
Qed.

Lemma loc_app la lb qa qb ia ib : length qa = length la -> length ia = length la ->
  loc (la ++ lb) (qa ++ qb) (ia ++ ib) = loc la qa ia ++ loc lb qb ib.
Proof.
  revert qa ia. induction la as [|l la IH]; intros [|q qa] [|x ia] Hq Hi; try discriminate; cbn [app]; [reflexivity|].
  injection Hq as Hq. injection Hi as Hi. rewrite !loc_cons, IH by assumption. reflexivity.
Qed.

Lemma bval_app la lb qa qb ia ib f : length qa = length la -> length ia = length la ->
  bval (la ++ lb) (ia ++ ib) (qa ++ qb, f)
  = if inb la qa ia && inb lb qb ib then Some (f (loc la qa ia ++ loc lb qb ib)) else None.
Proof. intros Hq Hi. unfold bval. cbn [fst snd]. rewrite inb_app, loc_app by assumption. reflexivity. Qed.

Lemma inb_transpose p ls qs idx : Permutation p (seq 0 (length ls)) ->
  inb (gather dleg p ls) (gather 0%nat p qs) (gather 0%nat p idx) = inb ls qs idx.
Proof.
  intros HP. unfold inb. rewrite gather_length.
  rewrite (forallb_comp (fun b => b)), (map_along (fun j => in1 (nth j ls dleg) (nth j qs 0%nat) (nth j idx 0%nat))).
  - rewrite <- forallb_comp. apply forallb_perm. exact HP.
  - intros k Hk. rewrite !nth_gather by exact Hk. reflexivity.
Qed.

Lemma loc_transpose p ls qs idx : Permutation p (seq 0 (length ls)) ->
  loc (gather dleg p ls) (gather 0%nat p qs) (gather 0%nat p idx) = gather 0%nat p (loc ls qs idx).
Proof.
  intros HP. unfold loc. rewrite gather_length.
  rewrite (map_along (fun j => (nth j idx 0 - bstart (nth j ls dleg) (nth j qs 0))%nat)).
  - apply map_ext_in. intros k Hk. rewrite nth_map_seq by exact (perm_seq_lt _ _ _ HP Hk). reflexivity.
  - intros k Hk. rewrite !nth_gather by exact Hk. reflexivity.
Qed.

Lemma bval_transpose p ls idx (b : block) : Permutation p (seq 0 (length ls)) ->
  bval (gather dleg p ls) (gather 0%nat p idx)
       (gather 0%nat p (fst b), fun j => snd b (gather 0%nat (invperm p) j)) = bval ls idx b.
Proof.
  intros HP. unfold bval. cbn [fst snd]. rewrite inb_transpose, loc_transpose by exact HP.
  rewrite (gather_inv p (length ls)); [reflexivity|exact HP|apply loc_length].
Qed.

Lemma inb_disjoint ls r r' idx : length r = length ls -> length r' = length ls -> r <> r' ->
  inb ls r idx = true -> inb ls r' idx = false.
Proof.
  intros Hr Hr' Hne H.
  destruct (nth_differ r r' ltac:(lia) Hne) as [k [Hk1 Hk2]].
  unfold inb in *. rewrite forallb_forall in H.
  assert (Hin : In k (seq 0 (length ls))) by (apply in_seq; lia).
  specialize (H k Hin).
  destruct (forallb _ _) eqn:E; [|reflexivity].
  rewrite forallb_forall in E. specialize (E k Hin).
  rewrite (in1_disjoint _ _ _ _ Hk2 H) in E. discriminate.
Qed.

Lemma bval_disjoint ls idx (b b' : block) : length (fst b) = length ls -> length (fst b') = length ls -> fst b <> fst b' ->
  bval ls idx b <> None -> bval ls idx b' = None.
Proof.
  unfold bval. intros Hl Hl' Hne H. destruct (inb ls (fst b) idx) eqn:E; [|congruence].
  rewrite (inb_disjoint ls (fst b) (fst b') idx) by assumption. reflexivity.
Qed.

Lemma vals_at_most_one ls idx (bs : list block) :
  NoDup (map fst bs) -> (forall r, In r (map fst bs) -> length r = length ls) ->
  at_most_one (map (bval ls idx) bs).
Proof.
  induction bs as [|b bs IH]; intros Hn Hs; [exact I|].
  cbn [map] in Hn. inversion Hn as [|x y Hx Hy]; subst.
  cbn [map at_most_one]. split.
  - intros Hsome. apply Forall_forall. intros o Ho. apply in_map_iff in Ho. destruct Ho as [b' [<- Hb']].
    apply (bval_disjoint ls idx b); [apply Hs; left; reflexivity|apply Hs; right; apply in_map; exact Hb'| |exact Hsome].
    intros Heq. apply Hx. rewrite Heq. apply in_map. exact Hb'.
  - apply IH; [exact Hy|]. intros r Hr. apply Hs. right. exact Hr.
Qed.

Theorem to_ndarray_sum a idx : NoDup (rows a) -> rows_shape a -> to_ndarray a idx = dense_sum a idx.
Proof.
  intros Hn Hs. unfold to_ndarray, dense_sum. apply olast_osum. apply vals_at_most_one; assumption.
Qed.

Corollary wf_dense ci a idx : WF ci a -> to_ndarray a idx = dense_sum a idx.
Proof. intros W. apply to_ndarray_sum; apply W. Qed.

Lemma osum_badd ls idx r f g l :
  osum (bval ls idx (r, badd f g) :: l) = osum (bval ls idx (r, f) :: bval ls idx (r, g) :: l).
Proof.
  unfold bval, badd. cbn [fst snd]. destruct (inb ls r idx); [symmetry; apply cadd_assoc|reflexivity].
Qed.

Lemma chg_conj l q j : chg (conj_leg l) q j = - chg l q j.
Proof. unfold chg, conj_leg. cbn [qc bch]. ring. Qed.

Lemma row_charge_cons l ls q qs j : row_charge (l :: ls) (q :: qs) j = chg l q j + row_charge ls qs j.
Proof. unfold row_charge. cbn [length seq map sumZ nth]. rewrite <- seq_shift, map_map. reflexivity. Qed.

Lemma row_charge_conj ls qs j : row_charge (map conj_leg ls) qs j = - row_charge ls qs j.
Proof.
  unfold row_charge. rewrite map_length, Z.opp_eq_mul_m1, (Z.mul_comm _ (-1)), sumZ_map_scale. f_equal.
  apply map_ext_in. intros k Hk. apply in_seq in Hk.
  rewrite (nth_map_default conj_leg ls k dleg dleg), chg_conj by lia. lia.
Qed.

Lemma row_charge_transpose p ls qs j : Permutation p (seq 0 (length ls)) ->
  row_charge (gather dleg p ls) (gather 0%nat p qs) j = row_charge ls qs j.
Proof.
  intros HP. unfold row_charge. rewrite gather_length.
  rewrite (map_along (fun k => chg (nth k ls dleg) (nth k qs 0%nat) j)).
  - apply sumZ_perm. apply Permutation_map. exact HP.
  - intros k Hk. rewrite !nth_gather by exact Hk. reflexivity.
Qed.

Lemma row_charge_app la lb qa qb j : length qa = length la ->
  row_charge (la ++ lb) (qa ++ qb) j = row_charge la qa j + row_charge lb qb j.
Proof.
  revert qa. induction la as [|l la IH]; intros [|q qa] Hl; try discriminate Hl; cbn [app].
  - reflexivity.
  - rewrite !row_charge_cons, IH by (injection Hl as Hl; exact Hl). lia.
Qed.

Lemma row_ok_conj ci ls qt r : length qt = length ci ->
  row_ok ci ls qt r -> row_ok ci (map conj_leg ls) (make_valid ci (vneg qt)) r.
Proof.
  intros Hl H j Hj. specialize (H j Hj). autorewrite with vnth. rewrite row_charge_conj, <- H.
  symmetry. apply mv1_opp.
Qed.

Lemma contractible_conj ci l : contractible ci l (conj_leg l).
Proof. split; [reflexivity|]. intros q j Hj. rewrite chg_conj. f_equal. lia. Qed.

Lemma contractible_sym ci l l' : contractible ci l l' -> contractible ci l' l.
Proof.
  intros [H1 H2]. split; [symmetry; exact H1|]. intros q j Hj. rewrite Z.add_comm. apply H2. exact Hj.
Qed.

Lemma contractible_bsz ci l1 l2 : Forall2 (contractible ci) l1 l2 -> map bsz l1 = map bsz l2.
Proof. induction 1 as [|x y l1 l2 [H _] _ IH]; cbn [map]; [reflexivity|]. rewrite H, IH. reflexivity. Qed.

Lemma row_charge_contract ci lc lc' rc j : (j < length ci)%nat ->
  Forall2 (contractible ci) lc lc' -> length rc = length lc ->
  mv1 (nth j ci 1) (row_charge lc rc j + row_charge lc' rc j) = mv1 (nth j ci 1) 0.
Proof.
  intros Hj HF. revert rc. induction HF as [|l l' lc lc' [_ Hc] _ IH]; intros [|q rc] Hrc; try discriminate Hrc.
  - reflexivity.
  - rewrite !row_charge_cons.
    replace (chg l q j + row_charge lc rc j + (chg l' q j + row_charge lc' rc j))
      with ((chg l q j + chg l' q j) + (row_charge lc rc j + row_charge lc' rc j)) by lia.
    apply (mv1_congr_add _ _ 0 _ 0 (Hc q j Hj)). apply IH. injection Hrc as Hrc. exact Hrc.
Qed.

Lemma row_ok_tensordot ci la lc lc' lb qta qtb ra rc rb :
  length qta = length ci -> length qtb = length ci ->
  length ra = length la -> length rc = length lc -> Forall2 (contractible ci) lc lc' ->
  row_ok ci (la ++ lc) qta (ra ++ rc) -> row_ok ci (lc' ++ lb) qtb (rc ++ rb) ->
  row_ok ci (la ++ lb) (make_valid ci (vadd qta qtb)) (ra ++ rb).
Proof.
  intros Ha Hb Hla Hlc HF H1 H2 j Hj. specialize (H1 j Hj). specialize (H2 j Hj). autorewrite with vnth.
  pose proof (Forall2_length _ _ _ HF) as Hlc'.
  rewrite row_charge_app in H1 by exact Hla.
  rewrite row_charge_app in H2 by lia.
  rewrite row_charge_app by exact Hla.
  rewrite <- H1, <- H2, <- mv1_add.
  replace (row_charge la ra j + row_charge lc rc j + (row_charge lc' rc j + row_charge lb rb j))
    with ((row_charge la ra j + row_charge lb rb j) + (row_charge lc rc j + row_charge lc' rc j)) by lia.
  symmetry. apply mv1_cancel. exact (row_charge_contract ci lc lc' rc j Hj HF Hlc).
Qed.

Lemma row_ok_outer ci la lb qta qtb ra rb :
  length qta = length ci -> length qtb = length ci -> length ra = length la ->
  row_ok ci la qta ra -> row_ok ci lb qtb rb ->
  row_ok ci (la ++ lb) (make_valid ci (vadd qta qtb)) (ra ++ rb).
Proof.
  intros Ha Hb Hl H1 H2. apply (row_ok_tensordot ci la [] [] lb qta qtb ra [] rb); rewrite ?app_nil_r; auto.
Qed.

Lemma row_eqb_iff a b : row_eqb a b = true <-> a = b.
Proof. exact (forall2b_eq_spec Nat.eqb Nat.eqb_eq a b). Qed.
Lemma row_eqb_refl a : row_eqb a a = true.
Proof. apply row_eqb_iff. reflexivity. Qed.

Lemma lex_lt_irrefl a : lex_lt a a = false.
Proof.
  induction a as [|x a IH]; cbn [lex_lt]; [reflexivity|].
  rewrite IH, andb_false_r, orb_false_r. apply Nat.ltb_irrefl.
Qed.

Lemma lex_lt_trans a b c : lex_lt a b = true -> lex_lt b c = true -> lex_lt a c = true.
Proof.
  revert b c. induction a as [|x a IH]; intros [|y b] [|z c]; cbn [lex_lt]; intros H1 H2;
    try discriminate; try reflexivity.
  specialize (IH b c). destruct (lex_lt a b), (lex_lt b c), (lex_lt a c); lia.
Qed.

Lemma lex_lt_total a b : lex_lt a b = false -> lex_lt b a = false -> a = b.
Proof.
  revert b. induction a as [|x a IH]; intros [|y b]; cbn [lex_lt]; intros H1 H2;
    try discriminate; try reflexivity.
  destruct (lex_lt a b) eqn:E1, (lex_lt b a) eqn:E2; try lia.
  assert (x = y) by lia. subst y. f_equal. apply IH; assumption.
Qed.

Lemma lex_lt_app p q x y : length p = length q ->
  lex_lt (p ++ x) (q ++ y) = lex_lt p q || row_eqb p q && lex_lt x y.
Proof.
  revert q. induction p as [|c p IH]; intros [|d q] Hl; try discriminate Hl; cbn [app lex_lt row_eqb]; [reflexivity|].
  rewrite IH by (injection Hl as Hl; exact Hl). destruct (c <? d)%nat, (c =? d)%nat, (lex_lt p q); reflexivity.
Qed.

Lemma row_lt_irrefl a : row_lt a a = false.
Proof. apply lex_lt_irrefl. Qed.
Lemma row_lt_trans a b c : row_lt a b = true -> row_lt b c = true -> row_lt a c = true.
Proof. apply lex_lt_trans. Qed.
Lemma row_lt_total a b : row_lt a b = false -> row_lt b a = false -> a = b.
Proof.
  intros H1 H2. rewrite <- (rev_involutive a), <- (rev_involutive b). f_equal. exact (lex_lt_total _ _ H1 H2).
Qed.
Lemma row_lt_connex a b : row_eqb a b = false -> row_lt b a = false -> row_lt a b = true.
Proof.
  intros E H. destruct (row_lt a b) eqn:E2; [reflexivity|]. rewrite (row_lt_total _ _ E2 H), row_eqb_refl in E. discriminate E.
Qed.

(* StronglySorted of row_lt as a Fixpoint: the scripts about merge and insertion take it apart by destruct; through ssorted_ss,
   Section SS of Base/Lists.v applies *)
Fixpoint ssorted (l : list (list nat)) : Prop :=
  match l with [] => True | a :: t => (forall x, In x t -> row_lt a x = true) /\ ssorted t end.

Lemma ssorted_cons_lt a b t : row_lt a b = true -> ssorted (b :: t) -> forall x, In x (b :: t) -> row_lt a x = true.
Proof. intros H [H1 _] x [<-|Hx]; [exact H|]. eapply row_lt_trans; [exact H|apply H1; exact Hx]. Qed.

Lemma ssorted_of_strictly l : strictly_sorted l = true -> ssorted l.
Proof.
  induction l as [|a t IH]; intros H; [exact I|].
  destruct t as [|b t'].
  - split; [intros x []|exact I].
  - cbn [strictly_sorted] in H. apply andb_true_iff in H. destruct H as [H1 H2].
    split; [exact (ssorted_cons_lt _ _ _ H1 (IH H2))|exact (IH H2)].
Qed.

Lemma strictly_of_ssorted l : ssorted l -> strictly_sorted l = true.
Proof.
  induction l as [|a t IH]; intros H; [reflexivity|].
  destruct H as [H1 H2]. destruct t as [|b t']; [reflexivity|].
  cbn [strictly_sorted]. rewrite (H1 b (or_introl eq_refl)). cbn. apply IH. exact H2.
Qed.

Lemma ssorted_ss l : ssorted l <-> StronglySorted (fun a b => row_lt a b = true) l.
Proof.
  induction l as [|a t IH]; cbn [ssorted]; [split; constructor|]. rewrite IH, <- Forall_forall. split.
  - intros [H1 H2]. constructor; assumption.
  - intros H. apply StronglySorted_inv in H. tauto.
Qed.

Lemma ssorted_nodup l : ssorted l -> NoDup l.
Proof.
  intros H. apply ssorted_ss, ss_nodup in H; [exact H|]. intros x Hx. rewrite row_lt_irrefl in Hx. discriminate Hx.
Qed.

Lemma ssorted_map g l : (forall x y, In x l -> In y l -> row_lt x y = true -> row_lt (g x) (g y) = true) ->
  ssorted l -> ssorted (map g l).
Proof.
  intros Hg H. apply ssorted_ss, (ss_map (fun x y => row_lt (g x) (g y) = true)); [auto|].
  apply (ss_weaken_in (fun a b => row_lt a b = true)); [exact Hg|apply ssorted_ss, H].
Qed.

Lemma ssorted_app l1 l2 : ssorted l1 -> ssorted l2 ->
  (forall x y, In x l1 -> In y l2 -> row_lt x y = true) -> ssorted (l1 ++ l2).
Proof. rewrite !ssorted_ss. apply ss_app. Qed.

Lemma ssorted_filter f l : ssorted l -> ssorted (filter f l).
Proof. rewrite !ssorted_ss. apply ss_filter. Qed.

Lemma merge_nil_r la : merge la [] = la.
Proof. destruct la; reflexivity. Qed.

Lemma merge_cons ba ta bb tb :
  merge (ba :: ta) (bb :: tb) =
  if row_eqb (fst ba) (fst bb) then (fst ba, badd (snd ba) (snd bb)) :: merge ta tb
  else if row_lt (fst bb) (fst ba) then bb :: merge (ba :: ta) tb
  else ba :: merge ta (bb :: tb).
Proof. reflexivity. Qed.

(* what the normalisations of a block list do (the sorted merge here; the sorts; add_block and collect of tensordot): they reorder,
   and fuse two blocks of one row into their sum *)
Inductive fuses : list block -> list block -> Prop :=
| fuses_perm l l' : Permutation l l' -> fuses l l'
| fuses_badd r f g l : fuses ((r, f) :: (r, g) :: l) ((r, badd f g) :: l)
| fuses_cons b l l' : fuses l l' -> fuses (b :: l) (b :: l')
| fuses_trans l1 l2 l3 : fuses l1 l2 -> fuses l2 l3 -> fuses l1 l3.

Lemma fuses_osum ls idx l l' : fuses l l' -> osum (map (bval ls idx) l') = osum (map (bval ls idx) l).
Proof.
  induction 1 as [l l' HP|r f g l|b l l' _ IH|l1 l2 l3 _ IH1 _ IH2]; cbn [map].
  - symmetry. apply osum_perm, Permutation_map, HP.
  - apply osum_badd.
  - rewrite !osum_cons, IH. reflexivity.
  - congruence.
Qed.

Lemma fuses_rows l l' r : fuses l l' -> In r (map fst l') <-> In r (map fst l).
Proof.
  induction 1 as [l l' HP|r' f g l|b l l' _ IH|l1 l2 l3 _ IH1 _ IH2]; cbn [map fst In].
  - symmetry. split; apply Permutation_in, Permutation_map; [|symmetry]; exact HP.
  - tauto.
  - rewrite IH. tauto.
  - rewrite IH2. exact IH1.
Qed.

Lemma merge_fuses la lb : fuses (la ++ lb) (merge la lb).
Proof.
  revert lb. induction la as [|ba ta IHa]; intros lb; [apply fuses_perm, Permutation_refl|].
  induction lb as [|bb tb IHb]; [rewrite merge_nil_r, app_nil_r; apply fuses_perm, Permutation_refl|].
  rewrite merge_cons. destruct (row_eqb (fst ba) (fst bb)) eqn:E; [|destruct (row_lt (fst bb) (fst ba))]; cbn [app].
  - apply row_eqb_iff in E. destruct ba as [ra fa], bb as [rb fb]. cbn [fst snd] in *. subst rb.
    apply (fuses_trans _ ((ra, fa) :: (ra, fb) :: ta ++ tb)); [apply fuses_perm, perm_skip, Permutation_sym, Permutation_middle|].
    apply (fuses_trans _ _ _ (fuses_badd _ _ _ _)), fuses_cons, IHa.
  - apply (fuses_trans _ (bb :: (ba :: ta) ++ tb)); [apply fuses_perm, Permutation_sym, (Permutation_middle (ba :: ta))|].
    apply fuses_cons, IHb.
  - apply fuses_cons, IHa.
Qed.

Lemma merge_rows_in la lb r : In r (map fst (merge la lb)) <-> In r (map fst la) \/ In r (map fst lb).
Proof. rewrite (fuses_rows _ _ r (merge_fuses la lb)), map_app. apply in_app_iff. Qed.

Lemma merge_osum ls idx la lb :
  osum (map (bval ls idx) (merge la lb)) = cadd (osum (map (bval ls idx) la)) (osum (map (bval ls idx) lb)).
Proof. rewrite (fuses_osum _ _ _ _ (merge_fuses la lb)), map_app. apply osum_app. Qed.

Lemma merge_ssorted la lb : ssorted (map fst la) -> ssorted (map fst lb) -> ssorted (map fst (merge la lb)).
Proof.
  revert lb. induction la as [|ba ta IHa]; intros lb Ha Hb; [exact Hb|].
  induction lb as [|bb tb IHb]; [rewrite merge_nil_r; exact Ha|].
  rewrite merge_cons. pose proof Ha as [Ha1 Ha2]. pose proof Hb as [Hb1 Hb2].
  destruct (row_eqb (fst ba) (fst bb)) eqn:E; [|destruct (row_lt (fst bb) (fst ba)) eqn:E2].
  - apply row_eqb_iff in E. split; [|apply IHa; assumption].
    intros x Hx. apply merge_rows_in in Hx. destruct Hx as [Hx|Hx]; [apply Ha1; exact Hx|rewrite E; apply Hb1; exact Hx].
  - split; [|apply IHb; exact Hb2].
    intros x Hx. apply merge_rows_in in Hx. destruct Hx as [Hx|Hx]; [|apply Hb1; exact Hx].
    exact (ssorted_cons_lt _ _ _ E2 Ha x Hx).
  - split; [|apply IHa; assumption].
    intros x Hx. apply merge_rows_in in Hx. destruct Hx as [Hx|Hx]; [apply Ha1; exact Hx|].
    exact (ssorted_cons_lt _ _ _ (row_lt_connex _ _ E E2) Hb x Hx).
Qed.

Lemma insert_block_perm b l : Permutation (insert_block b l) (b :: l).
Proof.
  induction l as [|c t IH]; cbn [insert_block]; [apply Permutation_refl|].
  destruct (row_lt (fst c) (fst b)); [|apply Permutation_refl].
  eapply Permutation_trans; [apply perm_skip; exact IH|apply perm_swap].
Qed.

Lemma sort_blocks_perm l : Permutation (sort_blocks l) l.
Proof.
  induction l as [|b l IH]; [apply Permutation_refl|].
  eapply Permutation_trans; [apply insert_block_perm|apply perm_skip; exact IH].
Qed.

Lemma insert_block_ssorted b l : ssorted (map fst l) -> ~ In (fst b) (map fst l) -> ssorted (map fst (insert_block b l)).
Proof.
  induction l as [|c t IH]; intros Hs Hn; cbn [insert_block].
  - split; [intros x []|exact I].
  - destruct (row_lt (fst c) (fst b)) eqn:E.
    + destruct Hs as [Hs1 Hs2]. split.
      * intros x Hx. apply (Permutation_in _ (Permutation_map fst (insert_block_perm b t))) in Hx.
        destruct Hx as [<-|Hx]; [exact E|apply Hs1; exact Hx].
      * apply IH; [exact Hs2|]. intros Hin. apply Hn. right. exact Hin.
    + split; [|exact Hs]. apply ssorted_cons_lt; [|exact Hs].
      destruct (row_lt (fst b) (fst c)) eqn:E2; [reflexivity|].
      exfalso. apply Hn. left. apply row_lt_total; assumption.
Qed.

Lemma sort_blocks_ssorted l : NoDup (map fst l) -> ssorted (map fst (sort_blocks l)).
Proof.
  induction l as [|b l IH]; intros Hn; [exact I|]. inversion Hn as [|x y Hx Hy]; subst.
  apply insert_block_ssorted; [apply IH; exact Hy|].
  intros Hin. apply Hx. apply (Permutation_in _ (Permutation_map fst (sort_blocks_perm l))). exact Hin.
Qed.

Lemma isort_blks_perm a : Permutation (blks (isort_qdata a)) (blks a).
Proof. unfold isort_qdata. destruct (qsorted a); [apply Permutation_refl|apply sort_blocks_perm]. Qed.

Lemma isort_ssorted a : claim_truthful a -> NoDup (rows a) -> ssorted (rows (isort_qdata a)).
Proof.
  intros Hc Hn. unfold isort_qdata. destruct (qsorted a) eqn:E.
  - apply ssorted_of_strictly. apply Hc. exact E.
  - apply sort_blocks_ssorted. exact Hn.
Qed.

Theorem transpose_dense p a idx : Permutation p (seq 0 (rank a)) ->
  to_ndarray (transpose p a) (gather 0%nat p idx) = to_ndarray a idx /\
  dense_sum (transpose p a) (gather 0%nat p idx) = dense_sum a idx.
Proof.
  intros HP. unfold to_ndarray, dense_sum, transpose. cbn [legs blks].
  rewrite map_map, (map_ext _ _ (fun b => bval_transpose p (legs a) idx b HP)). split; reflexivity.
Qed.

Lemma map_values_dense g a r idx : g c0 = c0 -> (forall x y, g (cadd x y) = cadd (g x) (g y)) ->
  map bsz (legs r) = map bsz (legs a) -> blks r = map (fun b : block => (fst b, fun i => g (snd b i))) (blks a) ->
  to_ndarray r idx = g (to_ndarray a idx) /\ dense_sum r idx = g (dense_sum a idx).
Proof.
  intros H0 Hadd Hl Hb. unfold to_ndarray, dense_sum.
  assert (E : map (bval (legs r) idx) (blks r) = map (option_map g) (map (bval (legs a) idx) (blks a))).
  { rewrite Hb, !map_map. apply map_ext. intros b. rewrite bval_map. f_equal. apply bval_bsz, Hl. }
  rewrite E. split; [apply olast_omap, H0|apply osum_omap; assumption].
Qed.

Theorem conj_dense ci a idx :
  to_ndarray (conj ci a) idx = cconj (to_ndarray a idx) /\ dense_sum (conj ci a) idx = cconj (dense_sum a idx).
Proof. apply (map_values_dense cconj); [reflexivity|apply cconj_add|apply bsz_conj|reflexivity]. Qed.

Theorem scale_dense s a idx :
  to_ndarray (scale s a) idx = cmul s (to_ndarray a idx) /\ dense_sum (scale s a) idx = cmul s (dense_sum a idx).
Proof.
  unfold scale. destruct (ceqb s c0) eqn:E.
  - apply ceqb_eq in E. subst s. rewrite !cmul_0_l. split; reflexivity.
  - apply (map_values_dense (cmul s)); [apply cmul_0_r|apply cmul_add_r|reflexivity|reflexivity].
Qed.

Lemma isort_legs a : legs (isort_qdata a) = legs a.
Proof. unfold isort_qdata. destruct (qsorted a); reflexivity. Qed.
Lemma scale_legs s a : legs (scale s a) = legs a.
Proof. unfold scale. destruct (ceqb s c0); reflexivity. Qed.
Lemma scale_qtot s a : qtot (scale s a) = qtot a.
Proof. unfold scale. destruct (ceqb s c0); reflexivity. Qed.

Lemma add_fuses alpha a b : fuses (blks a ++ blks (scale alpha b)) (blks (add alpha a b)).
Proof.
  apply (fuses_trans _ (blks (isort_qdata a) ++ blks (isort_qdata (scale alpha b)))); [|apply merge_fuses].
  apply fuses_perm, Permutation_app; symmetry; apply isort_blks_perm.
Qed.

Theorem add_dense_sum alpha a b idx : legs a = legs b ->
  dense_sum (add alpha a b) idx = cadd (dense_sum a idx) (cmul alpha (dense_sum b idx)).
Proof.
  intros Hl. rewrite <- (proj2 (scale_dense alpha b idx)). unfold dense_sum.
  rewrite (fuses_osum _ _ _ _ (add_fuses alpha a b)), map_app, osum_app, scale_legs, <- Hl. reflexivity.
Qed.

Lemma wf_of_ssorted ci a : length (qtot a) = length ci -> rows_shape a -> ssorted (rows a) -> charge_rule ci a -> WF ci a.
Proof.
  intros Hq Hs Hss Hr.
  constructor; [exact Hq|exact Hs|apply ssorted_nodup, Hss|exact Hr|intros _; apply strictly_of_ssorted, Hss].
Qed.

Lemma scale_blocks_rows s bs : map fst (scale_blocks s bs) = map fst bs.
Proof. unfold scale_blocks. rewrite map_map. reflexivity. Qed.

Lemma rows_scale_in s a r : In r (rows (scale s a)) -> In r (rows a).
Proof.
  unfold scale, rows. destruct (ceqb s c0); cbn [blks map]; [intros []|].
  rewrite scale_blocks_rows. exact (fun H => H).
Qed.

Theorem wf_scale ci s a : WF ci a -> WF ci (scale s a).
Proof.
  intros [Aq As An Ar Ac]. unfold scale. destruct (ceqb s c0) eqn:E.
  - apply wf_of_ssorted; [exact Aq|intros r []|exact I|intros r []].
  - constructor; unfold rows_shape, charge_rule, claim_truthful, rows, rank in *; cbn [qtot legs blks qsorted];
      rewrite ?scale_blocks_rows; assumption.
Qed.

Lemma conj_rows ci a : rows (conj ci a) = rows a.
Proof. unfold conj, rows. cbn [blks]. rewrite map_map. reflexivity. Qed.

Theorem wf_conj ci a : WF ci a -> WF ci (conj ci a).
Proof.
  intros [Aq As An Ar Ac]. constructor; unfold rows_shape, charge_rule, claim_truthful; rewrite ?conj_rows.
  - cbn [conj qtot]. auto with vlen.
  - unfold rank, conj. cbn [legs]. rewrite map_length. exact As.
  - exact An.
  - intros r Hr. apply row_ok_conj; [exact Aq|apply Ar; exact Hr].
  - exact Ac.
Qed.

Lemma transpose_rows p a : rows (transpose p a) = map (gather 0%nat p) (rows a).
Proof. unfold transpose, rows. cbn [blks]. rewrite !map_map. reflexivity. Qed.

Theorem wf_transpose ci p a : Permutation p (seq 0 (rank a)) -> WF ci a -> WF ci (transpose p a).
Proof.
  intros HP [Aq As An Ar Ac]. constructor; unfold rows_shape, charge_rule; rewrite ?transpose_rows.
  - exact Aq.
  - intros r Hr. apply in_map_iff in Hr. destruct Hr as [r0 [<- _]].
    unfold rank, transpose. cbn [legs]. rewrite !gather_length. reflexivity.
  - apply NoDup_map_in; [|exact An]. intros x y Hx Hy Heq.
    rewrite <- (gather_inv p (rank a) x HP (As x Hx)), <- (gather_inv p (rank a) y HP (As y Hy)), Heq. reflexivity.
  - intros r Hr. apply in_map_iff in Hr. destruct Hr as [r0 [<- Hr0]].
    intros j Hj. cbn [transpose legs qtot]. rewrite row_charge_transpose by exact HP. apply (Ar r0 Hr0 j Hj).
  - intros Hf. discriminate Hf.
Qed.

Theorem wf_add ci alpha a b : WF ci a -> WF ci b -> legs a = legs b -> qtot a = qtot b -> WF ci (add alpha a b).
Proof.
  intros Wa Wb Hl Hq. pose proof (wf_scale ci alpha b Wb) as Wsb.
  assert (Hin : forall r, In r (rows (add alpha a b)) -> In r (rows a) \/ In r (rows b)).
  { intros r Hr. apply (fuses_rows _ _ r (add_fuses alpha a b)) in Hr. rewrite map_app in Hr. apply in_app_iff in Hr.
    destruct Hr as [Hr|Hr]; [left; exact Hr|right; exact (rows_scale_in alpha b r Hr)]. }
  apply wf_of_ssorted.
  - apply Wa.
  - intros r Hr. unfold rank, add. cbn [legs]. destruct (Hin r Hr) as [H|H]; [apply Wa, H|rewrite Hl; apply Wb, H].
  - apply merge_ssorted; [apply (isort_ssorted a); apply Wa|apply (isort_ssorted (scale alpha b)); apply Wsb].
  - intros r Hr. unfold add. cbn [legs qtot]. destruct (Hin r Hr) as [H|H]; [apply Wa, H|rewrite Hl, Hq; apply Wb, H].
Qed.

Theorem add_dense ci alpha a b idx : WF ci a -> WF ci b -> legs a = legs b -> qtot a = qtot b ->
  to_ndarray (add alpha a b) idx = cadd (to_ndarray a idx) (cmul alpha (to_ndarray b idx)).
Proof.
  intros Wa Wb Hl Hq. rewrite !(wf_dense ci) by (try apply wf_add; assumption). apply add_dense_sum. exact Hl.
Qed.

Lemma row_okb_iff ci ls qt r : row_okb ci ls qt r = true <-> row_ok ci ls qt r.
Proof.
  unfold row_okb, row_ok. rewrite forallb_forall. split; intros H j Hj.
  - apply Z.eqb_eq, H, in_seq. lia.
  - apply Z.eqb_eq, H. apply in_seq in Hj. lia.
Qed.

Lemma nodupb_sound l : nodupb l = true -> NoDup l.
Proof.
  induction l as [|x l IH]; cbn [nodupb]; intros H; constructor; apply andb_true_iff in H; destruct H as [H1 H2].
  - intros Hin. apply negb_true_iff, not_true_iff_false in H1. apply H1, existsb_exists.
    exists x. split; [exact Hin|apply row_eqb_refl].
  - apply IH. exact H2.
Qed.

(* of the seven conjuncts of wfb the second (qtotal reduced) and the last (the legs) are not needed, nor is the range check of
   in_rangeb *)
Lemma wfb_sound ci a : wfb ci a = true -> WF ci a.
Proof.
  unfold wfb. rewrite !andb_true_iff, !forallb_forall. intros ((((((H1 & _) & H2) & H3) & H4) & H5) & _). constructor.
  - apply Nat.eqb_eq, H1.
  - intros r Hr. specialize (H2 r Hr). apply andb_true_iff in H2. apply Nat.eqb_eq, H2.
  - apply nodupb_sound, H3.
  - intros r Hr. apply row_okb_iff, H4, Hr.
  - intros Hq. rewrite Hq in H5. exact H5.
Qed.

(* the same two blocks under a false and under a true claim *)
Definition bad_claim_example : arr :=
  mkArr [mkLeg [1%nat; 1%nat] [[0]; [0]] 1] [0] [([1%nat], fun _ => (5, 0)); ([0%nat], fun _ => (7, 0))] true.
Definition good_claim_example : arr :=
  mkArr [mkLeg [1%nat; 1%nat] [[0]; [0]] 1] [0] [([0%nat], fun _ => (7, 0)); ([1%nat], fun _ => (5, 0))] true.
