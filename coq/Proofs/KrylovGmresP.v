(* Model/KrylovGmres.v (restart bookkeeping of GMRES.run / GMRES.reset, property C16).  `gm_inner_spec` says where a
   cycle stops; the stop rule, exhaustion and the bounds on the cycles are read off it.  Events are counted for an
   arbitrary tag; the theorem's four counts are instances. *)
From TenpyV Require Import Base.Prelude Model.Krylov Model.KrylovGmres.

Lemma gm_inner_spec N_min n : forall k fl,
  let (K, cv) := gm_inner N_min k n fl in
  (forall j, (k <= j)%nat -> (j < (if cv then K - 1 else K))%nat -> gm_hit N_min fl j = false) /\
  (if cv then (k < K <= k + n)%nat /\ gm_hit N_min fl (K - 1) = true else K = (k + n)%nat).
Proof.
  induction n as [|n IH]; intros k fl; cbn [gm_inner].
  - split; [intros j H1 H2|]; lia.
  - destruct (gm_hit N_min fl k) eqn:Eh.
    + split; [intros j H1 H2; lia|]. split; [lia|]. replace (S k - 1)%nat with k by lia. exact Eh.
    + specialize (IH (S k) fl). destruct (gm_inner N_min (S k) n fl) as [K cv]. destruct IH as [A B]. split.
      * intros j H1 H2. destruct (Nat.eq_dec j k) as [->|Hne]; [exact Eh|]. apply A; lia.
      * destruct cv; [destruct B as [B1 B2]; split; [lia|exact B2]|lia].
Qed.

Lemma gm_hit_iff N_min fl j :
  gm_hit N_min fl j = true <-> (gm_below fl j = true /\ ((N_min <= j)%nat \/ gm_exh fl j = true)).
Proof.
  unfold gm_hit. rewrite andb_true_iff, orb_true_iff, Nat.leb_le. tauto.
Qed.

Lemma gm_stop_rule N_min N_max fl K cv : gm_inner N_min 0 N_max fl = (K, cv) ->
  (cv = true -> (1 <= K <= N_max)%nat /\ gm_below fl (K - 1) = true /\
                ((N_min <= K - 1)%nat \/ gm_exh fl (K - 1) = true) /\
                (forall j, (j < K - 1)%nat ->
                   ~ (gm_below fl j = true /\ ((N_min <= j)%nat \/ gm_exh fl j = true)))) /\
  (cv = false -> K = N_max /\
                 (forall j, (j < N_max)%nat ->
                    ~ (gm_below fl j = true /\ ((N_min <= j)%nat \/ gm_exh fl j = true)))).
Proof.
  intros H. pose proof (gm_inner_spec N_min N_max 0 fl) as S. rewrite H in S. destruct S as [A B].
  assert (Hno : forall j, (j < (if cv then K - 1 else K))%nat ->
                  ~ (gm_below fl j = true /\ ((N_min <= j)%nat \/ gm_exh fl j = true))).
  { intros j Hj Hc. apply gm_hit_iff in Hc. rewrite A in Hc; [discriminate|lia|exact Hj]. }
  split; intros ->.
  - destruct B as [B1 B2]. apply gm_hit_iff in B2. destruct B2 as [B2 B3].
    split; [lia|]. split; [exact B2|]. split; [exact B3|exact Hno].
  - split; [lia|]. replace N_max with K by lia. exact Hno.
Qed.

(* without exhaustion flags the rule is the plain one: first step k >= N_min below the tolerance *)
Lemma gm_stop_rule_no_exhaustion : forall N_min fl k, gm_exh fl k = false ->
  gm_hit N_min fl k = (gm_below fl k && (N_min <=? k)%nat).
Proof. intros N_min fl k H. unfold gm_hit. rewrite H, orb_false_r. reflexivity. Qed.

Lemma gm_exhausted_stops N_min N_max fl k : (k < N_max)%nat ->
  gm_below fl k = true -> gm_exh fl k = true ->
  (fst (gm_inner N_min 0 N_max fl) <= S k)%nat /\ snd (gm_inner N_min 0 N_max fl) = true.
Proof.
  intros Hk Hb He. pose proof (gm_inner_spec N_min N_max 0 fl) as S.
  destruct (gm_inner N_min 0 N_max fl) as [K cv]. destruct S as [A B]. cbn [fst snd].
  assert (Hh : gm_hit N_min fl k = true) by (apply gm_hit_iff; split; [exact Hb|right; exact He]).
  (* step k cannot lie among the steps that did not meet the test *)
  destruct cv.
  - split; [|reflexivity]. destruct (Nat.le_gt_cases K (S k)) as [Hle|Hgt]; [exact Hle|].
    rewrite A in Hh by lia. discriminate.
  - rewrite A in Hh by lia. discriminate.
Qed.

Lemma gm_inner_bounds N_min N_max fl : (1 <= N_max)%nat ->
  (1 <= fst (gm_inner N_min 0 N_max fl) <= N_max)%nat /\
  (snd (gm_inner N_min 0 N_max fl) = false -> fst (gm_inner N_min 0 N_max fl) = N_max).
Proof.
  intros HN. pose proof (gm_inner_spec N_min N_max 0 fl) as S.
  destruct (gm_inner N_min 0 N_max fl) as [K cv]. destruct S as [_ B]. cbn [fst snd].
  destruct cv; [split; [lia|discriminate]|split; [lia|intros _; lia]].
Qed.

Lemma gm_cycles_spec N_min N_max r : forall fls, (1 <= N_max)%nat ->
  let l := gm_cycles N_min N_max r fls in
  (length l <= r)%nat /\
  Forall (fun p => (1 <= fst p <= N_max)%nat) l /\
  (forall i, (S i < length l)%nat -> nth i l (0%nat, true) = (N_max, false)) /\
  ((forall p, In p l -> snd p = false) -> length l = r).
Proof.
  induction r as [|r IH]; intros fls HN; cbn [gm_cycles]; cbn zeta.
  - split; [cbn; lia|]. split; [constructor|]. split; [intros i Hi; cbn in Hi; lia|]. intros _. reflexivity.
  - set (p := gm_inner N_min 0 N_max (hd [] fls)).
    pose proof (gm_inner_bounds N_min N_max (hd [] fls) HN) as [Hb Hn]. fold p in Hb, Hn.
    destruct (snd p) eqn:Ecv.
    + split; [cbn; lia|]. split; [constructor; [exact Hb|constructor]|].
      split; [intros i Hi; cbn in Hi; lia|].
      intros Hall. specialize (Hall p (or_introl eq_refl)). congruence.
    + specialize (IH (tl fls) HN). cbn zeta in IH. destruct IH as (I1 & I2 & I3 & I4).
      split; [cbn [length]; lia|]. split; [constructor; assumption|]. split.
      * intros i Hi. cbn [length] in Hi. destruct i as [|i]; cbn [nth].
        -- destruct p as [K cv]. cbn [fst snd] in *. subst cv. rewrite (Hn eq_refl). reflexivity.
        -- apply I3. lia.
      * intros Hall. cbn [length]. f_equal. apply I4. intros q Hq. apply Hall. right. exact Hq.
Qed.

Lemma count_tag_app t l1 l2 : count_tag t (l1 ++ l2) = (count_tag t l1 + count_tag t l2)%nat.
Proof. unfold count_tag. rewrite filter_app, app_length. reflexivity. Qed.

Lemma count_tag_map t t' (f : nat -> ev) l : (forall k, ev_tag (f k) = t') ->
  count_tag t (map f l) = (Nat.b2n (t' =? t) * length l)%nat.
Proof.
  intros H. unfold count_tag. induction l as [|a l IH]; cbn [map filter length]; [apply mult_n_O|].
  rewrite H. revert IH. destruct (t' =? t)%nat; cbn [length Nat.b2n]; lia.
Qed.

Lemma count_cycle_events t c K :
  count_tag t (gm_cycle_events c K) = ((Nat.b2n (11 =? t) + Nat.b2n (12 =? t)) * K)%nat.
Proof.
  unfold gm_cycle_events. rewrite count_tag_app.
  rewrite (count_tag_map t 11 (fun k => (11, c, k, S k)%nat)) by (intros; reflexivity).
  rewrite (count_tag_map t 12 (fun i => (12, c, i, 0)%nat)) by (intros; reflexivity).
  rewrite seq_length. lia.
Qed.

Lemma count_restart_events t c :
  count_tag t (gm_restart_events c) = (Nat.b2n (13 =? t) + Nat.b2n (14 =? t) + Nat.b2n (10 =? t))%nat.
Proof.
  unfold count_tag, gm_restart_events. cbn [filter ev_tag].
  destruct (13 =? t)%nat, (14 =? t)%nat, (10 =? t)%nat; reflexivity.
Qed.

Lemma count_run_events t l : forall c,
  count_tag t (gm_run_events c l) =
  ((Nat.b2n (11 =? t) + Nat.b2n (12 =? t)) * sum_nat (map fst l) +
   (Nat.b2n (13 =? t) + Nat.b2n (14 =? t) + Nat.b2n (10 =? t)) * gm_resets l)%nat.
Proof.
  induction l as [|[K cv] l IH]; intros c; [cbn; lia|].
  cbn [gm_run_events map fst]. change (sum_nat (K :: map fst l)) with (K + sum_nat (map fst l))%nat.
  rewrite !count_tag_app, count_cycle_events, IH.
  unfold gm_resets. cbn [filter snd]. destruct cv; cbn [negb length]; [change (count_tag t []) with 0%nat|rewrite count_restart_events]; lia.
Qed.

Lemma gmres_matvec_count N_min N_max restart fls :
  let l := gm_cycles N_min N_max restart fls in
  let evs := gmres_events N_min N_max restart false fls in
  (count_tag 11 evs + count_tag 14 evs + count_tag 15 evs = 2 + sum_nat (map fst l) + gm_resets l)%nat /\
  count_tag 10 evs = S (gm_resets l) /\ count_tag 13 evs = gm_resets l /\
  count_tag 12 evs = sum_nat (map fst l).
Proof.
  intros l evs. subst evs. unfold gmres_events. fold l.
  change ((14, 0, 0, 0)%nat :: (10, 0, 0, 0)%nat :: gm_run_events 0 l ++ [(15, 0, 0, 0)%nat])
    with ([(14, 0, 0, 0)%nat; (10, 0, 0, 0)%nat] ++ gm_run_events 0 l ++ [(15, 0, 0, 0)%nat]).
  rewrite !count_tag_app, !count_run_events. cbn. repeat split; lia.
Qed.

Lemma fresh_run_events l : forall c, Forall ev_fresh (gm_run_events c l).
Proof.
  induction l as [|[K cv] t IH]; intros c; [constructor|].
  cbn [gm_run_events]. rewrite !Forall_app. repeat split.
  - unfold gm_cycle_events. rewrite Forall_app. split; apply Forall_forall; intros e He;
      apply in_map_iff in He; destruct He as (k & <- & _); cbn; split; intros H; try discriminate; reflexivity.
  - destruct cv; [constructor|]. unfold gm_restart_events.
    repeat constructor; cbn; intros H; try discriminate; reflexivity.
  - apply IH.
Qed.

Lemma fresh_gmres_events N_min N_max restart ib fls : Forall ev_fresh (gmres_events N_min N_max restart ib fls).
Proof.
  unfold gmres_events.
  constructor; [cbn; split; intros H; try discriminate; reflexivity|].
  constructor; [cbn; split; intros H; try discriminate; reflexivity|].
  destruct ib; [constructor|]. rewrite Forall_app. split; [apply fresh_run_events|].
  repeat constructor; cbn; intros H; discriminate.
Qed.
