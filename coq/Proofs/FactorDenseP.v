(* Model/FactorDense.v: the dense value of a list of block entries; the assembled factors of svd / eig are read as families over the
   positions of the kept blocks (asm_map). *)
From TenpyV Require Import Base.Prelude Base.Lists Model.Leg Model.Factor Model.FactorDense Model.FactorDense3.
Open Scope Z_scope.

Lemma sumZ_single {A} (key : A -> nat) (h : A -> Z) l s : NoDup (map key l) -> In s l ->
  (forall s', In s' l -> key s' <> key s -> h s' = 0) -> sumZ (map h l) = h s.
Proof.
  induction l as [|x l IH]; intros ND Hin H; [destruct Hin|]. cbn [map] in ND. inversion ND as [|? ? Hni ND']; subst.
  cbn [map sumZ]. destruct Hin as [->|Hin].
  - rewrite sumZ_map_zero; [lia|]. intros s' Hs'. apply H; [right; exact Hs'|]. intros E. apply Hni. rewrite <- E. apply in_map, Hs'.
  - rewrite (IH ND' Hin), (H x); [lia|left; reflexivity| |intros s' Hs'; apply H; right; exact Hs'].
    intros E. apply Hni. rewrite E. apply in_map, Hin.
Qed.

Lemma sumn_ext n f g : (forall t, (t < n)%nat -> f t = g t) -> sumn n f = sumn n g.
Proof.
  induction n as [|n IH]; intros H; [reflexivity|]. cbn [sumn]. rewrite IH by (intros t Ht; apply H; lia).
  rewrite (H n) by lia. reflexivity.
Qed.

Lemma sumn_zero n f : (forall t, (t < n)%nat -> f t = 0) -> sumn n f = 0.
Proof.
  induction n as [|n IH]; intros H; [reflexivity|]. cbn [sumn]. rewrite IH by (intros t Ht; apply H; lia).
  rewrite (H n) by lia. reflexivity.
Qed.

Lemma sumn_split a b f : sumn (a + b) f = sumn a f + sumn b (fun t => f (a + t)%nat).
Proof.
  induction b as [|b IH]; [rewrite Nat.add_0_r; cbn [sumn]; lia|].
  rewrite Nat.add_succ_r. cbn [sumn]. rewrite IH. lia.
Qed.

Lemma sumn_scale n c f : sumn n (fun t => c * f t) = c * sumn n f.
Proof. induction n as [|n IH]; cbn [sumn]; [lia|]. rewrite IH. lia. Qed.

Lemma sumn_delta n x g : (x < n)%nat -> sumn n (fun t => delta x t * g t) = g x.
Proof.
  induction n as [|n IH]; intros H; [lia|]. cbn [sumn]. destruct (Nat.eq_dec x n) as [->|NE].
  - rewrite sumn_zero; [unfold delta; rewrite Nat.eqb_refl; lia|].
    intros t Ht. unfold delta. destruct (Nat.eqb n t) eqn:E; [apply Nat.eqb_eq in E; lia|lia].
  - rewrite IH by lia. unfold delta. destruct (Nat.eqb x n) eqn:E; [apply Nat.eqb_eq in E; lia|lia].
Qed.

Lemma delta_shift o a b : delta (o + a) (o + b) = delta a b.
Proof. unfold delta. destruct (Nat.eqb a b) eqn:E; destruct (Nat.eqb (o + a) (o + b)) eqn:E'; try reflexivity; lia. Qed.

Lemma delta_sym a b : delta a b = delta b a.
Proof. unfold delta. rewrite Nat.eqb_sym. reflexivity. Qed.

Lemma boff_nil q : boff [] q = 0%nat.
Proof. unfold boff. rewrite firstn_nil. reflexivity. Qed.
Lemma boff_0 ns : boff ns 0 = 0%nat.
Proof. reflexivity. Qed.
Lemma boff_cons n ns q : boff (n :: ns) (S q) = (n + boff ns q)%nat.
Proof. reflexivity. Qed.
Lemma bsize_cons n ns q : bsize (n :: ns) (S q) = bsize ns q.
Proof. reflexivity. Qed.

Lemma boff_S ns : forall q, boff ns (S q) = (boff ns q + bsize ns q)%nat.
Proof.
  induction ns as [|n ns IH]; intros q.
  - rewrite !boff_nil. unfold bsize. destruct q; reflexivity.
  - destruct q.
    + rewrite boff_cons, !boff_0. unfold bsize. cbn [nth]. lia.
    + rewrite !boff_cons, IH, bsize_cons. lia.
Qed.

Lemma boff_mono ns q q' : (q <= q')%nat -> (boff ns q <= boff ns q')%nat.
Proof. induction 1 as [|q' _ IH]; [lia|]. rewrite boff_S. lia. Qed.

Lemma boff_end_le ns q : (boff ns q + bsize ns q <= list_sum ns)%nat.
Proof.
  rewrite <- boff_S. destruct (le_lt_dec (S q) (length ns)) as [L|L].
  - replace (list_sum ns) with (boff ns (length ns)) by (unfold boff; rewrite firstn_all; reflexivity).
    apply boff_mono, L.
  - unfold boff. rewrite firstn_all2 by lia. lia.
Qed.

Lemma inblk_iff ns q x : inblk ns q x = true <-> (boff ns q <= x < boff ns q + bsize ns q)%nat.
Proof. unfold inblk. lia. Qed.

Lemma inblk_unique ns q q' x : inblk ns q x = true -> inblk ns q' x = true -> q = q'.
Proof.
  rewrite !inblk_iff. intros H H'. destruct (lt_eq_lt_dec q q') as [[L|E]|L]; [|exact E|]; exfalso.
  - pose proof (boff_mono ns (S q) q' L) as M. rewrite boff_S in M. lia.
  - pose proof (boff_mono ns (S q') q L) as M. rewrite boff_S in M. lia.
Qed.

Lemma inblk_bounds ns q x : inblk ns q x = true -> (x < list_sum ns /\ q < length ns)%nat.
Proof.
  rewrite inblk_iff. intros H. pose proof (boff_end_le ns q). split; [lia|].
  destruct (le_lt_dec (length ns) q) as [L|L]; [|exact L]. unfold bsize in H. rewrite nth_overflow in H by exact L. lia.
Qed.

Lemma inblk_ex ns : forall x, (x < list_sum ns)%nat -> exists q, inblk ns q x = true.
Proof.
  induction ns as [|n ns IH]; intros x H.
  - cbn in H. lia.
  - change (list_sum (n :: ns)) with (n + list_sum ns)%nat in H. destruct (lt_dec x n) as [L|L].
    + exists 0%nat. apply inblk_iff. rewrite boff_0. unfold bsize. cbn [nth]. lia.
    + destruct (IH (x - n)%nat ltac:(lia)) as [q Hq]. exists (S q). apply inblk_iff. apply inblk_iff in Hq.
      rewrite boff_cons, bsize_cons. lia.
Qed.

Lemma sumn_inblk ns q g :
  sumn (list_sum ns) (fun t => if inblk ns q t then g (t - boff ns q)%nat else 0) = sumn (bsize ns q) g.
Proof.
  pose proof (boff_end_le ns q) as H.
  replace (list_sum ns) with (boff ns q + (bsize ns q + (list_sum ns - boff ns q - bsize ns q)))%nat by lia.
  rewrite !sumn_split.
  rewrite (sumn_zero (boff ns q)).
  2:{ intros t Ht. destruct (inblk ns q t) eqn:E; [apply inblk_iff in E; lia|reflexivity]. }
  rewrite (sumn_zero (list_sum ns - boff ns q - bsize ns q)).
  2:{ intros t Ht. destruct (inblk ns q _) eqn:E; [apply inblk_iff in E; lia|reflexivity]. }
  rewrite Z.add_0_l, Z.add_0_r. apply sumn_ext. intros t Ht.
  replace (inblk ns q (boff ns q + t)) with true by (symmetry; apply inblk_iff; lia).
  f_equal. lia.
Qed.

Lemma bval_eq rs cs r c e :
  bval rs cs r c e = if inblk rs (erow e) r && inblk cs (ecol e) c
                     then emat e (r - boff rs (erow e))%nat (c - boff cs (ecol e))%nat else 0.
Proof. destruct e as [[i j] M]. reflexivity. Qed.

Lemma bval_ext rs cs r c i j (M M' : dmat) :
  (forall x y, (x < bsize rs i)%nat -> (y < bsize cs j)%nat -> M x y = M' x y) -> bval rs cs r c (i, j, M) = bval rs cs r c (i, j, M').
Proof.
  intros H. unfold bval. destruct (inblk rs i r) eqn:Er; [|reflexivity]. destruct (inblk cs j c) eqn:Ec; [|reflexivity].
  apply inblk_iff in Er. apply inblk_iff in Ec. apply H; lia.
Qed.

Lemma bval_other_col rs ns r t m e : inblk ns m t = true -> ecol e <> m -> bval rs ns r t e = 0.
Proof.
  intros Ht NE. rewrite bval_eq. destruct (inblk ns (ecol e) t) eqn:E; [|rewrite andb_false_r; reflexivity].
  exfalso. apply NE. exact (inblk_unique ns _ _ t E Ht).
Qed.

Lemma dense_col_single rs ns es e r t :
  NoDup (map ecol es) -> In e es -> inblk ns (ecol e) t = true -> dense rs ns es r t = bval rs ns r t e.
Proof.
  intros ND Hin Ht. apply (sumZ_single ecol _ es e ND Hin). intros e' _ NE. exact (bval_other_col rs ns r t _ e' Ht NE).
Qed.

Lemma dense_tent ns cs es t c : dense ns cs es t c = dense cs ns (map tent es) c t.
Proof.
  unfold dense. rewrite map_map. f_equal. apply map_ext. intros [[i j] M]. unfold tent, bval, erow, ecol, emat, mT.
  cbn [fst snd]. rewrite andb_comm. reflexivity.
Qed.

Lemma dense_scale_cols {A} (fi fx : A -> nat) (fA : A -> dmat) (sv : A -> dvec) (dg : dvec) rs ns l r t :
  (forall s, In s l -> forall a, (a < bsize ns (fx s))%nat -> dg (boff ns (fx s) + a)%nat = sv s a) ->
  dense rs ns (map (fun s => (fi s, fx s, fA s)) l) r t * dg t
  = dense rs ns (map (fun s => (fi s, fx s, fun x a => fA s x a * sv s a)) l) r t.
Proof.
  intros H. unfold dense. rewrite Z.mul_comm, sumZ_map_scale, !map_map. f_equal. apply map_ext_in. intros s Hs. unfold bval.
  destruct (inblk ns (fx s) t) eqn:Et; [|rewrite andb_false_r; lia]. apply inblk_iff in Et.
  rewrite <- (H s Hs (t - boff ns (fx s))%nat) by lia. replace (boff ns (fx s) + (t - boff ns (fx s)))%nat with t by lia.
  destruct (inblk rs (fi s) r); cbn [andb]; lia.
Qed.

Definition indexed {A} (l : list A) : list (nat * A) := combine (seq 0 (length l)) l.

Lemma indexed_fst {A} (l : list A) : map fst (indexed l) = seq 0 (length l).
Proof. apply map_fst_combine, seq_length. Qed.
Lemma indexed_snd {A} (l : list A) : map snd (indexed l) = l.
Proof. apply map_snd_combine, seq_length. Qed.

Lemma indexed_In {A} (l : list A) m e : In (m, e) (indexed l) -> nth_error l m = Some e.
Proof. intros H. apply combine_seq_In in H. rewrite Nat.sub_0_r in H. apply H. Qed.

Lemma asm_map fx fy fm ks : asm fx fy fm 0 ks
  = map (fun me => (fx (fst me) (snd me), fy (fst me) (snd me), fm (fst me) (snd me))) (indexed ks).
Proof.
  unfold indexed. generalize 0%nat. induction ks as [|e ks IH]; intros m0; [reflexivity|].
  cbn [asm length seq combine map fst snd]. f_equal. apply IH.
Qed.

Lemma bsize_inner ks me : In me (indexed ks) -> bsize (inner_sizes ks) (fst me) = f_n (sb_fac (snd me)).
Proof. destruct me as [m e]. intros H. exact (nth_error_nth _ _ _ (map_nth_error _ _ _ (indexed_In ks m e H))). Qed.

Lemma svd_S_blocks ks me : In me (indexed ks) -> forall a, (a < bsize (inner_sizes ks) (fst me))%nat ->
  svd_S ks (boff (inner_sizes ks) (fst me) + a)%nat = f_S (sb_fac (snd me)) a.
Proof.
  intros H a Ha. rewrite (bsize_inner ks me H) in Ha. destruct me as [m e]. apply indexed_In in H. cbn [fst snd] in *.
  revert m H. induction ks as [|e0 t IH]; intros [|m] Hm; try discriminate.
  - injection Hm as <-. rewrite boff_0. cbn [svd_S Nat.add]. destruct (a <? f_n (sb_fac e0))%nat eqn:E; [reflexivity|lia].
  - cbn [inner_sizes map]. fold (inner_sizes t). rewrite boff_cons. cbn [svd_S].
    destruct (_ <? f_n (sb_fac e0))%nat eqn:E; [lia|].
    replace (f_n (sb_fac e0) + boff (inner_sizes t) m + a - f_n (sb_fac e0))%nat with (boff (inner_sizes t) m + a)%nat by lia.
    apply IH, Hm.
Qed.

Section Reconstruct.
  Variable fac : nat -> nat -> dmat -> fac3.

  Definition factor_blocks (rs cs : list nat) (a : list bent) : list sblock :=
    map (fun e : bent => let '(i, j, M) := e in (i, j, fac (bsize rs i) (bsize cs j) M)) a.
End Reconstruct.

Lemma dense_factor_blocks fac rs cs a r c :
  (forall nr nc M x y, (x < nr)%nat -> (y < nc)%nat -> fac_prod (fac nr nc M) x y = M x y) ->
  dense rs cs (map prod_ent (factor_blocks fac rs cs a)) r c = dense rs cs a r c.
Proof.
  intros Hfac. unfold dense, factor_blocks. rewrite !map_map. f_equal. apply map_ext. intros [[i j] M]. apply bval_ext, Hfac.
Qed.

Definition gram (n : nat) (A : dmat) : dmat := fun t t' => sumn n (fun r => A r t * A r t').

(* a row sector without stored block is a zero row / column of U *)
Theorem svd_full_refuted : exists rs fs,
  NoDup (map sb_row fs) /\
  (forall e, In e fs -> forall a b, (a < bsize rs (sb_row e))%nat -> (b < bsize rs (sb_row e))%nat ->
     sumn (bsize rs (sb_row e)) (fun x => f_U (sb_fac e) x a * f_U (sb_fac e) x b) = delta a b) /\
  exists t, (t < list_sum rs)%nat /\ gram (list_sum rs) (dense rs rs (svd_U_full fs)) t t <> delta t t.
Proof.
  exists [1%nat; 1%nat], [(0%nat, 0%nat, mkFac3 1 (of_rows [[1]]) (of_list [1]) (of_rows [[1]]))].
  split; [repeat constructor; cbn; tauto|]. split.
  - intros e [<-|[]] a b Ha Hb. cbn in Ha, Hb. assert (a = 0%nat) by lia. assert (b = 0%nat) by lia. subst. reflexivity.
  - exists 1%nat. split; [cbn; lia|]. vm_compute. discriminate.
Qed.

Lemma svd_rows_kept ci a qR iq fs :
  map (fun r : krow => (fst (fst r), snd (fst r), fst (snd r)))
      (svd_rows ci a qR iq (map (fun e => (sb_row e, sb_col e)) fs) (map (fun e => Z.of_nat (f_n (sb_fac e))) fs))
  = map (fun e => (sb_row e, sb_col e, Z.of_nat (f_n (sb_fac e)))) (kept fs).
Proof.
  induction fs as [|e fs IH]; [reflexivity|]. cbn [map svd_rows kept filter]. fold (kept fs).
  rewrite map_app.
  destruct (0 <? Z.of_nat (f_n (sb_fac e))) eqn:E; destruct (0 <? f_n (sb_fac e))%nat eqn:E'; try lia.
  - cbn [map app fst snd]. f_equal. exact IH.
  - cbn [map app]. exact IH.
Qed.

Theorem svd_plan_link ci a fs oL oR iq p :
  mdata a = map (fun e => (sb_row e, sb_col e)) fs ->
  svd_charges ci a (map (fun e => Z.of_nat (f_n (sb_fac e))) fs) oL oR iq = Some p ->
  map (fun r : krow => (fst (fst r), snd (fst r), fst (snd r))) (s_rows p)
    = map (fun e => (sb_row e, sb_col e, Z.of_nat (f_n (sb_fac e)))) (kept fs) /\
  bsz (s_legR p) = map Z.of_nat (inner_sizes (kept fs)).
Proof.
  intros Hd. unfold svd_charges. destruct (resolve_LR ci a oL oR) as [[qL qR]|]; [|discriminate].
  intros H. injection H as <-. cbn [s_rows s_legR]. rewrite Hd.
  pose proof (svd_rows_kept ci a qR iq fs) as K. split; [exact K|].
  apply (f_equal (map snd)) in K. rewrite !map_map in K.
  unfold bsz, inner_sizes. cbn [blocks]. rewrite !map_map. exact K.
Qed.

Lemma all_some_map {A B} (f : A -> option B) (g : A -> B) l :
  (forall x, In x l -> f x = Some (g x)) -> all_some (map f l) = Some (map g l).
Proof.
  induction l as [|x l IH]; intros H; [reflexivity|]. cbn [map all_some].
  rewrite (H x (or_introl eq_refl)), IH by (intros y Hy; apply H; right; exact Hy). reflexivity.
Qed.

(* phase_of without its option *)
Definition sgn1 (x : Z) : Z := if x =? 0 then 1 else Z.sgn x.
Definition phase (K : nat) (R : dmat) (k : nat) : Z := if (k <? K)%nat then sgn1 (R k k) else 1.

Lemma phases_ok K R : phases K R = Some (map (fun k => sgn1 (R k k)) (seq 0 K)).
Proof. unfold phases. apply all_some_map. intros k _. unfold phase_of, sgn1. destruct (R k k =? 0); reflexivity. Qed.

Lemma nth_phase K R k : nth k (map (fun k => sgn1 (R k k)) (seq 0 K)) 1 = phase K R k.
Proof.
  unfold phase. destruct (k <? K)%nat eqn:E.
  - apply (nth_map_seq (fun k => sgn1 (R k k))). lia.
  - apply nth_overflow. rewrite map_length, seq_length. lia.
Qed.

Lemma phase_sq K R k : phase K R k * phase K R k = 1.
Proof. unfold phase, sgn1. destruct (k <? K)%nat; [|reflexivity]. destruct (R k k); reflexivity. Qed.

(* the hypothesis serves the third clause only: at a zero of the diagonal the phase is 1 and R' k k = 0 *)
Theorem qr_pos_diag_ok P N Q R : (forall k, (k < Nat.min P N)%nat -> R k k <> 0) ->
  exists Q' R', pos_diag P N Q R = Some (Q', R') /\
    (forall r c, sumn P (fun k => Q' r k * R' k c) = sumn P (fun k => Q r k * R k c)) /\
    (forall k, (k < Nat.min P N)%nat -> 0 < R' k k) /\
    (forall k c, R k c = 0 -> R' k c = 0) /\
    (forall M, (forall k k', (k < P)%nat -> (k' < P)%nat -> sumn M (fun r => Q r k * Q r k') = delta k k') ->
               forall k k', (k < P)%nat -> (k' < P)%nat -> sumn M (fun r => Q' r k * Q' r k') = delta k k').
Proof.
  intros H. set (K := Nat.min P N) in *. set (ph := map (fun k => sgn1 (R k k)) (seq 0 K)).
  exists (fun r k => Q r k * nth k ph 1), (fun k c => nth k ph 1 * R k c).
  split; [|split; [|split; [|split]]].
  - unfold pos_diag. fold K. rewrite (phases_ok K R). reflexivity.
  - intros r c. apply sumn_ext. intros k _. unfold ph. rewrite nth_phase. pose proof (phase_sq K R k) as SQ.
    replace (Q r k * phase K R k * (phase K R k * R k c)) with (Q r k * R k c * (phase K R k * phase K R k)) by ring.
    rewrite SQ. ring.
  - intros k Hk. unfold ph. rewrite nth_phase. unfold phase, sgn1. replace (k <? K)%nat with true by lia.
    specialize (H k Hk). destruct (R k k); cbn; lia.
  - intros k c E. rewrite E. lia.
  - intros M HQ k k' Hk Hk'. unfold ph. rewrite !nth_phase.
    rewrite (sumn_ext _ _ (fun r => (phase K R k * phase K R k') * (Q r k * Q r k'))) by (intros; ring).
    rewrite sumn_scale, HQ by assumption. unfold delta. destruct (Nat.eqb k k') eqn:E; [|lia].
    apply Nat.eqb_eq in E. subst k'. rewrite (phase_sq K R k). reflexivity.
Qed.

Definition triv_fac (nr nc : nat) (M : dmat) : fac3 := mkFac3 nr delta (fun _ => 1) M.
Lemma triv_fac_exact nr nc M x y : (x < nr)%nat -> (y < nc)%nat -> fac_prod (triv_fac nr nc M) x y = M x y.
Proof.
  intros Hx _. unfold fac_prod, usv, triv_fac. cbn [f_n f_U f_S f_V].
  transitivity (sumn nr (fun t => delta x t * M t y)); [apply sumn_ext; intros t _; ring|].
  exact (sumn_delta nr x (fun t => M t y) Hx).
Qed.
