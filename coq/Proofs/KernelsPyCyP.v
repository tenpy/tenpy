(* The kernels of Model/KernelsPyCy.v.  A loop that writes into a preallocated array is proved with the array split as
   written prefix ++ rest not yet touched, the cursor being the length of the prefix; write_app is the one step. *)
From TenpyV Require Import Base.Prelude Base.Lists Model.KernelsPyCy.
Open Scope Z_scope.

(* one write at the cursor: the body of fill (Model/KernelsPyCy.v) and of upd_at, set_row, set_rowZ (Model/KernelsPyCy2.v) *)
Lemma write_app {A} (pre : list A) x t v :
  firstn (length pre) (pre ++ x :: t) ++ v :: skipn (S (length pre)) (pre ++ x :: t) = pre ++ v :: t.
Proof. rewrite firstn_app_len, (snoc_assoc pre x t), <- (last_length pre x), skipn_app_len. reflexivity. Qed.

Lemma last_repeat {A} (x d : A) n : last (x :: repeat x n) d = x.
Proof. induction n as [|n IH]; [reflexivity|]. cbn [repeat]. cbn [last] in *. exact IH. Qed.

Lemma wrap64_id x : - two63 <= x < two63 -> wrap64 x = x.
Proof.
  intros Hx. unfold wrap64. rewrite Z.mod_small; [lia|].
  unfold two63, two64 in *. lia.
Qed.

Lemma fits64_true x : - two63 <= x < two63 -> fits64 x = true.
Proof. intros Hx. unfold fits64. lia. Qed.

Lemma mv1_eq m q : 1 <= m < two63 -> mv1_cy m q = mv1_py m q.
Proof.
  intros Hm. unfold mv1_cy, mv1_py. destruct (m =? 1) eqn:E1; [reflexivity|].
  assert (Hr : - m < Z.rem q m < m) by lia.
  rewrite (wrap64_id (Z.rem q m)) by lia.
  destruct (Z.rem q m <? 0) eqn:E2.
  - rewrite wrap64_id by lia. apply (Z.mod_unique_pos q m (Z.quot q m - 1)); lia.
  - apply (Z.mod_unique_pos q m (Z.quot q m)); lia.
Qed.

Lemma make_valid_int64 mods rows :
  Forall (fun m => 1 <= m < two63) mods -> make_valid_cy mods rows = make_valid_py mods rows.
Proof.
  intros Hm. apply map_ext. induction Hm as [|m ms Hm _ IH]; intros [|q row]; cbn [row_map2]; try reflexivity.
  rewrite (mv1_eq m q Hm), IH. reflexivity.
Qed.

Lemma mods_int64 mods : Forall (fun m => 1 <= m < two62) mods -> Forall (fun m => 1 <= m < two63) mods.
Proof. apply Forall_impl. unfold two62, two63. lia. Qed.

Lemma mv1_py_range m q : 1 < m -> 0 <= mv1_py m q < m.
Proof. intros Hm. unfold mv1_py. destruct (m =? 1) eqn:E; [lia|]. apply Z.mod_pos_bound. lia. Qed.

Lemma cv_rows_spec m j rows :
  cv_rows m j rows = forallb (fun row => (0 <=? nthZ row j) && (nthZ row j <? m)) rows.
Proof.
  induction rows as [|row t IH]; [reflexivity|].
  cbn [cv_rows forallb]. rewrite <- IH.
  destruct (cv_rows m j t), ((nthZ row j <? 0) || (m <=? nthZ row j)) eqn:E; lia.
Qed.

Lemma cv_cols_cons m ms j rows :
  cv_cols (m :: ms) j rows = true <->
  (forall row, In row rows -> ok1 m (nthZ row j) = true) /\ cv_cols ms (S j) rows = true.
Proof.
  cbn [cv_cols]. unfold ok1. destruct (m =? 1); cbn [orb]; [tauto|].
  rewrite <- forallb_forall, <- cv_rows_spec. destruct (cv_rows m j rows); intuition discriminate.
Qed.

Lemma cv_cols_iff mods : forall j0 rows,
  cv_cols mods j0 rows = true <->
  (forall k, (k < length mods)%nat -> forall row, In row rows -> ok1 (nth k mods 1) (nthZ row (j0 + k)) = true).
Proof.
  induction mods as [|m ms IH]; intros j0 rows.
  - cbn [cv_cols length]. split; [intros _ k Hk; lia|reflexivity].
  - rewrite cv_cols_cons, (IH (S j0) rows). cbn [length]. split.
    + intros [H0 Hrest] [|k] Hk row Hin; cbn [nth].
      * rewrite Nat.add_0_r. apply H0, Hin.
      * rewrite Nat.add_succ_r. apply (Hrest k); [lia|exact Hin].
    + intros H. split.
      * intros row Hin. rewrite <- (Nat.add_0_r j0). apply (H 0%nat); [lia|exact Hin].
      * intros k Hk row Hin. specialize (H (S k) ltac:(lia) row Hin). rewrite Nat.add_succ_r in H. exact H.
Qed.

Lemma check_valid_py_iff mods rows :
  check_valid_py mods rows = true <->
  (forall k, (k < length mods)%nat -> forall row, In row rows -> ok1 (nth k mods 1) (nthZ row k) = true).
Proof.
  unfold check_valid_py. rewrite forallb_forall. split.
  - intros H k Hk row Hin. specialize (H row Hin). rewrite forallb_forall in H.
    apply H. apply in_seq. lia.
  - intros H row Hin. rewrite forallb_forall. intros k Hk. apply in_seq in Hk.
    apply (H k ltac:(lia) row Hin).
Qed.

Lemma check_valid_eq mods rows : check_valid_cy mods rows = check_valid_py mods rows.
Proof. apply eq_true_iff_eq. unfold check_valid_cy. rewrite cv_cols_iff, check_valid_py_iff. reflexivity. Qed.

(* [0, mod) is the code; the docstring's `<= self.mod` is loose *)
Lemma check_valid_py_spec mods rows :
  check_valid_py mods rows = true <->
  forall row, In row rows -> forall k, (k < length mods)%nat -> nth k mods 1 = 1 \/ 0 <= nthZ row k < nth k mods 1.
Proof.
  rewrite check_valid_py_iff. split.
  - intros H row Hin k Hk. specialize (H k Hk row Hin). unfold ok1 in H. lia.
  - intros H k Hk row Hin. specialize (H row Hin k Hk). unfold ok1. lia.
Qed.

Lemma rows_equal_cy_shift M : forall j x y r1 r2,
  rows_equal_cy M (S j) (x :: r1) (y :: r2) = rows_equal_cy M j r1 r2.
Proof. induction M as [|M IH]; intros; cbn [rows_equal_cy]; [reflexivity|]. rewrite IH. reflexivity. Qed.

Lemma rows_equal_cy_0 M r1 r2 : length r1 = M -> length r2 = M ->
  rows_equal_cy M 0 r1 r2 = negb (row_neq r2 r1).
Proof.
  intros <-. revert r2. induction r1 as [|x r1 IH]; intros [|y r2] Hl; try discriminate Hl; [reflexivity|].
  cbn [length rows_equal_cy row_neq]. rewrite rows_equal_cy_shift, IH by (injection Hl; auto).
  change (nthZ (x :: r1) 0) with x. change (nthZ (y :: r2) 0) with y.
  rewrite (Z.eqb_sym y x). destruct (x =? y); reflexivity.
Qed.

Lemma frd_loop_spec M : forall rest prev i,
  length prev = M -> Forall (fun r => length r = M) rest ->
  frd_loop M i prev rest = nonzero_from i (changes prev rest).
Proof.
  induction rest as [|r t IH]; intros prev i Hp Hr; [reflexivity|].
  inversion Hr as [|? ? Hr1 Hr2]; subst.
  cbn [frd_loop changes nonzero_from].
  rewrite (rows_equal_cy_0 (length prev) prev r eq_refl Hr1).
  destruct (row_neq r prev); cbn [negb]; rewrite (IH r (i + 1) Hr1 Hr2); reflexivity.
Qed.

Lemma nonzero_from_app : forall a b k,
  nonzero_from k (a ++ b) = nonzero_from k a ++ nonzero_from (k + Z.of_nat (length a)) b.
Proof.
  induction a as [|x a IH]; intros b k.
  - cbn [app nonzero_from length]. rewrite Z.add_0_r. reflexivity.
  - cbn [app nonzero_from length]. rewrite IH.
    replace (k + 1 + Z.of_nat (length a)) with (k + Z.of_nat (S (length a))) by lia.
    destruct x; reflexivity.
Qed.

Lemma changes_length : forall rest prev, length (changes prev rest) = length rest.
Proof. induction rest as [|r t IH]; intros prev; [reflexivity|]. cbn [changes length]. rewrite IH. reflexivity. Qed.

Lemma find_row_differences_eq M rows :
  Forall (fun r => length r = Z.to_nat M) rows ->
  frd_cy M rows = frd_py M rows.
Proof.
  intros Hrows. unfold frd_cy, frd_py.
  destruct (M =? 0) eqn:E0; [reflexivity|].
  destruct rows as [|r t]; [reflexivity|].
  inversion Hrows as [|? ? Hr1 Hr2]; subst.
  cbn [length repeat].
  change (assign_inner (true :: true :: repeat true (length t)) (changes r t))
    with (true :: changes r t ++ [last (true :: repeat true (length t)) true]).
  rewrite last_repeat.
  cbn [nonzero_from]. f_equal.
  rewrite nonzero_from_app, changes_length.
  rewrite (frd_loop_spec (Z.to_nat M) t r 1 Hr1 Hr2).
  cbn [nonzero_from]. cbn [Z.add]. f_equal. f_equal. lia.
Qed.

(* L = 0, M > 0: the exception the docstring records *)
Lemma find_row_differences_empty : frd_cy 1 [] = [0] /\ frd_py 1 [] = [0].
Proof. vm_compute. split; reflexivity. Qed.

Lemma prod_max_pos l : 1 <= prodZ (map (Z.max 1) l).
Proof.
  induction l as [|x l IH]; cbn [map prodZ]; [lia|].
  assert (Ha : 1 <= Z.max 1 x) by lia.
  generalize dependent (Z.max 1 x). intros a Ha.
  generalize dependent (prodZ (map (Z.max 1) l)). intros p Hp. nia.
Qed.

Lemma prodZ_app l1 l2 : prodZ (l1 ++ l2) = prodZ l1 * prodZ l2.
Proof. induction l1 as [|x l1 IH]; cbn [app prodZ]; [lia|]. rewrite IH. lia. Qed.

Lemma prodZ_rev l : prodZ (rev l) = prodZ l.
Proof. induction l as [|x l IH]; [reflexivity|]. cbn [rev]. rewrite prodZ_app, IH. cbn [prodZ]. lia. Qed.

(* one `stride *= d`: no overflow while the product of what is still to come fits *)
Lemma stride_step s d P : 0 <= s -> 0 <= d -> 1 <= P -> s * (Z.max 1 d * P) < two63 ->
  fits64 (s * d) = true /\ wrap64 (s * d) = s * d /\ 0 <= s * d /\ s * d * P < two63.
Proof.
  intros Hs Hd HP Hb.
  assert (H : 0 <= s * d <= s * d * P /\ s * d * P <= s * (Z.max 1 d * P)) by nia.
  split; [apply fits64_true|split; [apply wrap64_id|]]; unfold two63 in *; lia.
Qed.

(* both storage orders run the same arithmetic and differ in where the result is stored *)
Lemma stride_loops_eq : forall ds s,
  0 <= s -> Forall (fun d => 0 <= d) ds -> s * prodZ (map (Z.max 1) ds) < two63 ->
  (forall res, c_loop_py ds s res = Some (c_loop_cy ds s res))
  /\ (forall res, f_loop_py ds s res = Some (f_loop_cy ds s res)).
Proof.
  induction ds as [|d t IH]; intros s Hs Hds Hb; [split; reflexivity|].
  inversion Hds as [|? ? Hd Ht]; subst. cbn [c_loop_py c_loop_cy f_loop_py f_loop_cy].
  destruct (stride_step s d _ Hs Hd (prod_max_pos t) Hb) as (-> & -> & H1 & H2).
  destruct (IH (s * d) H1 Ht H2) as [IHc IHf]. split; intros res; [apply IHc|apply IHf].
Qed.

Lemma make_stride_eq shape cstyle :
  shape <> [] -> Forall (fun d => 0 <= d) shape -> prodZ (map (Z.max 1) shape) < two63 ->
  make_stride_cy shape cstyle = make_stride_py shape cstyle.
Proof.
  intros Hne Hpos Hb. unfold make_stride_cy, make_stride_py. destruct cstyle; symmetry.
  - destruct shape as [|d0 t]; [contradiction|]. cbn [tl]. cbn [map prodZ] in Hb.
    apply stride_loops_eq; [lia|apply Forall_rev, (Forall_inv_tail Hpos)|].
    rewrite map_rev, prodZ_rev. pose proof (prod_max_pos t).
    eapply Z.le_lt_trans; [|exact Hb]. apply Z.mul_le_mono_nonneg_r; lia.
  - destruct (exists_last Hne) as [l [x ->]]. rewrite removelast_last.
    apply Forall_app in Hpos. rewrite map_app, prodZ_app in Hb. cbn [map prodZ] in Hb.
    apply stride_loops_eq; [lia|apply Hpos|]. pose proof (prod_max_pos l).
    eapply Z.le_lt_trans; [|exact Hb]. rewrite Z.mul_comm. apply Z.mul_le_mono_nonneg_l; lia.
Qed.

Lemma c_loop_cy_example : make_stride_cy [2; 3; 4] true = Some [12; 4; 1] /\ make_stride_cy [2; 3; 4] false = Some [1; 2; 6].
Proof. vm_compute. split; reflexivity. Qed.

Lemma fill_app : forall n a b v, (n <= length b)%nat ->
  fill (a ++ b) (length a) n v = a ++ repeat v n ++ skipn n b.
Proof.
  induction n as [|n IH]; intros a b v Hn; [reflexivity|]. destruct b as [|x b]; [inversion Hn|]. cbn [fill repeat app].
  rewrite write_app, <- (last_length a v), (snoc_assoc a v), IH by apply le_S_n, Hn.
  rewrite <- app_assoc. reflexivity.
Qed.

Lemma repeat_scaled v n : map (fun one => one * v) (repeat 1 n) = repeat v n.
Proof. induction n as [|n IH]; [reflexivity|]. cbn [repeat map]. rewrite IH. f_equal. lia. Qed.

Lemma mb_cy_spec : forall bs i done zeros,
  Forall (fun b => 0 <= b) bs -> length zeros = Z.to_nat (sumZ bs) ->
  mb_cy i (length done) bs (done ++ zeros) = done ++ mb_py i bs.
Proof.
  induction bs as [|b t IH]; intros i done zeros Hpos Hlen.
  - cbn [mb_cy mb_py]. cbn [sumZ] in Hlen. destruct zeros; [reflexivity|discriminate].
  - inversion Hpos as [|? ? Hb Ht]; subst. cbn [mb_cy mb_py]. cbn [sumZ] in Hlen.
    pose proof (sumZ_nonneg t Ht) as Hs.
    rewrite Z2Nat.inj_add in Hlen by lia.
    rewrite fill_app by (rewrite Hlen; apply Nat.le_add_r).
    replace (length done + Z.to_nat b)%nat with (length (done ++ repeat i (Z.to_nat b)))
      by (rewrite app_length, repeat_length; reflexivity).
    rewrite app_assoc.
    rewrite IH; [|exact Ht|rewrite skipn_length; lia].
    rewrite repeat_scaled, <- app_assoc. reflexivity.
Qed.

Lemma map_blocks_eq bs : Forall (fun b => 0 <= b) bs -> map_blocks_cy bs = map_blocks_py bs.
Proof.
  intros Hpos. unfold map_blocks_cy, map_blocks_py.
  apply (mb_cy_spec bs 0 [] (repeat 0 (Z.to_nat (sumZ bs))) Hpos). apply repeat_length.
Qed.
