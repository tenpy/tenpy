(* Model/Factor.v (C05): the factors of svd / qr obey the charge rule with the requested total charges, for any kept ranks.
   The arithmetic of the charge vectors is that of Proofs/ChargeP.v: congruences of make_valid, identities componentwise. *)
From TenpyV Require Import Base.Prelude Base.Lists Model.ChargeL Model.Leg Model.Factor Proofs.ChargeP Proofs.LegP.
Open Scope Z_scope.

Lemma vsub_len n a b : length a = n -> length b = n -> length (vsub a b) = n.
Proof. unfold vsub. auto with vlen. Qed.

Lemma nth_vsub a b j : (j < length a)%nat -> (j < length b)%nat -> nth j (vsub a b) 0 = nth j a 0 + - nth j b 0.
Proof. intros Ha Hb. unfold vsub. rewrite nth_vadd, nth_vneg; [reflexivity|exact Ha|rewrite vneg_length; exact Hb]. Qed.

#[export] Hint Resolve vsub_len : vlen.
#[export] Hint Rewrite nth_vsub using (solve [auto 8 with vlen]) : vnth.

Definition charges_wf (ci : chinfo) (l : leg) : Prop := Forall (fun b => length (snd b) = length ci) (blocks l).
Definition mat_wf (ci : chinfo) (a : mat) : Prop :=
  length (mq a) = length ci /\ make_valid ci (mq a) = mq a /\ charges_wf ci (mL a) /\ charges_wf ci (mR a) /\
  Forall (fun ij => (fst ij < nblocks (mL a))%nat /\ (snd ij < nblocks (mR a))%nat /\
                    rule2 ci (leg_charge (mL a) (fst ij)) (leg_charge (mR a) (snd ij)) (mq a) = true) (mdata a).
Definition req_wf (ci : chinfo) (o : option cvec) : Prop :=
  match o with Some q => length q = length ci | None => True end.

Lemma leg_charge_length ci l i : charges_wf ci l -> (i < nblocks l)%nat -> length (leg_charge l i) = length ci.
Proof.
  intros H Hi. unfold leg_charge, blk. rewrite vscale_length. unfold charges_wf in H. rewrite Forall_forall in H.
  apply H, nth_In, Hi.
Qed.

#[export] Hint Resolve leg_charge_length : vlen.

(* the missing entry of qtotal_LR is chosen such that the two add up to q *)
Lemma make_valid_sub_add ci q x : length x = length q -> make_valid ci (vadd (make_valid ci (vsub q x)) x) = make_valid ci q.
Proof. intros L. rewrite make_valid_add_l. apply f_equal. vec_lia (length q). Qed.

Lemma resolve_ok ci a oL oR qL qR : mat_wf ci a -> req_wf ci oL -> req_wf ci oR ->
  resolve_LR ci a oL oR = Some (qL, qR) ->
  make_valid ci (vadd qL qR) = mq a /\ length qL = length ci /\ length qR = length ci.
Proof.
  intros (Hlen & Hval & _) HL HR. unfold resolve_LR.
  destruct oL as [l|], oR as [r|]; cbn [req_wf] in *.
  - destruct (veqb (mq a) (make_valid ci (vadd l r))) eqn:E; [|discriminate]. intros H. injection H as <- <-.
    apply list_eqb_eq in E. auto.
  - intros H. injection H as <- <-. rewrite vadd_comm, make_valid_sub_add by lia. auto with vlen.
  - intros H. injection H as <- <-. rewrite make_valid_sub_add by lia. auto with vlen.
  - intros H. injection H as <- <-. rewrite make_valid_sub_add by lia. auto with vlen.
Qed.

Lemma rule2_iff ci x y q : rule2 ci x y q = true <-> make_valid ci (vadd x y) = q.
Proof. apply list_eqb_iff. Qed.

Lemma rule2_comm ci x y q : rule2 ci x y q = rule2 ci y x q.
Proof. unfold rule2. rewrite vadd_comm. reflexivity. Qed.

(* cl, cr: the signed charges of a block that obeys the rule for qL + qR; b: the charge the new leg gets for it *)
Lemma svd_inner_rule ci iq cl cr qL qR : iq * iq = 1 ->
  length cl = length ci -> length cr = length ci -> length qL = length ci -> length qR = length ci ->
  make_valid ci (vadd cl cr) = make_valid ci (vadd qL qR) ->
  let b := make_valid ci (vscale iq (vsub qR cr)) in
  rule2 ci cl (vscale (- iq) b) (make_valid ci qL) = true /\ rule2 ci (vscale iq b) cr (make_valid ci qR) = true.
Proof.
  intros Hiq Ll Lr LL LR Hr b.
  assert (Eb : make_valid ci (vscale iq b) = make_valid ci (vsub qR cr)).
  { unfold b. rewrite make_valid_vscale, vscale_involutive by exact Hiq. reflexivity. }
  split; apply rule2_iff.
  - rewrite vscale_neg_l.
    transitivity (make_valid ci (vadd cl (vneg (vsub qR cr)))); [apply make_valid_congr_add; [reflexivity|apply make_valid_congr_neg, Eb]|].
    replace (vadd cl (vneg (vsub qR cr))) with (vsub (vadd cl cr) qR) by vec_lia (length ci).
    transitivity (make_valid ci (vsub (vadd qL qR) qR)); [apply make_valid_congr_add; [exact Hr|reflexivity]|].
    apply f_equal. vec_lia (length ci).
  - transitivity (make_valid ci (vadd (vsub qR cr) cr)); [apply make_valid_congr_add; [exact Eb|reflexivity]|].
    apply f_equal. vec_lia (length ci).
Qed.

(* a kept block (i, j, b) of svd: U's block (i, b) and VH's block (b, j) obey the charge rule for qU, qV; the inner block is not empty *)
Definition krow_ok (ci : chinfo) (a : mat) (iq : Z) (qU qV : cvec) (r : krow) : Prop :=
  let '(i, j, b) := r in
  rule2 ci (leg_charge (mL a) i) (vscale (- iq) (snd b)) qU = true /\
  rule2 ci (vscale iq (snd b)) (leg_charge (mR a) j) qV = true /\ 0 < fst b.

Lemma svd_rows_ok ci a qL qR iq : iq * iq = 1 -> mat_wf ci a ->
  make_valid ci (vadd qL qR) = mq a -> length qL = length ci -> length qR = length ci ->
  forall data nums, (forall ij, In ij data -> In ij (mdata a)) ->
  Forall (krow_ok ci a iq (make_valid ci qL) (make_valid ci qR)) (svd_rows ci a qR iq data nums).
Proof.
  intros Hiq (Hlen & Hval & HcL & HcR & Hd) Hsum HlL HlR. rewrite Forall_forall in Hd.
  induction data as [|[i j] dt IH]; intros nums Hin; [constructor|].
  destruct nums as [|n nt]; [constructor|]. cbn [svd_rows].
  apply Forall_app. split; [|apply IH; intros ij H; apply Hin; right; exact H].
  destruct (0 <? n) eqn:En; [|constructor]. constructor; [|constructor].
  destruct (Hd (i, j) (Hin _ (or_introl eq_refl))) as (Hi & Hj & Hr). cbn [fst snd] in *.
  apply rule2_iff in Hr.
  destruct (svd_inner_rule ci iq (leg_charge (mL a) i) (leg_charge (mR a) j) qL qR Hiq) as [RU RV];
    [auto with vlen..|rewrite Hr, Hsum; reflexivity|].
  unfold krow_ok. cbn [fst snd]. repeat split; [exact RU|exact RV|lia].
Qed.

Theorem svd_charges_ok ci a nums oL oR iq p : (iq = 1 \/ iq = -1) -> mat_wf ci a -> req_wf ci oL -> req_wf ci oR ->
  svd_charges ci a nums oL oR iq = Some p ->
  make_valid ci (vadd (s_qU p) (s_qV p)) = mq a /\
  Forall (krow_ok ci a iq (s_qU p) (s_qV p)) (s_rows p) /\
  contractible ci (s_legL p) (s_legR p) = true /\ qc (s_legR p) = iq /\ blocks (s_legR p) = map snd (s_rows p).
Proof.
  intros Hiq Hwf HL HR. unfold svd_charges.
  destruct (resolve_LR ci a oL oR) as [[qL qR]|] eqn:E; [|discriminate].
  intros H. injection H as <-. cbn [s_qU s_qV s_rows s_legL s_legR qc blocks].
  destruct (resolve_ok ci a oL oR qL qR Hwf HL HR E) as (Hsum & HlL & HlR).
  assert (Hiq' : iq * iq = 1) by (destruct Hiq; subst; reflexivity).
  split; [|split; [|split; [|split]]].
  - rewrite <- Hsum. apply make_valid_congr_add; apply make_valid_idem.
  - apply svd_rows_ok; auto.
  - apply conj_contractible_l.
  - reflexivity.
  - reflexivity.
Qed.

Lemma svd_request ci a nums oL oR iq p : svd_charges ci a nums oL oR iq = Some p ->
  (forall l, oL = Some l -> s_qU p = make_valid ci l) /\ (forall r, oR = Some r -> s_qV p = make_valid ci r).
Proof.
  unfold svd_charges, resolve_LR. destruct oL as [l|], oR as [r|]; [destruct (veqb _ _); [|discriminate]|..];
    intros H; injection H as <-; cbn; split; intros ? E; try discriminate; injection E as <-; reflexivity.
Qed.

Definition q_req (ci : chinfo) (qQ : option cvec) : cvec :=
  match qQ with None => vzero (length ci) | Some q => make_valid ci q end.

Lemma shift_phys ci q0 iq qQ c0 : (q0 = 1 \/ q0 = -1) -> (iq = 1 \/ iq = -1) -> length c0 = length ci -> req_wf ci qQ ->
  make_valid ci (vscale iq (shift_charge ci q0 iq qQ c0)) = make_valid ci (vsub (vscale q0 c0) (q_req ci qQ)).
Proof.
  intros Hq0 Hiq Lc Hreq. unfold shift_charge.
  set (c1 := match qQ with None => c0 | Some q => make_valid ci (vsub c0 (vscale q0 (make_valid ci q))) end).
  transitivity (make_valid ci (vscale q0 c1)).
  - destruct (q0 =? iq) eqn:E; [apply Z.eqb_eq in E; subst iq; reflexivity|].
    rewrite make_valid_vscale, vneg_scale, vscale_mul. replace (iq * -1) with q0 by lia. reflexivity.
  - unfold c1, q_req. destruct qQ as [q|]; cbn [req_wf] in Hreq; rewrite ?make_valid_vscale; apply f_equal;
      destruct Hq0 as [-> | ->]; vec_lia (length ci).
Qed.

(* row block i of a became the inner block b: Q's block (i, b) obeys the rule for qQ, and R's block (b, j) for qR wherever (i, j) is stored *)
Definition qrow_ok (ci : chinfo) (a : mat) (iq : Z) (qQ qR : cvec) (ib : nat * block) : Prop :=
  let '(i, b) := ib in
  rule2 ci (leg_charge (mL a) i) (vscale (- iq) (snd b)) qQ = true /\
  (forall j, In (i, j) (mdata a) -> rule2 ci (vscale iq (snd b)) (leg_charge (mR a) j) qR = true).

Lemma q_req_length ci qQ : req_wf ci qQ -> length (q_req ci qQ) = length ci.
Proof. destruct qQ as [q|]; cbn [req_wf q_req]; auto with vlen. Qed.

#[export] Hint Resolve q_req_length : vlen.

(* cl: the signed charge of a row block, s: iq * its inner charge; cr: any column block that obeys the rule for tot with it *)
Lemma qr_inner_rule ci cl Q s : length cl = length ci -> length Q = length ci ->
  make_valid ci s = make_valid ci (vsub cl Q) ->
  rule2 ci cl (vneg s) (make_valid ci Q) = true /\
  forall cr tot, length cr = length ci -> make_valid ci tot = tot -> make_valid ci (vadd cl cr) = tot ->
    rule2 ci s cr (make_valid ci (vsub tot (make_valid ci Q))) = true.
Proof.
  intros Ll LQ SP. split; [|intros cr tot Lr Hval Hr]; apply rule2_iff.
  - transitivity (make_valid ci (vadd cl (vneg (vsub cl Q)))); [apply make_valid_congr_add; [reflexivity|apply make_valid_congr_neg, SP]|].
    apply f_equal. vec_lia (length ci).
  - transitivity (make_valid ci (vadd (vsub cl Q) cr)); [apply make_valid_congr_add; [exact SP|reflexivity]|].
    replace (vadd (vsub cl Q) cr) with (vsub (vadd cl cr) Q) by vec_lia (length ci).
    apply make_valid_congr_add; [exact (eq_trans Hr (eq_sym Hval))|]. apply make_valid_congr_neg. symmetry. apply make_valid_idem.
Qed.

Lemma qr_map_in ci a ks complete qQ iq i b : In (i, b) (r_map (qr_charges ci a ks complete qQ iq)) ->
  (i < nblocks (mL a))%nat /\ snd b = shift_charge ci (qc (mL a)) iq qQ (snd (blk (mL a) i)).
Proof.
  unfold qr_charges. cbn [r_map]. intros Hin.
  apply in_map_iff in Hin. destruct Hin as ([i' [k c0]] & E & Hin). cbn [fst snd] in E. injection E as -> <-.
  apply filter_In in Hin. destruct Hin as [Hin _]. apply in_map_iff in Hin.
  destruct Hin as ([i2 b0] & E & Hin). injection E as -> _ <-.
  pose proof (in_combine_l _ _ _ _ Hin) as Hi. apply in_seq in Hi. apply combine_seq_In in Hin. rewrite Nat.sub_0_r in Hin.
  split; [exact (proj2 Hi)|]. cbn [snd]. unfold blk. rewrite (nth_error_nth _ _ _ (proj1 Hin)). reflexivity.
Qed.

Theorem qr_charges_ok ci a ks complete qQ iq : (iq = 1 \/ iq = -1) -> (qc (mL a) = 1 \/ qc (mL a) = -1) ->
  mat_wf ci a -> req_wf ci qQ ->
  let p := qr_charges ci a ks complete qQ iq in
  make_valid ci (vadd (r_qQ p) (r_qR p)) = mq a /\
  r_qQ p = make_valid ci (q_req ci qQ) /\
  Forall (qrow_ok ci a iq (r_qQ p) (r_qR p)) (r_map p) /\
  qc (r_inner p) = iq /\ blocks (r_inner p) = map snd (r_map p) /\
  contractible ci (conj_leg (r_inner p)) (r_inner p) = true.
Proof.
  intros Hiq Hq0 (Hlen & Hval & HcL & HcR & Hd) Hreq p.
  assert (EQ : r_qQ p = make_valid ci (q_req ci qQ)).
  { unfold p, qr_charges. cbn [r_qQ]. destruct qQ as [q|]; cbn [q_req].
    - rewrite make_valid_idem. reflexivity.
    - apply f_equal. vec_lia (length ci). }
  assert (LQ : length (r_qQ p) = length ci) by (rewrite EQ; auto with vlen).
  assert (ER : r_qR p = make_valid ci (vsub (mq a) (r_qQ p))) by reflexivity.
  split; [|split; [exact EQ|split; [|split; [reflexivity|split; [reflexivity|apply conj_contractible_l]]]]].
  - rewrite ER, vadd_comm, make_valid_sub_add by lia. exact Hval.
  - rewrite ER, EQ. apply Forall_forall. intros [i b] Hin. destruct (qr_map_in ci a ks complete qQ iq i b Hin) as [Hi Eb].
    pose proof (leg_charge_length ci _ i HcL Hi) as Lcl.
    destruct (qr_inner_rule ci (leg_charge (mL a) i) (q_req ci qQ) (vscale iq (snd b)) Lcl (q_req_length ci qQ Hreq)) as [RQ RR].
    { rewrite Eb. apply shift_phys; [exact Hq0|exact Hiq| |exact Hreq]. rewrite <- (vscale_length (qc (mL a))). exact Lcl. }
    unfold qrow_ok. rewrite vscale_neg_l. split; [exact RQ|]. intros j Hj.
    rewrite Forall_forall in Hd. destruct (Hd _ Hj) as (_ & Hjr & Hr). cbn [fst snd] in *. apply rule2_iff in Hr.
    exact (RR _ _ (leg_charge_length ci _ j HcR Hjr) Hval Hr).
Qed.
