(* Model/Lattice.v (property C19): what callers of possible_couplings and possible_multi_couplings rely on.  Each is
   proved on the specification (`coupled`, `multi_coupled`) and, where it speaks of the enumerations, carried over by
   couplings_exact / multi_couplings_exact; none looks at the enumerating code. *)
From TenpyV Require Import Base.Prelude Base.Lists Model.Lattice Model.LatticeMulti.
From TenpyV Require Import Proofs.LatticeP Proofs.LatticeP3.
Open Scope Z_scope.

Lemma map_opp_opp l : map Z.opp (map Z.opp l) = l.
Proof. induction l as [|a l IH]; cbn; [reflexivity|]. rewrite IH. f_equal. lia. Qed.

Lemma Forall2_combine {A B} (P : A -> B -> Prop) : forall l l',
  Forall2 P l l' <-> length l = length l' /\ Forall (fun p => P (fst p) (snd p)) (combine l l').
Proof.
  induction l as [|a l IH]; intros [|b l']; cbn [length combine].
  - split; [intros _; split; [reflexivity|constructor]|intros _; constructor].
  - split; [intros H; inversion H|intros [H _]; discriminate].
  - split; [intros H; inversion H|intros [H _]; discriminate].
  - split.
    + intros H. inversion H as [|? ? ? ? Hab Hr]; subst. apply IH in Hr. destruct Hr as [Hl Hf].
      split; [now f_equal|]. constructor; [exact Hab|exact Hf].
    + intros [Hl Hf]. inversion Hf as [|? ? Hab Hr]; subst. constructor; [exact Hab|].
      apply IH. split; [now injection Hl|exact Hr].
Qed.

Lemma connected_sym lat x0 xr dx0 dxr y0 yr :
  Forall2 (fun x L => 0 <= x < L) xr (Lr lat) ->
  connected lat x0 xr dx0 dxr y0 yr -> connected lat y0 yr (- dx0) (map Z.opp dxr) x0 xr.
Proof.
  intros HB (tot & k0 & Hr & He & Hk). exists (- tot), (- k0). split; [|split].
  - now apply conn_rest_sym.
  - lia.
  - intros Ho. specialize (Hk Ho). lia.
Qed.

Lemma coupled_sym_half lat : wf lat -> forall u1 u2 dx0 dxr i j,
  coupled lat u1 u2 dx0 dxr i j -> coupled lat u2 u1 (- dx0) (map Z.opp dxr) j i.
Proof.
  intros Hwf u1 u2 dx0 dxr i j (x0 & xr & y0 & yr & Hi & Hj & Hc & Hm).
  exists y0, yr, x0, xr. split; [exact Hj|]. split; [exact Hi|]. split.
  - apply connected_sym; [|exact Hc]. apply (m2l_box lat Hwf _ _ _ _ Hi).
  - intros Hinf. specialize (Hm Hinf). rewrite Z.min_comm. exact Hm.
Qed.

Lemma coupled_sym lat : wf lat -> forall u1 u2 dx0 dxr i j,
  coupled lat u1 u2 dx0 dxr i j <-> coupled lat u2 u1 (- dx0) (map Z.opp dxr) j i.
Proof.
  intros Hwf u1 u2 dx0 dxr i j. split; [now apply coupled_sym_half|].
  intros H. apply (coupled_sym_half lat Hwf) in H. rewrite Z.opp_involutive, map_opp_opp in H. exact H.
Qed.

Lemma couplings_reverse lat : wf lat -> forall u1 u2 dx0 dxr,
  0 <= u1 < Lu lat -> 0 <= u2 < Lu lat ->
  (open0 lat = true -> Forall (fun s => s = 0) (shiftr lat) \/ Z.abs dx0 < L0 lat) ->
  forall i j, In (i, j) (coupling_pairs lat u1 u2 dx0 dxr) <->
              In (j, i) (coupling_pairs lat u2 u1 (- dx0) (map Z.opp dxr)).
Proof.
  intros Hwf u1 u2 dx0 dxr Hu1 Hu2 Hsh i j.
  destruct (couplings_exact lat Hwf u1 u2 dx0 dxr Hu2 Hsh) as [_ HA].
  assert (Hsh' : open0 lat = true -> Forall (fun s => s = 0) (shiftr lat) \/ Z.abs (- dx0) < L0 lat).
  { intros Ho. destruct (Hsh Ho) as [A|A]; [now left|right; lia]. }
  destruct (couplings_exact lat Hwf u2 u1 (- dx0) (map Z.opp dxr) Hu1 Hsh') as [_ HB].
  rewrite HA, HB. now apply coupled_sym.
Qed.

Lemma couplings_translation : forall lat, wf lat -> infinite lat = true -> forall u1 u2 dx0 dxr i j,
  coupled lat u1 u2 dx0 dxr i j ->
  (forall m, exists x0 xr y0 yr,
     mps2lat lat (i + m * nsites lat) = Some (x0, xr, u1) /\
     mps2lat lat (j + m * nsites lat) = Some (y0, yr, u2) /\
     connected lat x0 xr dx0 dxr y0 yr) /\
  (forall m, coupled lat u1 u2 dx0 dxr (i + m * nsites lat) (j + m * nsites lat) -> m = 0).
Proof.
  intros lat Hwf Hi u1 u2 dx0 dxr i j (x0 & xr & y0 & yr & Hmi & Hmj & Hc & Hm). split.
  - intros m. exists (x0 + m * L0 lat), xr, (y0 + m * L0 lat), yr.
    split; [now apply mps2lat_translate|]. split; [now apply mps2lat_translate|].
    now apply connected_translate.
  - intros m (_ & _ & _ & _ & _ & _ & _ & Hm'). specialize (Hm Hi). specialize (Hm' Hi).
    rewrite Z.add_min_distr_r in Hm'. apply (small_multiple m (nsites lat)). lia.
Qed.

Lemma zip2_sub_zeros : forall ds n, length ds = n -> zip2 Z.sub ds (repeat 0 n) = ds.
Proof.
  induction ds as [|d ds IH]; intros [|n] Hl; try discriminate; [reflexivity|].
  cbn [repeat zip2]. rewrite IH by (cbn in Hl; lia). f_equal. lia.
Qed.

Section Two.
Variable lat : lattice.
Hypothesis Hwf : wf lat.

Definition two_ops (u1 u2 dx0 : Z) (dxr : list Z) : list op :=
  [(0, repeat 0 (length (Lr lat)), u1); (dx0, dxr, u2)].

Lemma two_ops_coupled u1 u2 dx0 dxr i j :
  multi_coupled lat (two_ops u1 u2 dx0 dxr) [i; j] <-> coupled lat u1 u2 dx0 dxr i j.
Proof.
  unfold multi_coupled, two_ops, coupled. split.
  - intros (b0 & br & HF & Hm).
    inversion HF as [|? ? ? ? H1 HF']; subst. inversion HF' as [|? ? ? ? H2 HF'']; subst.
    inversion HF''; subst. clear HF HF' HF''.
    cbn [op_at] in H1, H2.
    destruct H1 as (x0 & xr & Hi & (tot1 & k1 & Hr1 & He1 & Hk1)).
    destruct H2 as (y0 & yr & Hj & (tot2 & k2 & Hr2 & He2 & Hk2)).
    exists x0, xr, y0, yr. split; [exact Hi|]. split; [exact Hj|]. split.
    + (* both sites are seen from the anchor b; seen from the first, the second is at dx - 0 *)
      exists (tot2 - tot1), (k2 - k1). split; [|split].
      * rewrite <- (zip2_sub_zeros dxr (length (Lr lat))) by apply (conn_rest_lengths _ _ _ _ _ _ _ Hr2).
        exact (conn_rest_compose _ _ _ _ _ _ _ Hr1 _ _ _ Hr2).
      * lia.
      * intros Ho. specialize (Hk1 Ho). specialize (Hk2 Ho). lia.
    + exact Hm.
  - (* the anchor is the cell of the first site *)
    intros (x0 & xr & y0 & yr & Hi & Hj & Hc & Hm).
    exists x0, xr. split; [|exact Hm].
    constructor; [|constructor; [|constructor]].
    + cbn [op_at]. exists x0, xr. split; [exact Hi|].
      destruct Hc as (tot & k0 & Hr & _ & _). destruct (conn_rest_lengths _ _ _ _ _ _ _ Hr) as (Lo & Ls & _).
      exists 0, 0. split; [|split; [lia|reflexivity]].
      apply conn_rest_refl; [|exact Lo|exact Ls]. apply (m2l_box lat Hwf _ _ _ _ Hi).
    + cbn [op_at]. exists y0, yr. split; [exact Hj|exact Hc].
Qed.

Lemma two_ops_pairs u1 u2 dx0 dxr :
  0 <= u1 < Lu lat -> 0 <= u2 < Lu lat -> length dxr = length (Lr lat) ->
  (open0 lat = true -> Forall (fun s => s = 0) (shiftr lat)) ->
  forall i j, In [i; j] (multi_ijkl lat (two_ops u1 u2 dx0 dxr)) <->
              In (i, j) (coupling_pairs lat u1 u2 dx0 dxr).
Proof.
  intros Hu1 Hu2 Hl Hsh i j.
  assert (Hops : ops_wf lat (two_ops u1 u2 dx0 dxr)).
  { split; [discriminate|]. unfold two_ops. repeat constructor; cbn; try lia. now rewrite repeat_length. }
  destruct (multi_couplings_exact lat Hwf _ Hops Hsh) as [_ HA].
  destruct (couplings_exact lat Hwf u1 u2 dx0 dxr Hu2 (fun Ho => or_introl (Hsh Ho))) as [_ HB].
  rewrite HA, HB. apply two_ops_coupled.
Qed.

End Two.

Lemma zmin_l_perm l l' : Permutation l l' -> zmin_l l = zmin_l l'.
Proof.
  intros HP. destruct l as [|a t].
  - apply Permutation_nil in HP. now subst.
  - assert (Hne : a :: t <> []) by discriminate.
    assert (Hne' : l' <> []).
    { intros ->. apply Permutation_sym, Permutation_nil in HP. discriminate. }
    destruct (zmin_l_spec _ Hne) as [Hi Hle]. destruct (zmin_l_spec _ Hne') as [Hi' Hle'].
    pose proof (Hle' _ (Permutation_in _ HP Hi)).
    pose proof (Hle _ (Permutation_in _ (Permutation_sym HP) Hi')). lia.
Qed.

(* Forall2 over operators and sites is Forall over their `combine`, which a permutation of the pairs keeps, as it keeps
   the minimum of the sites *)
Lemma multi_coupled_perm_half lat ops ijkl ops' ijkl' :
  length ops = length ijkl -> length ops' = length ijkl' ->
  Permutation (combine ops ijkl) (combine ops' ijkl') ->
  multi_coupled lat ops ijkl -> multi_coupled lat ops' ijkl'.
Proof.
  intros Hl Hl' HP (b0 & br & HF & Hm). exists b0, br. split.
  - apply Forall2_combine. split; [exact Hl'|].
    apply Forall2_combine in HF. destruct HF as [_ HF].
    eapply Permutation_Forall; [exact HP|exact HF].
  - intros Hinf. specialize (Hm Hinf).
    assert (E : zmin_l ijkl' = zmin_l ijkl).
    { rewrite <- (map_snd_combine ops ijkl Hl), <- (map_snd_combine ops' ijkl' Hl').
      apply zmin_l_perm, Permutation_map, Permutation_sym, HP. }
    rewrite E. exact Hm.
Qed.

Lemma multi_operator_order : forall lat, wf lat -> forall ops ijkl ops' ijkl',
  length ops = length ijkl -> length ops' = length ijkl' ->
  Permutation (combine ops ijkl) (combine ops' ijkl') ->
  (multi_coupled lat ops ijkl <-> multi_coupled lat ops' ijkl') /\
  (ops_wf lat ops -> ops_wf lat ops' ->
   (open0 lat = true -> Forall (fun s => s = 0) (shiftr lat)) ->
   (In ijkl (multi_ijkl lat ops) <-> In ijkl' (multi_ijkl lat ops'))).
Proof.
  intros lat Hwf ops ijkl ops' ijkl' Hl Hl' HP.
  assert (HS : multi_coupled lat ops ijkl <-> multi_coupled lat ops' ijkl').
  { split; [now apply multi_coupled_perm_half|].
    apply multi_coupled_perm_half; [exact Hl'|exact Hl|now apply Permutation_sym]. }
  split; [exact HS|]. intros Ho Ho' Hsh.
  destruct (multi_couplings_exact lat Hwf ops Ho Hsh) as [_ HA].
  destruct (multi_couplings_exact lat Hwf ops' Ho' Hsh) as [_ HB].
  rewrite HA, HB. exact HS.
Qed.
