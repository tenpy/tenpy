(* _to_valid_site_index / _to_valid_bond_index of Model/MpsIndex.v are Z.div / Z.modulo: the site index on each range of
   i, and the bond index in terms of the site index. *)
From TenpyV Require Import Base.Prelude Model.MpsIndex.
Open Scope Z_scope.

Lemma site_index_infinite L i : to_valid_site_index false L i = Some (i mod L, i / L).
Proof. reflexivity. Qed.

Lemma site_index_inside L i : 0 <= i < L -> to_valid_site_index true L i = Some (i, 0).
Proof. intros H. unfold to_valid_site_index. rewrite Z.div_small, Z.mod_small by exact H. reflexivity. Qed.

Lemma site_index_outside L i : 0 < L -> i < - L \/ L <= i -> to_valid_site_index true L i = None.
Proof.
  intros HL H. unfold to_valid_site_index. cbn [andb].
  assert (Hq : i / L <> 0 /\ i / L <> -1) by (split; intro E; nia).
  destruct (i / L =? -1) eqn:E1; [lia|]. destruct (i / L =? 0) eqn:E2; [lia|reflexivity].
Qed.

Lemma site_index_negative L i : - L <= i < 0 -> to_valid_site_index true L i = Some (i + L, 0).
Proof.
  intros H. unfold to_valid_site_index.
  rewrite <- (Z.div_unique i L (-1) (i + L)), <- (Z.mod_unique i L (-1) (i + L)) by lia. reflexivity.
Qed.

Lemma site_index_some fin L i r c : to_valid_site_index fin L i = Some (r, c) -> r = i mod L.
Proof.
  unfold to_valid_site_index. destruct (fin && negb _); [discriminate|]. intros H. injection H as <- _. reflexivity.
Qed.

Lemma bond_index_some L i r c (left : bool) : to_valid_site_index true L i = Some (r, c) ->
  to_valid_bond_index true L i left = Some (r + (if left then 0 else 1), 0).
Proof. intros E. unfold to_valid_bond_index. rewrite E. reflexivity. Qed.

Lemma bond_index_none L i left : to_valid_site_index true L i = None -> to_valid_bond_index true L i left = None.
Proof. intros E. unfold to_valid_bond_index. rewrite E. reflexivity. Qed.

Lemma bond_index_infinite L i (left : bool) :
  to_valid_bond_index false L i left = to_valid_site_index false L (i + (if left then 0 else 1)).
Proof. reflexivity. Qed.
