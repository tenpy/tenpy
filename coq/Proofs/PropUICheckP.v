(* The make_U_I correspondence checker (Model/PropUICheck.v) compares W grids entry by entry.  That is sound for the
   operator because a site enters the denotation only through the total weight of every slot (keyL, keyR, operator). *)
From TenpyV Require Import Base.Prelude Model.Automaton Model.PropUI Model.PropUICheck.
From TenpyV Require Import Proofs.AutomatonP Proofs.PropUIP.
Open Scope Z_scope.

Lemma edge_eta e : mkE (eL e) (eR e) (eop e) (ew e) = e.
Proof. destruct e; reflexivity. Qed.

Lemma geval_ui_edge t e :
  match ui_edge e with Some x => Some (geval_edge t x) | None => None end = ui_eval_edge t e.
Proof.
  unfold ui_edge, ui_eval_edge. destruct (key_eqb (eL e) IdR); [reflexivity|].
  destruct (key_eqb (eR e) IdR); unfold geval_edge; cbn [fst snd eL eR eop ew].
  - rewrite cpow_1. reflexivity.
  - cbn [cpow]. rewrite cmul_1_l, edge_eta. reflexivity.
Qed.

Theorem geval_ui_graph t g : geval t (ui_graph g) = ui_eval t g.
Proof.
  unfold geval, ui_graph, ui_eval. rewrite map_map. apply map_ext. intro es.
  unfold ui_site, ui_eval_site. induction es as [|e es IH]; cbn [flat_map map]; [reflexivity|].
  rewrite map_app, IH. f_equal. rewrite <- geval_ui_edge. destruct (ui_edge e); reflexivity.
Qed.

Lemma same_slot_iff e f :
  same_slot e f = true <-> eL f = eL e /\ eR f = eR e /\ eop f = eop e.
Proof.
  unfold same_slot. rewrite !andb_true_iff, !key_eqb_eq, Z.eqb_eq. tauto.
Qed.
Lemma same_slot_refl e : same_slot e e = true.
Proof. apply same_slot_iff. repeat split; reflexivity. Qed.
Lemma same_slot_false e f :
  same_slot e f = false <-> ~ (eL f = eL e /\ eR f = eR e /\ eop f = eop e).
Proof. rewrite <- same_slot_iff. symmetry. apply not_true_iff_false. Qed.

Ltac slots :=
  repeat match goal with
         | H : same_slot _ _ = true |- _ => apply same_slot_iff in H; destruct H as (? & ? & ?)
         | H : same_slot _ _ = false |- _ => apply same_slot_false in H
         end.

(* the coefficient of a word in sden R i k es is a sum over the edges of es of weight * (a function of the slot),
   coef_sden below; such a sum depends on es only through the total weight of every slot (wsum_ext), which is what
   the checker compares *)
Definition slot_fun (phi : edge -> C) : Prop := forall e f, same_slot e f = true -> phi f = phi e.
Fixpoint wsum (phi : edge -> C) (es : list edge) : C :=
  match es with [] => c0 | e :: t => cadd (cmul (ew e) (phi e)) (wsum phi t) end.
Definition rm (e0 : edge) (l : list edge) : list edge := filter (fun f => negb (same_slot e0 f)) l.

Lemma ecoef_cons e f l :
  ecoef (f :: l) e = if same_slot e f then cadd (ew f) (ecoef l e) else ecoef l e.
Proof. reflexivity. Qed.

Lemma rm_cons e0 f l : rm e0 (f :: l) = if same_slot e0 f then rm e0 l else f :: rm e0 l.
Proof. unfold rm. cbn [filter]. destruct (same_slot e0 f); reflexivity. Qed.

Lemma rm_length e0 l : (length (rm e0 l) <= length l)%nat.
Proof.
  induction l as [|f l IH]; [apply Nat.le_refl|]. rewrite rm_cons.
  destruct (same_slot e0 f); cbn [length]; lia.
Qed.

Lemma wsum_split phi e0 l : slot_fun phi ->
  wsum phi l = cadd (cmul (ecoef l e0) (phi e0)) (wsum phi (rm e0 l)).
Proof.
  intro Hphi. induction l as [|f l IH].
  - cbn [wsum ecoef fold_right rm filter]. csolve.
  - rewrite ecoef_cons, rm_cons. cbn [wsum]. destruct (same_slot e0 f) eqn:E.
    + rewrite (Hphi e0 f E), IH. csolve.
    + cbn [wsum]. rewrite IH. csolve.
Qed.

Lemma ecoef_rm e0 l e : ecoef (rm e0 l) e = if same_slot e0 e then c0 else ecoef l e.
Proof.
  induction l as [|f l IH].
  - cbn [rm filter ecoef fold_right]. destruct (same_slot e0 e); reflexivity.
  - rewrite rm_cons. destruct (same_slot e0 f) eqn:E.
    + rewrite IH, ecoef_cons. destruct (same_slot e0 e) eqn:E2; [reflexivity|].
      destruct (same_slot e f) eqn:E3; [|reflexivity].
      exfalso. slots. apply E2. repeat split; congruence.
    + rewrite !ecoef_cons, IH. destruct (same_slot e0 e) eqn:E2; [|reflexivity].
      destruct (same_slot e f) eqn:E3; [|reflexivity].
      exfalso. slots. apply E. repeat split; congruence.
Qed.

Lemma wsum_ext phi : slot_fun phi -> forall es fs,
  (forall e, In e (es ++ fs) -> ecoef es e = ecoef fs e) -> wsum phi es = wsum phi fs.
Proof.
  (* induction on a bound n of the joint length, taking out one slot at a time *)
  intros Hphi es fs. generalize (Nat.le_refl (length es + length fs)).
  generalize (length es + length fs)%nat at 2. intro n. revert es fs.
  induction n as [|n IH]; intros es fs Hlen H.
  - destruct es; [|cbn [length] in Hlen; lia]. destruct fs; [reflexivity|cbn [length] in Hlen; lia].
  - assert (Hstep : forall e0, In e0 (es ++ fs) ->
                    (length (rm e0 es) + length (rm e0 fs) <= n)%nat -> wsum phi es = wsum phi fs).
    { intros e0 Hin Hl. rewrite (wsum_split phi e0 es Hphi), (wsum_split phi e0 fs Hphi), (H e0 Hin).
      f_equal. apply IH; [exact Hl|]. intros e He. rewrite !ecoef_rm.
      destruct (same_slot e0 e) eqn:E; [reflexivity|]. apply H.
      apply in_app_or in He. apply in_or_app. unfold rm in He. rewrite !filter_In in He. tauto. }
    destruct es as [|e0 es'].
    + destruct fs as [|e0 fs']; [reflexivity|].
      apply (Hstep e0); [left; reflexivity|]. rewrite rm_cons, same_slot_refl.
      pose proof (rm_length e0 fs'). cbn [rm filter length] in *. lia.
    + apply (Hstep e0); [left; reflexivity|]. rewrite rm_cons, same_slot_refl.
      pose proof (rm_length e0 es'). pose proof (rm_length e0 fs). cbn [length] in Hlen. lia.
Qed.

Definition unit_edge (e : edge) : edge := mkE (eL e) (eR e) (eop e) c1.
Definition sphi (R : key -> poly) (i : nat) (k : key) (w : word) (e : edge) : C :=
  if key_eqb (eL e) k then coef (map (mstep i (unit_edge e)) (R (eR e))) w else c0.

Lemma coef_mstep_unit i e p w :
  coef (map (mstep i e) p) w = cmul (ew e) (coef (map (mstep i (unit_edge e)) p) w).
Proof.
  rewrite !coef_map_mstep. unfold unit_edge. cbn [eop ew].
  destruct (eop e =? 0); [rewrite cmul_1_l; reflexivity|].
  destruct w as [|l v]; [symmetry; apply cmul_0_r|].
  destruct (letter_eqb (i, eop e) l); [rewrite cmul_1_l; reflexivity|symmetry; apply cmul_0_r].
Qed.

Lemma sphi_slot R i k w : slot_fun (sphi R i k w).
Proof.
  intros e f E. slots. unfold sphi, unit_edge.
  repeat match goal with H : _ f = _ e |- _ => rewrite H; clear H end. reflexivity.
Qed.

Lemma coef_sden R i k es w : coef (sden R i k es) w = wsum (sphi R i k w) es.
Proof.
  rewrite sden_if. induction es as [|e es IH]; cbn [flat_map wsum]; [reflexivity|].
  rewrite coef_app, IH. f_equal. unfold sphi. destruct (key_eqb (eL e) k).
  - apply coef_mstep_unit.
  - cbn [coef]. symmetry. apply cmul_0_r.
Qed.

Lemma site_fun_eqb_sound es fs : site_fun_eqb es fs = true ->
  forall e, In e (es ++ fs) -> ecoef es e = ecoef fs e.
Proof.
  unfold site_fun_eqb. rewrite forallb_forall. intros H e He. apply ceqb_eq. apply H. exact He.
Qed.

Theorem grid_fun_sound : forall g h, grid_fun_eqb g h = true ->
  forall kf i k, peq (ending kf (paths g i k)) (ending kf (paths h i k)).
Proof.
  unfold grid_fun_eqb. induction g as [|es g IH]; intros [|fs h] Hgh kf i k; cbn [list_eqb] in Hgh;
    try discriminate; [apply peq_refl|].
  apply andb_true_iff in Hgh. destruct Hgh as [Hs Ht].
  rewrite !ending_paths_cons.
  apply peq_trans with (sden (fun r => ending kf (paths h (S i) r)) i k es).
  - apply sden_peq. intro r. apply (IH h Ht kf (S i) r).
  - intro w. rewrite !coef_sden.
    apply wsum_ext; [apply sphi_slot|apply site_fun_eqb_sound; exact Hs].
Qed.

Lemma check_UI_grid_denote c : check_UI_grid c = true ->
  peq (denote_to IdL (ui_case_U c)) (denote_to IdL (ui_eval (ui_t c) (ui_case_H c))).
Proof.
  unfold check_UI_grid. rewrite !andb_true_iff. intro H. apply peq_sym, grid_fun_sound. tauto.
Qed.

(* H = 3 Sz_0 + (2 + i) Sp_0 Sm_1 on two sites, bond indices permuted (IdL > IdR on the middle bond), dt = 1 + i *)
Definition uic_ex : uicase :=
  mkUIC (1, 1) [0; 2; 0] [1; 0; 1] [2; 3; 2]
        [[(0, 2, 0, (1, 0)); (0, 0, 1, (3, 0)); (0, 1, 2, (1, 0)); (1, 0, 0, (1, 0))];
         [(2, 0, 0, (1, 0)); (1, 1, 3, (2, 1)); (0, 1, 0, (1, 0))]]
        [0; 1; 0] [0; 1; 0] [1; 2; 1]
        [[(0, 1, 0, (1, 0)); (0, 1, 1, (3, 3)); (0, 0, 2, (1, 0))];
         [(1, 0, 0, (1, 0)); (0, 0, 3, (1, 3))]].
(* a wrong coefficient / a wrong IdL index of the result is rejected *)
Definition uic_ex_bad1 : uicase :=
  mkUIC (1, 1) [0; 2; 0] [1; 0; 1] [2; 3; 2]
        [[(0, 2, 0, (1, 0)); (0, 0, 1, (3, 0)); (0, 1, 2, (1, 0)); (1, 0, 0, (1, 0))];
         [(2, 0, 0, (1, 0)); (1, 1, 3, (2, 1)); (0, 1, 0, (1, 0))]]
        [0; 1; 0] [0; 1; 0] [1; 2; 1]
        [[(0, 1, 0, (1, 0)); (0, 1, 1, (3, 0)); (0, 0, 2, (1, 0))];
         [(1, 0, 0, (1, 0)); (0, 0, 3, (1, 3))]].
Definition uic_ex_bad2 : uicase :=
  mkUIC (1, 1) [0; 2; 0] [1; 0; 1] [2; 3; 2]
        [[(0, 2, 0, (1, 0)); (0, 0, 1, (3, 0)); (0, 1, 2, (1, 0)); (1, 0, 0, (1, 0))];
         [(2, 0, 0, (1, 0)); (1, 1, 3, (2, 1)); (0, 1, 0, (1, 0))]]
        [0; 2; 0] [0; 2; 0] [1; 2; 1]
        [[(0, 1, 0, (1, 0)); (0, 1, 1, (3, 3)); (0, 0, 2, (1, 0))];
         [(1, 0, 0, (1, 0)); (0, 0, 3, (1, 3))]].
