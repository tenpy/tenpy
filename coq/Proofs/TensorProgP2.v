(* C02: the cached claim _qdata_sorted in itranspose / iswapaxes (truthful BECAUSE it is reset), and gauge_total_charge
   (charge rule for both directions of new_qconj); the dense forms of iswapaxes and gauge_total_charge hold for every array, well-formed
   or not. *)
From TenpyV Require Import Base.Prelude Base.Lists Model.Charge Model.Tensor Model.TensorOps Model.TakeSlice Model.TensorProg.
From TenpyV Require Import Proofs.ChargeP Proofs.TensorP Proofs.TakeSliceP.
Open Scope Z_scope.

(* what swap_perm maps over seq 0 r: the swap is a permutation because this is an involution *)
Definition swapf (i j k : nat) : nat := if (k =? i)%nat then j else if (k =? j)%nat then i else k.

Lemma swapf_invol i j k : swapf i j (swapf i j k) = k.
Proof.
  unfold swapf. destruct (k =? i)%nat eqn:E1; destruct (k =? j)%nat eqn:E2;
    repeat match goal with |- context [(?a =? ?b)%nat] => destruct (a =? b)%nat eqn:? end; lia.
Qed.

Lemma swapf_lt r i j k : (i < r)%nat -> (j < r)%nat -> (k < r)%nat -> (swapf i j k < r)%nat.
Proof. intros Hi Hj Hk. unfold swapf. destruct (k =? i)%nat; [lia|]. destruct (k =? j)%nat; lia. Qed.

Lemma swap_perm_perm r i j : (i < r)%nat -> (j < r)%nat -> Permutation (swap_perm r i j) (seq 0 r).
Proof.
  intros Hi Hj. unfold swap_perm. fold (swapf i j). apply NoDup_Permutation.
  - apply NoDup_map_in; [|apply seq_NoDup]. intros x y _ _ E.
    rewrite <- (swapf_invol i j x), <- (swapf_invol i j y), E. reflexivity.
  - apply seq_NoDup.
  - intros x. rewrite in_map_iff, in_seq. split.
    + intros [k [<- Hk]]. apply in_seq in Hk. split; [lia|]. apply swapf_lt; lia.
    + intros Hx. exists (swapf i j x). split; [apply swapf_invol|]. apply in_seq. split; [lia|]. apply swapf_lt; lia.
Qed.

Lemma swap_perm_length r i j : length (swap_perm r i j) = r.
Proof. unfold swap_perm. rewrite map_length. apply seq_length. Qed.

Lemma swap_perm_id r i : swap_perm r i i = seq 0 r.
Proof.
  unfold swap_perm. rewrite <- (map_id (seq 0 r)) at 2. apply map_ext. intros k.
  destruct (k =? i)%nat eqn:E; [apply Nat.eqb_eq in E; subst; reflexivity|reflexivity].
Qed.

Lemma nth_replace_at {A} ax (x : A) l d : (ax < length l)%nat -> nth ax (replace_at ax x l) d = x.
Proof.
  revert ax. induction l as [|y l IH]; intros [|ax] H; cbn [length] in H; try lia; cbn [replace_at nth]; [reflexivity|].
  apply IH. lia.
Qed.

Lemma remove_at_replace_at {A} ax (x : A) l : remove_at ax (replace_at ax x l) = remove_at ax l.
Proof.
  unfold remove_at. revert ax. induction l as [|y l IH]; intros [|ax]; cbn [replace_at firstn skipn app]; try reflexivity.
  f_equal. apply IH.
Qed.

Lemma replace_at_length {A} ax (x : A) l : length (replace_at ax x l) = length l.
Proof. revert ax. induction l as [|y l IH]; intros [|ax]; cbn [replace_at length]; try reflexivity. f_equal. apply IH. Qed.

Lemma map_replace_at_same {A B} (f : A -> B) ax x l d : f x = f (nth ax l d) -> map f (replace_at ax x l) = map f l.
Proof.
  revert ax. induction l as [|y l IH]; intros [|ax] H; cbn [replace_at map nth] in *; try reflexivity.
  - rewrite H. reflexivity.
  - f_equal. apply IH. exact H.
Qed.

Lemma Forall_replace_at {A} (P : A -> Prop) d r l : Forall P l -> P r -> Forall P (replace_at d r l).
Proof.
  intros HF Hr. revert d. induction HF as [|x l Hx HF IH]; intros d; cbn [replace_at]; [constructor|].
  destruct d as [|d]; constructor; auto.
Qed.

Lemma Forall2_replace_at {A B} (R : A -> B -> Prop) d r r' l l' :
  Forall2 R l l' -> R r r' -> Forall2 R (replace_at d r l) (replace_at d r' l').
Proof.
  intros HF Hr. revert d. induction HF as [|x y l l' Hx HF IH]; intros d; cbn [replace_at]; [constructor|].
  destruct d as [|d]; constructor; auto.
Qed.

Lemma map_replace_at {A B} (f : A -> B) d r l : map f (replace_at d r l) = replace_at d (f r) (map f l).
Proof.
  revert d. induction l as [|x l IH]; intros d; cbn [replace_at map]; [reflexivity|].
  destruct d as [|d]; cbn [map]; [reflexivity|]. rewrite IH. reflexivity.
Qed.

Theorem wf_itranspose ci p a : Permutation p (seq 0 (rank a)) -> WF ci a ->
  WF ci (itranspose p a) /\
  (p <> seq 0 (rank a) -> qsorted (itranspose p a) = false) /\
  (p = seq 0 (rank a) -> itranspose p a = a) /\
  (forall idx, length idx = rank a -> to_ndarray (itranspose p a) (gather 0%nat p idx) = to_ndarray a idx).
Proof.
  intros HP W. unfold itranspose. destruct (row_eqb p (seq 0 (rank a))) eqn:E.
  - apply row_eqb_iff in E. split; [exact W|]. split; [intros N; contradiction|]. split; [reflexivity|].
    intros idx Hidx. rewrite E, <- Hidx, gather_id. reflexivity.
  - split; [apply wf_transpose; assumption|]. split; [reflexivity|]. split.
    + intros Hp. apply row_eqb_iff in Hp. congruence.
    + intros idx _. apply transpose_dense. exact HP.
Qed.

Lemma iswapaxes_dense i j a : (i < rank a)%nat -> (j < rank a)%nat -> forall idx, length idx = rank a ->
  to_ndarray (iswapaxes i j a) (gather 0%nat (swap_perm (rank a) i j) idx) = to_ndarray a idx.
Proof.
  intros Hi Hj idx Hl. unfold iswapaxes. destruct (i =? j)%nat eqn:E.
  - apply Nat.eqb_eq in E. subst j. rewrite swap_perm_id, <- Hl, gather_id. reflexivity.
  - apply transpose_dense, swap_perm_perm; assumption.
Qed.

Theorem wf_iswapaxes ci i j a : (i < rank a)%nat -> (j < rank a)%nat -> WF ci a ->
  WF ci (iswapaxes i j a) /\
  (i <> j -> qsorted (iswapaxes i j a) = false) /\
  (i = j -> iswapaxes i j a = a) /\
  (forall idx, length idx = rank a ->
     to_ndarray (iswapaxes i j a) (gather 0%nat (swap_perm (rank a) i j) idx) = to_ndarray a idx).
Proof.
  intros Hi Hj W. split; [|split; [|split; [|apply iswapaxes_dense; assumption]]]; unfold iswapaxes.
  - destruct (i =? j)%nat; [exact W|]. apply wf_transpose; [apply swap_perm_perm|]; assumption.
  - intros N. apply Nat.eqb_neq in N. rewrite N. reflexivity.
  - intros <-. rewrite Nat.eqb_refl. reflexivity.
Qed.

Lemma iswapaxes_legs i j a : legs (iswapaxes i j a) = gather dleg (swap_perm (rank a) i j) (legs a).
Proof.
  unfold iswapaxes. destruct (i =? j)%nat eqn:E; [|reflexivity].
  apply Nat.eqb_eq in E. subst j. rewrite swap_perm_id. symmetry. apply gather_id.
Qed.

Theorem keepflag_wf_iff ci p a : Permutation p (seq 0 (rank a)) -> WF ci a ->
  (WF ci (transpose_keepflag p a) <-> (qsorted a = true -> strictly_sorted (map (gather 0%nat p) (rows a)) = true)).
Proof.
  intros HP W. pose proof (wf_transpose ci p a HP W) as [Tq Ts Tn Tr _]. split.
  - intros K Hq. rewrite <- transpose_rows. apply (wf_claim _ _ K), Hq.
  - intros H. constructor; try assumption. intros Hq. change (rows (transpose_keepflag p a)) with (rows (transpose p a)).
    rewrite transpose_rows. apply H. exact Hq.
Qed.

Definition kf_leg (qconj : Z) : leg := mkLeg [1%nat; 1%nat] [[0]; [1]] qconj.
Definition kf_a : arr :=
  mkArr [kf_leg 1; kf_leg 1] [1] [([1%nat; 0%nat], fun _ => (5, 0)); ([0%nat; 1%nat], fun _ => (7, 0))] true.

Lemma kf_a_wf : WF [2] kf_a.
Proof. apply wfb_sound. reflexivity. Qed.

Theorem keepflag_refuted :
  WF [2] kf_a /\ Permutation [1%nat; 0%nat] (seq 0 (rank kf_a)) /\
  WF [2] (transpose [1%nat; 0%nat] kf_a) /\
  ~ claim_truthful (transpose_keepflag [1%nat; 0%nat] kf_a) /\
  legs (transpose_keepflag [1%nat; 0%nat] kf_a) = legs kf_a /\ qtot (transpose_keepflag [1%nat; 0%nat] kf_a) = qtot kf_a /\
  to_ndarray (add (1, 0) (transpose_keepflag [1%nat; 0%nat] kf_a) kf_a) [1%nat; 0%nat] = (7, 0) /\
  cadd (to_ndarray (transpose_keepflag [1%nat; 0%nat] kf_a) [1%nat; 0%nat]) (cmul (1, 0) (to_ndarray kf_a [1%nat; 0%nat])) = (12, 0) /\
  to_ndarray (add (1, 0) (transpose [1%nat; 0%nat] kf_a) kf_a) [1%nat; 0%nat] = (12, 0).
Proof.
  assert (HP : Permutation [1%nat; 0%nat] (seq 0 (rank kf_a))) by apply perm_swap.
  split; [exact kf_a_wf|]. split; [exact HP|]. split; [apply wf_transpose; [exact HP|exact kf_a_wf]|].
  split; [intros H; specialize (H eq_refl); vm_compute in H; discriminate|].
  split; [reflexivity|]. split; [reflexivity|]. vm_compute. repeat split; reflexivity.
Qed.

Lemma gauge_sign oq nq x : (oq = 1 \/ oq = -1) -> (nq = 1 \/ nq = -1) ->
  nq * (if oq =? nq then x else - x) = oq * x.
Proof. intros [->| ->] [->| ->]; cbn; lia. Qed.

Lemma gauge_charges_nth ci oq nq d c j : length c = length ci -> length d = length ci -> (j < length ci)%nat ->
  nth j (gauge_charges ci true oq nq d c) 0
  = mv1 (nth j ci 1) (if oq =? nq then nth j c 0 + oq * nth j d 0 else - (nth j c 0 + oq * nth j d 0)).
Proof. intros Hc Hd Hj. unfold gauge_charges. destruct (oq =? nq); autorewrite with vnth; reflexivity. Qed.

(* the charge rule after the shift: rest = charges of the other legs, c = old charge of the block on the re-gauged leg, t = old and
   mv1 m n = new total charge; the leg contributes nq * (+-(c + oq*d)) = oq*c + d (gauge_sign, oq*oq = 1), so the row charge moves by
   exactly d = new - old (mv1_sub_r: the old total charge may be taken unreduced, and cancels) *)
Lemma gauge_arith m rest c oq nq t n : (oq = 1 \/ oq = -1) -> (nq = 1 \/ nq = -1) ->
  mv1 m (rest + oq * c) = t ->
  mv1 m (rest + nq * mv1 m (if oq =? nq then c + oq * (mv1 m n + - t) else - (c + oq * (mv1 m n + - t)))) = mv1 m n.
Proof.
  intros Ho Hn Ht. rewrite (mv1_add m rest (nq * mv1 m _)), mv1_mul_r, <- mv1_add.
  rewrite (gauge_sign oq nq), <- Ht by assumption.
  replace (rest + oq * (c + oq * (mv1 m n + - mv1 m (rest + oq * c))))
    with (rest + oq * c + mv1 m n + - mv1 m (rest + oq * c)) by (destruct Ho as [-> | ->]; lia).
  rewrite mv1_sub_r. replace (rest + oq * c + mv1 m n + - (rest + oq * c)) with (mv1 m n) by lia. apply mv1_idem.
Qed.

Lemma gauge_dense asdoc ci ax newq newqc a idx : to_ndarray (gauge_gen asdoc ci ax newq newqc a) idx = to_ndarray a idx.
Proof.
  unfold to_ndarray, gauge_gen. cbn [legs blks]. f_equal. apply map_ext. intros b. apply bval_bsz.
  apply (map_replace_at_same bsz ax _ (legs a) dleg). reflexivity.
Qed.

Theorem wf_gauge ci ax newq newqc a : WF ci a -> gauge_ok ci ax newq newqc a ->
  WF ci (gauge_total_charge ci ax newq newqc a) /\
  qtot (gauge_total_charge ci ax newq newqc a) = make_valid ci newq /\
  qc (nth ax (legs (gauge_total_charge ci ax newq newqc a)) dleg) = newqc /\
  (forall idx, to_ndarray (gauge_total_charge ci ax newq newqc a) idx = to_ndarray a idx).
Proof.
  intros [Aq As An Ar Ac] (Hax & Hnq & Hoq & Hnqc & Hch & Hrng). unfold gauge_total_charge, gauge_gen.
  set (l := nth ax (legs a) dleg) in *. set (nq := make_valid ci newq).
  set (d := vadd nq (vneg (qtot a))).
  set (l' := mkLeg (bsz l) (map (gauge_charges ci true (qc l) newqc d) (bch l)) newqc).
  assert (Hdl : length d = length ci) by (unfold d, nq; auto with vlen).
  unfold rank in Hax.
  split; [|split; [reflexivity|split; [|intros idx; apply gauge_dense]]].
  - constructor; cbn [qtot legs blks qsorted rows rank].
    + unfold nq. auto with vlen.
    + intros r Hr. unfold rank. cbn [legs]. rewrite replace_at_length. apply As. exact Hr.
    + exact An.
    + intros r Hr j Hj. cbn [legs qtot]. fold (rows a) in Hr. pose proof (Ar r Hr j Hj) as Hok. pose proof (As r Hr) as Hrl.
      unfold rank in Hrl. specialize (Hrng r Hr).
      rewrite (row_charge_remove _ _ ax) in Hok by lia. fold l in Hok.
      rewrite (row_charge_remove _ _ ax), remove_at_replace_at, nth_replace_at by (rewrite ?replace_at_length; lia).
      unfold chg, l'. cbn [qc bch]. rewrite (nth_map_default _ (bch l) _ [] []) by exact Hrng.
      rewrite Forall_forall in Hch.
      rewrite gauge_charges_nth by (try exact Hdl; try exact Hj; apply Hch, nth_In, Hrng).
      unfold d, nq. autorewrite with vnth.
      apply gauge_arith; [exact Hoq|exact Hnqc|exact Hok].
    + exact Ac.
  - cbn [legs]. rewrite nth_replace_at by exact Hax. reflexivity.
Qed.

Definition gg_a : arr :=
  mkArr [mkLeg [1%nat; 1%nat] [[0]; [1]] 1; mkLeg [1%nat; 1%nat] [[0]; [1]] (-1)] [0]
        [([0%nat; 0%nat], fun _ => (1, 0)); ([1%nat; 1%nat], fun _ => (2, 0))] true.

Lemma gg_a_wf : WF [1] gg_a.
Proof. apply wfb_sound. reflexivity. Qed.

Theorem gauge_wrong_sign_refuted :
  WF [1] gg_a /\ valid_ci [1] /\
  Forall (fun c => length c = length [1]) (bch (nth 0 (legs gg_a) dleg)) /\
  (forall r, In r (rows gg_a) -> (nth 0 r 0 < length (bch (nth 0 (legs gg_a) dleg)))%nat) /\
  ~ charge_rule [1] (gauge_gen false [1] 0 [1] (-1) gg_a) /\
  WF [1] (gauge_total_charge [1] 0 [1] (-1) gg_a) /\
  bch (nth 0 (legs (gauge_total_charge [1] 0 [1] (-1) gg_a)) dleg) = [[-1]; [-2]].
Proof.
  assert (Hv : valid_ci [1]) by (repeat constructor; lia).
  assert (Hc : Forall (fun c => length c = length [1]) (bch (nth 0 (legs gg_a) dleg))) by (repeat constructor).
  assert (Hr : forall r, In r (rows gg_a) -> (nth 0 r 0 < length (bch (nth 0 (legs gg_a) dleg)))%nat).
  { intros r [<-|[<-|[]]]; cbn; lia. }
  split; [exact gg_a_wf|]. split; [exact Hv|]. split; [exact Hc|]. split; [exact Hr|]. split; [|split].
  - intros H. specialize (H [0%nat; 0%nat] (or_introl eq_refl) 0%nat ltac:(cbn; lia)). vm_compute in H. discriminate.
  - apply (wf_gauge [1] 0 [1] (-1) gg_a gg_a_wf). repeat split; try assumption; [cbn; lia|left; reflexivity|right; reflexivity].
  - vm_compute. reflexivity.
Qed.
