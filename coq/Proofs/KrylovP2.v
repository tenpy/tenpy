(* Model/Krylov2.v (property C16).  The event list with the accesses to h is taken apart by three projections (the
   events of Model/Krylov.v, the accesses to h, the writes to h); the write list is the graph of `tri_entry` over a
   band, from which positions, values and lookups are read. *)
From TenpyV Require Import Base.Prelude Base.Lists Model.Krylov Proofs.KrylovP Model.Krylov2.

Lemma build_loop_matvecs nc re n : forall k c,
  filter is_matvec (build_loop nc re k n c) = map (fun k => (2, k, 0, 0)%nat) (seq k n).
Proof.
  induction n as [|n IH]; intros k c; [reflexivity|].
  cbn [build_loop seq map]. rewrite !filter_app, IH.
  assert (Ho : forall c', filter is_matvec (ortho_events re c' k) = []).
  { intros c'. unfold ortho_events. cbn [filter is_matvec Nat.eqb].
    destruct re.
    - induction (removelast c') as [|x l IHl]; [reflexivity|exact IHl].
    - destruct k; reflexivity. }
  rewrite Ho. reflexivity.
Qed.

Lemma targets_reortho nc k : (1 <= nc)%nat ->
  ortho_targets (ortho_events true (cache_after nc (S k)) k) = k :: seq (S k - nc) (k - (S k - nc)).
Proof.
  intros Hnc. rewrite ortho_events_reortho by exact Hnc. unfold ortho_targets. cbn [map]. f_equal.
  rewrite map_map. cbn. apply map_id.
Qed.

Lemma gram_schmidt_indices nc N k : (2 <= nc)%nat -> (k < N)%nat ->
  nth k (build_ortho nc false 0 N []) [] =
    (3, S k, k, 0)%nat :: match k with O => [] | S k' => [(3, S k, k', 1)%nat] end /\
  nth k (build_ortho nc true 0 N []) [] =
    (3, S k, k, 0)%nat :: map (fun v => (3, S k, v, 2)%nat) (seq (S k - nc) (k - (S k - nc))) /\
  NoDup (ortho_targets (nth k (build_ortho nc true 0 N []) [])) /\
  (forall j, In j (ortho_targets (nth k (build_ortho nc true 0 N []) [])) <-> (S k - nc <= j <= k)%nat) /\
  ((forall j, (j <= k)%nat -> In j (ortho_targets (nth k (build_ortho nc true 0 N []) []))) <-> (k < nc)%nat) /\
  (forall k' j, (k <= k')%nat -> (k' < N)%nat -> (j < S k - nc)%nat ->
     ~ In j (ortho_targets (nth k' (build_ortho nc true 0 N []) []))).
Proof.
  intros Hnc Hk.
  assert (Hin : forall k0 j, In j (k0 :: seq (S k0 - nc) (k0 - (S k0 - nc))) <-> (S k0 - nc <= j <= k0)%nat).
  { intros k0 j. cbn [In]. rewrite in_seq. lia. }
  rewrite !build_ortho_nth by exact Hk.
  split; [apply ortho_events_noreortho; exact Hnc|].
  split; [apply ortho_events_reortho; lia|].
  rewrite targets_reortho by lia.
  split.
  { constructor; [rewrite in_seq; lia|apply seq_NoDup]. }
  split; [apply Hin|]. split.
  - split.
    + intros H. specialize (H 0%nat ltac:(lia)). apply Hin in H. lia.
    + intros Hlt j Hj. apply Hin. lia.
  - intros k' j Hkk Hk' Hj. rewrite build_ortho_nth by exact Hk'. rewrite targets_reortho by lia.
    rewrite Hin. lia.
Qed.

Lemma h_writes_app a b : h_writes (a ++ b) = h_writes a ++ h_writes b.
Proof. apply flat_map_app. Qed.
Lemma h_erase_app a b : h_erase (a ++ b) = h_erase a ++ h_erase b.
Proof. apply flat_map_app. Qed.
Lemma h_only_app a b : h_only (a ++ b) = h_only a ++ h_only b.
Proof. apply filter_app. Qed.

Lemma h_writes_HO l : h_writes (map HO l) = [].
Proof. induction l as [|x l IH]; [reflexivity|exact IH]. Qed.
Lemma h_erase_HO l : h_erase (map HO l) = l.
Proof. induction l as [|x l IH]; [reflexivity|]. cbn. f_equal. exact IH. Qed.
Lemma h_only_HO l : h_only (map HO l) = [].
Proof. induction l as [|x l IH]; [reflexivity|exact IH]. Qed.

Lemma h_writes_conv cv k : h_writes (conv_read cv k) = [].
Proof. unfold conv_read. destruct (nth k cv false); reflexivity. Qed.
Lemma h_erase_conv cv k : h_erase (conv_read cv k) = [].
Proof. unfold conv_read. destruct (nth k cv false); reflexivity. Qed.
Lemma h_only_conv cv k : h_only (conv_read cv k) = conv_read cv k.
Proof. unfold conv_read. destruct (nth k cv false); reflexivity. Qed.
Lemma h_writes_kr k : h_writes [krylov_read k] = [].
Proof. destruct k; reflexivity. Qed.

Lemma result_hevents_eq nc re N :
  result_hevents nc re N =
  map HO ((6, 0, 0, 0)%nat :: map (fun t => (4, fst t, snd t, 0)%nat) (cached_terms N (cache_after nc N)))
  ++ rebuild_loop_h nc re 0 (N - length (cache_after nc N) - 1) [] ++ map HO [(5, 0, 0, 0)%nat].
Proof. unfold result_hevents. cbn [map]. rewrite map_map. reflexivity. Qed.

(* in the three lemmas about build_loop_h the last step splits on k only because krylov_read k is a match on k *)
Lemma build_loop_h_erase nc re cv n : forall k c,
  h_erase (build_loop_h nc re cv k n c) = build_loop nc re k n c.
Proof.
  induction n as [|n IH]; intros k c; [reflexivity|].
  cbn [build_loop_h build_loop]. rewrite !h_erase_app, h_erase_HO, h_erase_conv, IH. destruct k; reflexivity.
Qed.

Lemma rebuild_loop_h_erase nc re n : forall k c,
  h_erase (rebuild_loop_h nc re k n c) = rebuild_loop nc re k n c.
Proof.
  induction n as [|n IH]; intros k c; [reflexivity|].
  cbn [rebuild_loop_h rebuild_loop]. rewrite !h_erase_app, h_erase_HO, IH. reflexivity.
Qed.

Lemma lanczos_hevents_erase nc re N cv :
  h_erase (lanczos_hevents nc re N cv) = lanczos_events nc re N.
Proof.
  unfold lanczos_hevents, lanczos_events. rewrite h_erase_app, build_loop_h_erase. f_equal.
  destruct (N =? 1)%nat; [reflexivity|].
  rewrite result_hevents_eq, !h_erase_app, !h_erase_HO, rebuild_loop_h_erase. reflexivity.
Qed.

Lemma build_loop_h_only nc re cv n : forall k c,
  h_only (build_loop_h nc re cv k n c) = flat_map (build_h_iter cv) (seq k n).
Proof.
  induction n as [|n IH]; intros k c; [reflexivity|].
  cbn [build_loop_h seq flat_map]. rewrite !h_only_app, h_only_HO, h_only_conv, IH. destruct k; reflexivity.
Qed.

Lemma rebuild_loop_h_only nc re n : forall k c,
  h_only (rebuild_loop_h nc re k n c) = flat_map rebuild_h_iter (seq k n).
Proof.
  induction n as [|n IH]; intros k c; [reflexivity|].
  cbn [rebuild_loop_h seq flat_map]. rewrite !h_only_app, h_only_HO, IH. reflexivity.
Qed.

Lemma lanczos_h_only nc re N cv : h_only (lanczos_hevents nc re N cv) = h_accesses nc N cv.
Proof.
  unfold lanczos_hevents, h_accesses. rewrite h_only_app, build_loop_h_only. f_equal.
  destruct (N =? 1)%nat; [reflexivity|].
  rewrite result_hevents_eq, !h_only_app, !h_only_HO, rebuild_loop_h_only. apply app_nil_r.
Qed.

Lemma build_loop_h_writes nc re cv n : forall k c,
  h_writes (build_loop_h nc re cv k n c) = flat_map iter_writes (seq k n).
Proof.
  induction n as [|n IH]; intros k c; [reflexivity|].
  cbn [build_loop_h seq flat_map]. rewrite !h_writes_app, h_writes_HO, h_writes_conv, IH. destruct k; reflexivity.
Qed.

Lemma rebuild_loop_h_writes nc re n : forall k c, h_writes (rebuild_loop_h nc re k n c) = [].
Proof.
  induction n as [|n IH]; intros k c; [reflexivity|].
  cbn [rebuild_loop_h]. rewrite !h_writes_app, h_writes_HO, IH. reflexivity.
Qed.

Lemma lanczos_hevents_writes nc re N cv : h_writes (lanczos_hevents nc re N cv) = build_writes N.
Proof.
  unfold lanczos_hevents. rewrite h_writes_app, build_loop_h_writes.
  destruct (N =? 1)%nat; [|rewrite result_hevents_eq, !h_writes_app, !h_writes_HO, rebuild_loop_h_writes]; apply app_nil_r.
Qed.

Lemma build_writes_S k : build_writes (S k) = build_writes k ++ iter_writes k.
Proof. unfold build_writes. rewrite seq_S, flat_map_app. cbn [flat_map Nat.add]. rewrite app_nil_r. reflexivity. Qed.

Lemma tri_entry_sym i j : tri_entry i j = tri_entry j i.
Proof.
  unfold tri_entry.
  destruct (Nat.eqb_spec i j) as [H|H]; destruct (Nat.eqb_spec j i) as [H'|H']; try lia; [subst; reflexivity|].
  destruct (Nat.eqb_spec j (S i)); destruct (Nat.eqb_spec i (S j)); try lia; reflexivity.
Qed.
Lemma tri_diag i : tri_entry i i = Alpha i.
Proof. unfold tri_entry. rewrite Nat.eqb_refl. reflexivity. Qed.
Lemma tri_sup i : tri_entry i (S i) = Beta i.
Proof.
  unfold tri_entry. destruct (Nat.eqb_spec i (S i)); [lia|]. rewrite Nat.eqb_refl. reflexivity.
Qed.
Lemma tri_off i j : i <> j -> j <> S i -> i <> S j -> tri_entry i j = HZero.
Proof.
  intros H1 H2 H3. unfold tri_entry.
  destruct (Nat.eqb_spec i j); [lia|]. destruct (Nat.eqb_spec j (S i)); [lia|]. destruct (Nat.eqb_spec i (S j)); [lia|reflexivity].
Qed.

Definition band (N i j : nat) : Prop := (i = j /\ i < N)%nat \/ (j = S i /\ i < N)%nat \/ (i = S j /\ j < N)%nat.

Lemma in_build_writes N i j v : In (i, j, v) (build_writes N) <-> v = tri_entry i j /\ band N i j.
Proof.
  unfold build_writes, band. rewrite in_flat_map. split.
  - intros [k [Hk Hin]]. apply in_seq in Hk.
    destruct Hin as [E|[E|[E|[]]]]; inversion E; subst; (split; [|lia]).
    + symmetry. apply tri_diag.
    + symmetry. apply tri_sup.
    + rewrite tri_entry_sym. symmetry. apply tri_sup.
  - intros [-> [[-> Hi]|[[-> Hi]|[-> Hj]]]].
    + exists j. rewrite in_seq, tri_diag. cbn. auto with arith.
    + exists i. rewrite in_seq, tri_sup. cbn. auto with arith.
    + exists j. rewrite in_seq, tri_entry_sym, tri_sup. cbn. auto with arith.
Qed.

Lemma in_positions N i j : In (i, j) (map wpos (build_writes N)) <-> band N i j.
Proof.
  rewrite in_map_iff. split.
  - intros [[[i' j'] v] [E H]]. inversion E; subst. apply in_build_writes in H. apply H.
  - intros H. exists (i, j, tri_entry i j). split; [reflexivity|]. apply in_build_writes. auto.
Qed.

Lemma positions_bound N nmax i j : (N <= nmax)%nat ->
  In (i, j) (map wpos (build_writes N)) -> (i < S nmax /\ j < S nmax)%nat.
Proof. intros HN H. apply in_positions in H. unfold band in H. lia. Qed.

Lemma positions_nodup N : NoDup (map wpos (build_writes N)).
Proof.
  induction N as [|N IH]; [constructor|].
  rewrite build_writes_S, map_app. apply NoDup_app_disj; [exact IH| |].
  - cbn. repeat constructor; cbn; intros H; repeat (destruct H as [H|H]; [inversion H; lia|]); exact H.
  - intros [i j] H1 H2. apply in_positions in H1. unfold band in H1. cbn in H2.
    repeat (destruct H2 as [H2|H2]; [inversion H2; subst; lia|]). exact H2.
Qed.

Lemma h_find_app a b i j :
  h_find (a ++ b) i j = match h_find b i j with Some u => Some u | None => h_find a i j end.
Proof.
  induction a as [|[[i' j'] v] a IH]; cbn [app h_find].
  - destruct (h_find b i j); reflexivity.
  - rewrite IH. destruct (h_find b i j); reflexivity.
Qed.

Lemma h_find_none w i j : ~ In (i, j) (map wpos w) -> h_find w i j = None.
Proof.
  induction w as [|[[i' j'] v] w IH]; intros H; [reflexivity|].
  cbn [h_find]. rewrite IH by (intros Hin; apply H; right; exact Hin).
  destruct (Nat.eqb_spec i' i) as [->|]; [|reflexivity]. destruct (Nat.eqb_spec j' j) as [->|]; [|reflexivity].
  exfalso. apply H. left. reflexivity.
Qed.

Lemma h_find_in w i j v : NoDup (map wpos w) -> In (i, j, v) w -> h_find w i j = Some v.
Proof.
  induction w as [|[[i' j'] v'] w IH]; intros Hnd Hin; [destruct Hin|].
  inversion Hnd as [|? ? Hx Hnd']; subst. cbn [h_find]. destruct Hin as [E|Hin].
  - inversion E; subst. rewrite (h_find_none w i j Hx), !Nat.eqb_refl. reflexivity.
  - rewrite (IH Hnd' Hin). reflexivity.
Qed.

Lemma h_lookup_in w i j v : NoDup (map wpos w) -> In (i, j, v) w -> h_lookup w i j = v.
Proof. intros Hnd Hin. unfold h_lookup. rewrite (h_find_in w i j v Hnd Hin). reflexivity. Qed.

Lemma h_lookup_out w i j : ~ In (i, j) (map wpos w) -> h_lookup w i j = HZero.
Proof. intros H. unfold h_lookup. rewrite (h_find_none w i j H). reflexivity. Qed.

Lemma h_lookup_app_out a b i j : ~ In (i, j) (map wpos b) -> h_lookup (a ++ b) i j = h_lookup a i j.
Proof. intros H. unfold h_lookup. rewrite h_find_app, (h_find_none b i j H). reflexivity. Qed.

Lemma build_writes_lookup N i j : (i < N)%nat -> (j <= N)%nat -> h_lookup (build_writes N) i j = tri_entry i j.
Proof.
  intros Hi Hj. assert (B : band N i j \/ (i <> j /\ j <> S i /\ i <> S j)) by (unfold band; lia).
  destruct B as [B|(B1 & B2 & B3)].
  - apply h_lookup_in; [apply positions_nodup|apply in_build_writes; auto].
  - rewrite tri_off by assumption. apply h_lookup_out. rewrite in_positions. unfold band. lia.
Qed.

(* the block read in iteration k: after h[k,k] = alpha_k, before the beta writes of iteration k, which lie outside it *)
Lemma block_lookup k i j : (i <= k)%nat -> (j <= k)%nat ->
  h_lookup (build_writes k ++ [(k, k, Alpha k)]) i j = tri_entry i j.
Proof.
  intros Hi Hj. rewrite <- (build_writes_lookup (S k)) by lia.
  rewrite build_writes_S. unfold iter_writes.
  change [(k, k, Alpha k); (k, S k, Beta k); (S k, k, Beta k)] with ([(k, k, Alpha k)] ++ [(k, S k, Beta k); (S k, k, Beta k)]).
  rewrite app_assoc. symmetry. apply h_lookup_app_out.
  intros [E|[E|[]]]; inversion E; lia.
Qed.

Fixpoint reads_ok (P : list hwrite -> hev -> Prop) (w : list hwrite) (evs : list hev) : Prop :=
  match evs with
  | [] => True
  | e :: t => P w e /\ reads_ok P (w ++ h_writes [e]) t
  end.

Lemma reads_ok_app P a : forall w b,
  reads_ok P w a -> reads_ok P (w ++ h_writes a) b -> reads_ok P w (a ++ b).
Proof.
  induction a as [|e a IH]; intros w b Ha Hb.
  - cbn [h_writes flat_map] in Hb. rewrite app_nil_r in Hb. exact Hb.
  - cbn [app reads_ok] in *. destruct Ha as [He Ha]. split; [exact He|].
    apply IH; [exact Ha|]. rewrite <- app_assoc, <- h_writes_app. exact Hb.
Qed.

Lemma reads_ok_split P pre : forall w e post,
  reads_ok P w (pre ++ e :: post) -> P (w ++ h_writes pre) e.
Proof.
  induction pre as [|x pre IH]; intros w e post H.
  - cbn [app reads_ok h_writes flat_map] in *. rewrite app_nil_r. exact (proj1 H).
  - cbn [app reads_ok] in H. destruct H as [_ H]. apply IH in H.
    rewrite <- app_assoc, <- h_writes_app in H. exact H.
Qed.

Definition read_sees (N : nat) (w : list hwrite) (e : hev) : Prop :=
  match e with
  | HRB n => (2 <= n <= N)%nat /\ forall i j, (i < n)%nat -> (j < n)%nat -> h_lookup w i j = tri_entry i j
  | HR i j => (i < N)%nat /\ ((i = j /\ h_lookup w i j = Alpha i) \/ (j = S i /\ h_lookup w i j = Beta i))
  | _ => True
  end.

Lemma reads_ok_HO N l : forall w, reads_ok (read_sees N) w (map HO l).
Proof.
  intros w. induction l as [|x l IH]; [exact I|].
  cbn [map reads_ok h_writes flat_map app]. rewrite app_nil_r. split; [exact I|exact IH].
Qed.

Lemma sees_entry N M i j : (i < M <= N)%nat -> j = i \/ j = S i -> read_sees N (build_writes M) (HR i j).
Proof.
  intros HM Hj. cbn [read_sees]. split; [lia|]. rewrite build_writes_lookup by lia.
  destruct Hj as [->| ->]; [left; split; [reflexivity|apply tri_diag]|right; split; [reflexivity|apply tri_sup]].
Qed.

Lemma build_reads_ok N nc re cv n : forall k c, (k + n <= N)%nat ->
  reads_ok (read_sees N) (build_writes k) (build_loop_h nc re cv k n c).
Proof.
  induction n as [|n IH]; intros k c Hk; [exact I|].
  (* iteration k in program order: three events of Model/Krylov.v, the write of Alpha k, krylov_read k, the
     orthogonalisation, the two writes of Beta k, conv_read; only the two reads ask for something *)
  cbn [build_loop_h app reads_ok]. rewrite h_writes_kr. cbn [h_writes flat_map app]. rewrite ?app_nil_r.
  repeat (split; [exact I|]).
  split.
  { destruct k as [|k]; cbn [krylov_read read_sees].
    - split; [lia|]. left. split; [reflexivity|]. rewrite block_lookup by lia. apply tri_diag.
    - split; [lia|]. intros i j Hi Hj. apply block_lookup; lia. }
  apply reads_ok_app; [apply reads_ok_HO|]. rewrite h_writes_HO, app_nil_r.
  cbn [app reads_ok h_writes flat_map]. rewrite ?app_nil_r.
  repeat (split; [exact I|]).
  rewrite <- !app_assoc. cbn [app]. fold (iter_writes k). rewrite <- build_writes_S.
  apply reads_ok_app.
  - unfold conv_read. destruct (nth k cv false); [|exact I].
    split; [|exact I]. apply sees_entry; lia.
  - rewrite h_writes_conv, app_nil_r. apply IH. lia.
Qed.

Lemma rebuild_reads_ok N nc re n : forall k c, (k + n < N)%nat ->
  reads_ok (read_sees N) (build_writes N) (rebuild_loop_h nc re k n c).
Proof.
  induction n as [|n IH]; intros k c Hk; [exact I|].
  cbn [rebuild_loop_h app reads_ok h_writes flat_map]. rewrite ?app_nil_r.
  repeat (split; [exact I|]).
  split; [apply sees_entry; lia|].
  apply reads_ok_app; [apply reads_ok_HO|]. rewrite h_writes_HO, app_nil_r.
  cbn [app reads_ok h_writes flat_map]. rewrite ?app_nil_r.
  split; [apply sees_entry; lia|].
  repeat (split; [exact I|]).
  apply IH. lia.
Qed.

Lemma lanczos_reads_ok nc re N cv : (1 <= N)%nat ->
  reads_ok (read_sees N) [] (lanczos_hevents nc re N cv).
Proof.
  intros HN. unfold lanczos_hevents. apply reads_ok_app.
  - apply (build_reads_ok N nc re cv N 0 []). lia.
  - rewrite build_loop_h_writes. cbn [app]. fold (build_writes N).
    destruct (Nat.eqb_spec N 1) as [H1|H1].
    + cbn [reads_ok h_writes flat_map app]. rewrite ?app_nil_r.
      split; [|split; [|exact I]]; apply sees_entry; lia.
    + rewrite result_hevents_eq. apply reads_ok_app; [apply reads_ok_HO|]. rewrite h_writes_HO, app_nil_r.
      apply reads_ok_app; [apply rebuild_reads_ok; lia|apply reads_ok_HO].
Qed.

Lemma lanczos_reads nc re N cv pre e post : (1 <= N)%nat ->
  lanczos_hevents nc re N cv = pre ++ e :: post -> read_sees N (h_writes pre) e.
Proof.
  intros HN E. pose proof (lanczos_reads_ok nc re N cv HN) as H. rewrite E in H.
  exact (reads_ok_split _ _ _ _ _ H).
Qed.

Open Scope Z_scope.

Lemma shift_rq_num s d : forall x, rq_num (map (Z.add s) d) x = rq_num d x + s * rq_den d x.
Proof.
  induction d as [|di d IH]; intros x; [cbn; ring|].
  destruct x as [|xi x]; [cbn; ring|]. cbn [map rq_num rq_den]. rewrite IH. ring.
Qed.

Lemma shift_rq_den s d : forall x, rq_den (map (Z.add s) d) x = rq_den d x.
Proof.
  induction d as [|di d IH]; intros x; [reflexivity|].
  destruct x as [|xi x]; [reflexivity|]. cbn [map rq_den]. rewrite IH. reflexivity.
Qed.

Lemma shift_tri_dot s al : forall be x prev,
  dotZ x (tri_mv prev (map (Z.add s) al) be x) = dotZ x (tri_mv prev al be x) + s * rq_den al x.
Proof.
  induction al as [|a al IH]; intros be x prev; [cbn; destruct x; cbn; ring|].
  destruct x as [|xi x]; [cbn; ring|]. cbn [map tri_mv dotZ rq_den]. rewrite IH. ring.
Qed.

Lemma shift_lanczos_step s d : forall v u a b,
  lanczos_step (map (Z.add s) d) v u (a + s) b = lanczos_step d v u a b.
Proof.
  induction d as [|di d IH]; intros v u a b; [reflexivity|].
  destruct v as [|vi v]; [reflexivity|]. destruct u as [|ui u]; [reflexivity|].
  cbn [map lanczos_step]. rewrite IH. f_equal. ring.
Qed.

Lemma shift_rayleigh s :
  (forall d x, rq_num (map (Z.add s) d) x = rq_num d x + s * rq_den d x /\
               rq_den (map (Z.add s) d) x = rq_den d x) /\
  (forall al be x, tri_form (map (Z.add s) al) be x = tri_form al be x + s * rq_den al x) /\
  (forall d v u a b, lanczos_step (map (Z.add s) d) v u (a + s) b = lanczos_step d v u a b).
Proof.
  split; [intros d x; split; [apply shift_rq_num|apply shift_rq_den]|].
  split; [intros al be x; apply shift_tri_dot|apply shift_lanczos_step].
Qed.

Lemma init_total_shift H es : total_shift (fst (krylov_init H es)) = total_shift H + es_shift es.
Proof.
  destruct es as [s|]; cbn [krylov_init es_shift]; [|cbn [fst]; ring].
  destruct H; cbn [fst total_shift]; ring.
Qed.

Lemma run_return_shifted es N x : run_return es N (x + es_shift es) = (x, negb (N =? 1)%nat).
Proof. unfold run_return. destruct es; cbn [es_shift]; destruct (N =? 1)%nat; cbn [negb]; f_equal; ring. Qed.

Lemma solve_energy_eq H es N e : solve_energy H es N e = e + total_shift H.
Proof. unfold solve_energy. rewrite init_total_shift, Z.add_assoc, run_return_shifted. reflexivity. Qed.

Lemma shared_total_shift H es :
  total_shift (snd (krylov_init H es)) = match H with OOrtho _ => total_shift H + es_shift es | _ => total_shift H end.
Proof. destruct es as [s|]; destruct H; cbn [krylov_init snd total_shift es_shift]; ring. Qed.

Lemma shift_twice H es N1 N2 e : total_shift H = 0 ->
  solve_twice H es N1 N2 e = (e, match H with OOrtho _ => e + es_shift es | _ => e end).
Proof.
  intros H0. unfold solve_twice. rewrite !solve_energy_eq, shared_total_shift, H0. destruct H; f_equal; ring.
Qed.
