(* Non-vacuity of the program theorems (T01_program, T02_history): a 9-step history on a U(1) x Z_2 tensor with unsorted blocks and
   nonzero total charge. *)
From TenpyV Require Import Base.Prelude Model.Charge Model.Tensor Model.TensorOps Model.TensorProg.
From TenpyV Require Import Proofs.TensorP.
Open Scope Z_scope.

Definition ep_ci : chinfo := [1; 2].
Definition ep_l1 : leg := mkLeg [1%nat; 2%nat] [[1; 1]; [2; 0]] 1.
Definition ep_l2 : leg := mkLeg [2%nat; 1%nat] [[0; 1]; [1; 0]] (-1).
Definition ep_a : arr :=
  mkArr [ep_l1; ep_l2] [1; 0]
        [([1%nat; 1%nat], fun i => (Z.of_nat (nth 0 i 0%nat) + 2, -1)); ([0%nat; 0%nat], fun i => (Z.of_nat (nth 1 i 0%nat) + 1, 2))]
        false.
(*  t = a.transpose([1, 0]);  t.iconj();  d = tensordot(a, t, 1);  s = d + 1j * d;  o = outer(s, a);  u = o.take_slice(2, 1);
    u.iswapaxes(0, 2);  g = d.gauge_total_charge(1, [5, 1], +1);  a = 0 * u  *)
Definition ep_prog : list instr :=
  [(OTranspose 0 [1%nat; 0%nat], None); (OConj 1, Some 1%nat); (OTensordot 0 1 1, None); (OAdd 2 2 (0, 1), None);
   (OOuter 3 0, None); (OTakeSlice 4 1 2, None); (OSwapaxes 5 0 2, Some 5%nat); (OGauge 2 1 [5; 1] 1, None);
   (OScale 5 (0, 0), Some 0%nat)].

Lemma ep_valid : valid_ci ep_ci.
Proof. repeat constructor; lia. Qed.

Lemma ep_a_wf : Forall (WF ep_ci) [ep_a].
Proof. constructor; [apply wfb_sound; reflexivity|constructor]. Qed.

Lemma ep_applicable : applicable_prog ep_ci ep_prog [ep_a].
Proof.
  unfold ep_prog. cbn [applicable_prog fst snd applicable].
  repeat match goal with |- _ /\ _ => split end; try exact I;
    try (match goal with |- (_ < _)%nat => vm_compute; lia | |- (_ <= _)%nat => vm_compute; lia end).
  - exact (perm_swap 0%nat 1%nat []).
  - change (Forall2 (contractible ep_ci) [ep_l2] [conj_leg ep_l2]). repeat constructor; apply (contractible_conj ep_ci ep_l2).
  - reflexivity.
  - reflexivity.
  - vm_compute. repeat split; lia.
  - vm_compute. repeat split; try lia; try (right; reflexivity); try (left; reflexivity).
    + repeat constructor.
    + intros r [<-|[<-|[]]]; lia.
Qed.

Lemma ep_result :
  map (fun a => (map ind_len (legs a), qtot a, rows a, qsorted a)) (run ep_ci ep_prog [ep_a]) =
  [([3; 3; 3]%nat, [3; 0], [], true);
   ([3; 3]%nat, [-1; 0], [[1; 1]; [0; 0]]%nat, false);
   ([3; 3]%nat, [0; 0], [[0; 0]; [1; 1]]%nat, true);
   ([3; 3]%nat, [0; 0], [[0; 0]; [1; 1]]%nat, true);
   ([3; 3; 3; 3]%nat, [1; 0], [[0; 0; 1; 1]; [1; 1; 1; 1]; [0; 0; 0; 0]; [1; 1; 0; 0]]%nat, false);
   ([3; 3; 3]%nat, [3; 0], [[1; 1; 1]; [0; 0; 1]]%nat, false);
   ([3; 3]%nat, [5; 1], [[0; 0]; [1; 1]]%nat, true)] /\
  map (to_ndarray (get (run ep_ci ep_prog [ep_a]) 5)) [[2; 1; 1]; [2; 2; 2]; [1; 0; 0]]%nat = [(22, 4); (40, 20); (0, 0)] /\
  map (snd (dget (d_run ep_prog (map to_dense [ep_a])) 5)) [[2; 1; 1]; [2; 2; 2]; [1; 0; 0]]%nat = [(22, 4); (40, 20); (0, 0)] /\
  map (to_ndarray (get (run ep_ci ep_prog [ep_a]) 6)) [[0; 0]; [1; 2]; [2; 2]]%nat = [(13, 0); (7, -1); (10, 0)] /\
  map (snd (dget (d_run ep_prog (map to_dense [ep_a])) 6)) [[0; 0]; [1; 2]; [2; 2]]%nat = [(13, 0); (7, -1); (10, 0)] /\
  map (fun l => (bch l, qc l)) (legs (get (run ep_ci ep_prog [ep_a]) 6)) = [([[1; 1]; [2; 0]], 1); ([[4; 0]; [3; 1]], 1)] /\
  map fst (d_run ep_prog (map to_dense [ep_a])) = [[3; 3; 3]; [3; 3]; [3; 3]; [3; 3]; [3; 3; 3; 3]; [3; 3; 3]; [3; 3]]%nat.
Proof. vm_compute. repeat split; reflexivity. Qed.
