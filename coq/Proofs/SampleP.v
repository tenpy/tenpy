(* sample_measurements (Model/Sample.v): the loop keeps theta = raw projected state / total (loop_inv), hence the returned
   weight is the norm resp. theta[0,0] of the un-normalised projection. *)
From TenpyV Require Import Base.Prelude Base.Lists Model.Sample.
Open Scope Z_scope.

Lemma sample_sites_from_length n : forall i, length (sample_sites_from i n) = n.
Proof. induction n as [|n IH]; intros i; cbn [sample_sites_from length]; [reflexivity | rewrite IH; reflexivity]. Qed.

Lemma sample_sites_from_in i n : forall a, In i (sample_sites_from a n) <-> a <= i < a + Z.of_nat n.
Proof. induction n as [|n IH]; intros a; cbn [sample_sites_from In]; [lia|]. rewrite IH. lia. Qed.

Lemma sample_op_indices_nth first nops n : forall a m, (m < n)%nat ->
  nth m (map (fun i => (i, (i - first) mod nops)) (sample_sites_from a n)) (0, 0) =
  (a + Z.of_nat m, (a + Z.of_nat m - first) mod nops).
Proof.
  induction n as [|n IH]; intros a m Hm; [lia|].
  destruct m as [|m]; cbn [sample_sites_from map nth]; [f_equal; [|f_equal]; lia|].
  rewrite IH by lia. f_equal; [|f_equal]; lia.
Qed.

Lemma sample_op_indices_spec first last nops : 0 < nops ->
  length (sample_op_indices first last nops) = Z.to_nat (last + 1 - first) /\
  forall m, (m < Z.to_nat (last + 1 - first))%nat ->
    nth m (sample_op_indices first last nops) (0, 0) = (first + Z.of_nat m, Z.of_nat m mod nops) /\
    0 <= Z.of_nat m mod nops < nops.
Proof.
  intros Hn. unfold sample_op_indices, sample_sites. split.
  - rewrite map_length. apply sample_sites_from_length.
  - intros m Hm. split; [|apply Z.mod_pos_bound; lia].
    rewrite sample_op_indices_nth by exact Hm. f_equal. f_equal. lia.
Qed.

Lemma sample_sites_spec first last i :
  In i (sample_sites first last) <-> first <= i <= last.
Proof. unfold sample_sites. rewrite sample_sites_from_in. lia. Qed.

Section SampleWeightP.
  Variables K V : Type.
  Variable kone : K.
  Variable kmul : K -> K -> K.
  Variable kinv : K -> K.
  Variable abs2 : K -> K.
  Variable pos : K -> Prop.
  Variable vnorm : V -> K.
  Variable vscale : K -> V -> V.
  Variable vscalar : V -> K.
  Variable proj : Z -> Z -> V -> V.
  Variable attach : Z -> V -> V.
  Hypothesis LW : amp_laws K V kone kmul kinv abs2 pos vnorm vscale vscalar proj attach.

  Local Notation "a * b" := (kmul a b).
  Local Notation loop := (sample_loop K V kmul kinv vnorm vscale vscalar proj attach).
  Local Notation factors := (sample_factors K V kinv vnorm vscale proj attach).
  Local Notation raws := (raw_states V proj attach).
  Local Notation rfinal := (raw_final V proj attach).
  Local Notation jnorms := (joint_norms K V vnorm proj attach).
  Local Notation rat := (ratios K kmul kinv).
  Local Notation prod := (kprod K kone kmul).

  Local Notation law p := (p K V kone kmul kinv abs2 pos vnorm vscale vscalar proj attach LW) (only parsing).
  Let assoc := law al_assoc.
  Let comm := law al_comm.
  Let one_l := law al_one.
  Let inv_l := law al_inv.

  Lemma amp_one_r a : a * kone = a.
  Proof. rewrite comm. apply one_l. Qed.

  Lemma amp_inv_r a : pos a -> a * kinv a = kone.
  Proof. intros H. rewrite comm. apply inv_l. exact H. Qed.

  Lemma amp_inv_one : kinv kone = kone.
  Proof. rewrite <- (amp_one_r (kinv kone)). apply inv_l. apply (law al_pos_one). Qed.

  Lemma amp_cancel_l T N : pos T -> T * (kinv T * N) = N.
  Proof. intros H. rewrite assoc, amp_inv_r by exact H. apply one_l. Qed.

  Lemma amp_inv_unique a x : pos a -> x * a = kone -> x = kinv a.
  Proof.
    intros Ha Hx. rewrite <- (amp_one_r x). rewrite <- (amp_inv_r a Ha). rewrite assoc, Hx. apply one_l.
  Qed.

  Lemma amp_inv_step c N : pos c -> pos N -> kinv (c * N) * c = kinv N.
  Proof.
    intros Hc HN. apply amp_inv_unique; [exact HN|].
    rewrite <- assoc. apply inv_l. apply (law al_pos_mul); assumption.
  Qed.

  Lemma rfinal_cons i X s s' r' :
    rfinal i X (s :: s' :: r') = rfinal (i + 1) (attach (i + 1) (proj i s X)) (s' :: r').
  Proof.
    unfold raw_final. cbn [raw_states].
    match goal with |- last (_ :: ?l) _ = _ => change (last l X = last l (attach (i + 1) (proj i s X))) end.
    apply last_indep. discriminate.
  Qed.

  (* one iteration from theta = X / T: the projection is R / T for R the raw projection, the weight N / T for N the norm
     of R, and the theta handed on is the attached R divided by N *)
  Lemma loop_step i s X T : pos T -> pos (vnorm (proj i s X)) ->
    let th := proj i s (vscale (kinv T) X) in
    th = vscale (kinv T) (proj i s X) /\
    vnorm th = kinv T * vnorm (proj i s X) /\
    attach (i + 1) (vscale (kinv (vnorm th)) th) = vscale (kinv (vnorm (proj i s X))) (attach (i + 1) (proj i s X)).
  Proof.
    intros HT HN. cbv zeta. rewrite (law al_proj_lin).
    assert (HcT : pos (kinv T)) by (apply (law al_pos_inv); exact HT).
    rewrite (law al_norm_scale) by exact HcT. repeat split.
    rewrite (law al_scale_scale), amp_inv_step by assumption.
    apply (law al_attach_lin).
  Qed.

  Lemma loop_inv full : forall sig i X T, sig <> [] -> pos T -> Forall pos (jnorms i X sig) ->
    loop full i (vscale (kinv T) X) T sig =
    if full then vscalar (rfinal i X sig) else vnorm (rfinal i X sig).
  Proof.
    induction sig as [|s r IH]; intros i X T Hne HT Hpos; [congruence|].
    unfold joint_norms in Hpos. cbn [raw_states map] in Hpos. inversion Hpos as [|? ? HN Hrest]; subst.
    cbn [sample_loop]. destruct (loop_step i s X T HT HN) as (Hth & Hw & Hnext). rewrite Hnext, Hw, Hth.
    set (R := proj i s X) in *. set (N := vnorm R) in *.
    rewrite amp_cancel_l by exact HT.
    destruct r as [|s' r'].
    - unfold raw_final. cbn [raw_states last]. fold R. destruct full; [|reflexivity].
      rewrite (law al_scalar_scale).
      (* (N * (c * sc)) * 1/(c N) = sc *)
      assert (Hw' : pos (kinv T * N)).
      { apply (law al_pos_mul); [apply (law al_pos_inv)|]; assumption. }
      rewrite (assoc N), (comm N (kinv T)).
      rewrite <- assoc. rewrite (comm (vscalar R)). rewrite assoc.
      rewrite amp_inv_r by exact Hw'. apply one_l.
    - rewrite IH; [| discriminate | exact HN | exact Hrest].
      rewrite (rfinal_cons i X s s' r'). reflexivity.
  Qed.

  Lemma loop_factors : forall sig i theta T,
    loop false i theta T sig = T * prod (factors i theta sig).
  Proof.
    induction sig as [|s r IH]; intros i theta T.
    - cbn. symmetry. apply amp_one_r.
    - cbn [sample_loop sample_factors]. destruct r as [|s' r'].
      + unfold kprod. cbn [fold_right]. rewrite amp_one_r. reflexivity.
      + rewrite IH. unfold kprod. cbn [fold_right]. rewrite assoc. reflexivity.
  Qed.

  Lemma factors_ratios : forall sig i X T, pos T -> Forall pos (jnorms i X sig) ->
    factors i (vscale (kinv T) X) sig = rat T (jnorms i X sig).
  Proof.
    induction sig as [|s r IH]; intros i X T HT Hpos; [reflexivity|].
    unfold joint_norms in *. cbn [raw_states map ratios] in *. inversion Hpos as [|? ? HN Hrest]; subst.
    cbn [sample_factors]. destruct (loop_step i s X T HT HN) as (_ & Hw & Hnext). rewrite Hnext, Hw.
    rewrite (comm (kinv T)). f_equal.
    destruct r as [|s' r']; [reflexivity|]. apply IH; assumption.
  Qed.

  Lemma abs2_prod l : abs2 (prod l) = prod (map abs2 l).
  Proof.
    induction l as [|x l IH]; unfold kprod in *; cbn [fold_right map].
    - apply (law al_abs2_one).
    - rewrite (law al_abs2_mul). rewrite IH. reflexivity.
  Qed.

  Lemma theta0_scaled theta0 : theta0 = vscale (kinv kone) theta0.
  Proof. rewrite amp_inv_one. symmetry. apply (law al_scale_one). Qed.

  Local Notation weight := (sample_weight K V kone kmul kinv abs2 vnorm vscale vscalar proj attach).

  Theorem sample_weights_spec first theta0 sig :
    sig <> [] -> Forall pos (jnorms first theta0 sig) ->
    let fac := factors first theta0 sig in
    let amp := rfinal first theta0 sig in
    fac = rat kone (jnorms first theta0 sig) /\
    weight false true first theta0 sig = prod fac /\
    weight false true first theta0 sig = vnorm amp /\
    weight true true first theta0 sig = vscalar amp /\
    weight false false first theta0 sig = prod (map abs2 fac) /\
    weight false false first theta0 sig = abs2 (vnorm amp) /\
    weight true false first theta0 sig = abs2 (vscalar amp).
  Proof.
    intros Hne Hpos. cbv zeta. unfold sample_weight.
    pose proof (law al_pos_one) as H1.
    assert (Hfac : factors first theta0 sig = rat kone (jnorms first theta0 sig)).
    { rewrite (theta0_scaled theta0) at 1. apply factors_ratios; assumption. }
    assert (Hprod : loop false first theta0 kone sig = prod (factors first theta0 sig)).
    { rewrite loop_factors. apply one_l. }
    assert (Hn : loop false first theta0 kone sig = vnorm (rfinal first theta0 sig)).
    { rewrite (theta0_scaled theta0) at 1. rewrite (loop_inv false) by assumption. reflexivity. }
    assert (Hs : loop true first theta0 kone sig = vscalar (rfinal first theta0 sig)).
    { rewrite (theta0_scaled theta0) at 1. rewrite (loop_inv true) by assumption. reflexivity. }
    repeat split.
    - exact Hfac.
    - exact Hprod.
    - exact Hn.
    - exact Hs.
    - rewrite Hprod. apply abs2_prod.
    - rewrite Hn. reflexivity.
    - rewrite Hs. reflexivity.
  Qed.

  (* the telescoping product prod_k N_k / N_{k-1} = N_last / N_0; sample_weights_spec does not need it: loop_inv gives the
     returned weight as N_last directly *)
  Lemma ratios_telescope : forall l p, pos p -> Forall pos l -> p * prod (rat p l) = last l p.
  Proof.
    induction l as [|x l IH]; intros p Hp Hl; unfold kprod in *; cbn [ratios fold_right last].
    - apply amp_one_r.
    - inversion Hl as [|? ? Hx Hr]; subst.
      rewrite assoc. rewrite (comm x), assoc, amp_inv_r, one_l by exact Hp.
      rewrite IH by assumption. destruct l as [|y l]; [reflexivity|]. apply last_indep. discriminate.
  Qed.
End SampleWeightP.
