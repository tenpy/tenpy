(* expectation_value windows (Model/Window.v): get_theta(s, n) is defined iff every address of s .. s + n - 1 is a valid site
   index; worked out for infinite and for finite chains. *)
From TenpyV Require Import Base.Prelude Base.Lists Model.MpsIndex Proofs.MpsIndexP Model.Window.
Open Scope Z_scope.

Lemma divmod_succ L t : 0 < L ->
  ((t + 1) mod L, (t + 1) / L) = if t mod L =? L - 1 then (0, t / L + 1) else (t mod L + 1, t / L).
Proof.
  intros HL. pose proof (Z.mod_pos_bound t L HL) as Hb. pose proof (Z.div_mod t L) as Hd.
  set (q := t / L) in *. set (r := t mod L) in *. clearbody q r.
  destruct (r =? L - 1) eqn:E; f_equal; symmetry.
  - apply (Z.mod_unique _ _ (q + 1)); lia.
  - apply (Z.div_unique _ _ _ 0); lia.
  - apply (Z.mod_unique _ _ q); lia.
  - apply (Z.div_unique _ _ _ (r + 1)); lia.
Qed.

Lemma wrange_seq n : forall a, wrange a n = map (fun k => a + Z.of_nat k) (seq 0 n).
Proof.
  induction n as [|n IH]; intros a; cbn [wrange seq map]; [reflexivity|].
  rewrite IH, <- seq_shift, map_map. f_equal; [lia|]. apply map_ext. intros k. lia.
Qed.

Lemma wrange_length n a : length (wrange a n) = n.
Proof. rewrite wrange_seq, map_length. apply seq_length. Qed.

Lemma wrange_in n : forall a x, In x (wrange a n) <-> a <= x < a + Z.of_nat n.
Proof. induction n as [|n IH]; intros a x; cbn [wrange In]; [lia|]. rewrite IH. lia. Qed.

Lemma theta_reads_some fin L (f : Z -> Z * Z) : forall n s,
  (forall t, s <= t < s + Z.of_nat n -> to_valid_site_index fin L t = Some (f t)) ->
  theta_reads fin L s n = Some (map f (wrange s n)).
Proof.
  induction n as [|n IH]; intros s H; cbn [theta_reads wrange map]; [reflexivity|].
  rewrite H by lia. rewrite IH by (intros t Ht; apply H; lia). reflexivity.
Qed.

Lemma theta_reads_none fin L t : forall n s, s <= t < s + Z.of_nat n ->
  to_valid_site_index fin L t = None -> theta_reads fin L s n = None.
Proof.
  induction n as [|n IH]; intros s Ht Hnone; cbn [theta_reads]; [lia|].
  destruct (Z.eq_dec t s) as [->|Hne]; [rewrite Hnone; reflexivity|].
  rewrite IH; [|lia|exact Hnone]. destruct (to_valid_site_index fin L s); reflexivity.
Qed.

Lemma window_infinite_spec L nops s n : 0 < L ->
  let reads := map (fun t => (t mod L, t / L)) (wrange s n) in
  ev_site false L nops s n = Some ((s mod L) mod nops, (s mod L) / nops, s / L, reads) /\
  length reads = n /\
  (forall k, (k < n)%nat ->
     let '(r, c) := nth k reads (0, 0) in
     c * L + r = s + Z.of_nat k /\ 0 <= r < L /\
     ((S k < n)%nat -> nth (S k) reads (0, 0) = if r =? L - 1 then (0, c + 1) else (r + 1, c))) /\
  (forall m, ev_site false L nops (s + m * L) n =
             Some ((s mod L) mod nops, (s mod L) / nops, s / L + m, map (fun a => (fst a, snd a + m)) reads)).
Proof.
  intros HL reads.
  assert (Hev : forall s', ev_site false L nops s' n =
            Some ((s' mod L) mod nops, (s' mod L) / nops, s' / L, map (fun t => (t mod L, t / L)) (wrange s' n))).
  { intros s'. unfold ev_site.
    rewrite site_index_infinite, (theta_reads_some false L (fun t => (t mod L, t / L))) by (intros; apply site_index_infinite).
    reflexivity. }
  split; [apply Hev|]. split; [unfold reads; rewrite map_length; apply wrange_length|].
  subst reads. split.
  - intros k Hk. rewrite wrange_seq, map_map, nth_map_seq by exact Hk. set (t := s + Z.of_nat k).
    split; [rewrite Z.mul_comm; symmetry; apply Z.div_mod; lia|]. split; [apply Z.mod_pos_bound; exact HL|].
    intros Hk1. rewrite nth_map_seq by exact Hk1. replace (s + Z.of_nat (S k)) with (t + 1) by (unfold t; lia).
    apply divmod_succ. exact HL.
  - intros m. rewrite Hev, !wrange_seq, !map_map, Z.mod_add, Z.div_add by lia. do 2 f_equal. apply map_ext. intros k. cbn [fst snd].
    replace (s + m * L + Z.of_nat k) with (s + Z.of_nat k + m * L) by lia. rewrite Z.mod_add, Z.div_add by lia. reflexivity.
Qed.

Lemma window_finite_spec L nops s n : 0 < L -> (1 <= n)%nat -> 0 <= s ->
  (s + Z.of_nat n <= L ->
     ev_site true L nops s n = Some (s mod nops, s / nops, 0, map (fun t => (t, 0)) (wrange s n))) /\
  (L < s + Z.of_nat n -> ev_site true L nops s n = None) /\
  (forall s', In s' (ev_default_sites true L n) <-> 0 <= s' /\ s' + Z.of_nat n <= L) /\
  (forall s', In s' (ev_default_sites false L n) <-> 0 <= s' < L).
Proof.
  intros HL Hn1 Hs. split; [|split; [|split]].
  - intros Hfit. unfold ev_site. rewrite site_index_inside by lia.
    rewrite (theta_reads_some true L (fun t => (t, 0))) by (intros t Ht; apply site_index_inside; lia). reflexivity.
  - intros Hout. unfold ev_site.
    rewrite (theta_reads_none true L (s + Z.of_nat n - 1)); [|lia|apply site_index_outside; lia].
    destruct (to_valid_site_index true L s) as [[r c]|]; reflexivity.
  - intros s'. unfold ev_default_sites. rewrite wrange_in. lia.
  - intros s'. unfold ev_default_sites. rewrite wrange_in. lia.
Qed.
