(* take_slice on one axis: removing a constant column keeps the rows distinct and lexsorted, so the result is well-formed. *)
From TenpyV Require Import Base.Prelude Base.Lists Model.Charge Model.Tensor Model.TakeSlice.
From TenpyV Require Import Proofs.ChargeP Proofs.TensorP.
Open Scope Z_scope.

Lemma split_at {A} (ax : nat) (l : list A) d : (ax < length l)%nat ->
  l = firstn ax l ++ nth ax l d :: skipn (S ax) l /\ length (firstn ax l) = ax.
Proof. intros H. split; [exact (nth_split_at ax d l H)|rewrite firstn_length; lia]. Qed.

Lemma get_qindex_in1 l i : (i < ind_len l)%nat -> in1 l (get_qindex l i) i = true.
Proof.
  intros Hi. unfold get_qindex. destruct (find _ _) as [q|] eqn:E.
  - apply find_some in E. exact (proj2 E).
  - destruct (in1_exists l i Hi) as [q [Hq H]]. pose proof (find_none _ _ E q) as N.
    rewrite N in H; [discriminate|]. apply in_seq. lia.
Qed.

Lemma remove_at_app {A} (l1 : list A) x l2 : remove_at (length l1) (l1 ++ x :: l2) = l1 ++ l2.
Proof. unfold remove_at. rewrite firstn_app_len. f_equal. induction l1 as [|y l1 IH]; [reflexivity|exact IH]. Qed.

Lemma insert_at_app {A} (l1 : list A) x l2 : insert_at (length l1) x (l1 ++ l2) = l1 ++ x :: l2.
Proof. unfold insert_at. rewrite firstn_app_len, skipn_app_len. reflexivity. Qed.

Lemma remove_at_length {A} ax (l : list A) : (ax < length l)%nat -> length (remove_at ax l) = (length l - 1)%nat.
Proof. intros H. unfold remove_at. rewrite app_length, firstn_length, skipn_length. lia. Qed.

Lemma remove_at_map {A B} (f : A -> B) ax l : map f (remove_at ax l) = remove_at ax (map f l).
Proof. unfold remove_at. rewrite map_app, firstn_map, skipn_map. reflexivity. Qed.

Lemma insert_at_length {A} ax (x : A) l : (ax <= length l)%nat -> length (insert_at ax x l) = S (length l).
Proof. intros H. unfold insert_at. rewrite app_length. cbn [length]. rewrite firstn_length, skipn_length. lia. Qed.

Lemma bval_insert ls ax i idx (b : block) : (ax < length ls)%nat -> (i < ind_len (nth ax ls dleg))%nat ->
  length (fst b) = length ls -> (ax <= length idx)%nat ->
  bval ls (insert_at ax i idx) b
  = if (nth ax (fst b) 0 =? get_qindex (nth ax ls dleg) i)%nat
    then bval (remove_at ax ls) idx
           (remove_at ax (fst b),
            fun j => snd b (insert_at ax (i - bstart (nth ax ls dleg) (get_qindex (nth ax ls dleg) i))%nat j))
    else None.
Proof.
  intros Hax Hi Hb Hidx. destruct b as [r f]. cbn [fst snd] in *.
  pose proof (get_qindex_in1 _ i Hi) as Hin. set (l := nth ax ls dleg) in *. set (qi := get_qindex l i) in *.
  destruct (split_at ax ls dleg Hax) as [El Ll]. fold l in El. destruct (split_at ax r 0%nat ltac:(lia)) as [Er Lr].
  destruct (app_split ax idx Hidx) as (i1 & i2 & -> & Li).
  unfold remove_at. rewrite <- Li at 1. rewrite insert_at_app. rewrite El at 1. rewrite Er at 1.
  rewrite !bval_app, inb_cons, loc_cons by lia.
  destruct (nth ax r 0 =? qi)%nat eqn:E.
  - apply Nat.eqb_eq in E. rewrite E, Hin. cbn [andb]. destruct (inb _ _ i1 && inb _ _ i2); [|reflexivity].
    unfold insert_at. rewrite (firstn_app_eq ax), (skipn_app_eq ax) by (rewrite loc_length; exact Ll). reflexivity.
  - apply Nat.eqb_neq in E. rewrite (in1_disjoint l qi _ i) by auto. rewrite andb_false_r. reflexivity.
Qed.

Theorem take_slice_dense_sum ci ax i a idx : rows_shape a -> (ax < rank a)%nat -> (i < ind_len (nth ax (legs a) dleg))%nat ->
  (ax <= length idx)%nat ->
  dense_sum (take_slice ci ax i a) idx = dense_sum a (insert_at ax i idx).
Proof.
  unfold dense_sum, take_slice, rows_shape, rows, rank. cbn [legs blks]. intros Sa Hax Hi Hidx. revert Sa.
  induction (blks a) as [|b bs IH]; intros Sa; [reflexivity|]. cbn [filter map] in *.
  rewrite osum_cons, (bval_insert _ ax i) by (auto; apply Sa; left; reflexivity).
  destruct (nth ax (fst b) 0 =? _)%nat; cbn [map]; rewrite ?osum_cons, IH by (intros r Hr; apply Sa; right; exact Hr); reflexivity.
Qed.

Lemma take_slice_rows ci ax i a :
  rows (take_slice ci ax i a)
  = map (remove_at ax) (filter (fun r => (nth ax r 0 =? get_qindex (nth ax (legs a) dleg) i)%nat) (rows a)).
Proof.
  unfold take_slice, rows. cbn [blks]. rewrite filter_map_comm, !map_map. reflexivity.
Qed.

Lemma row_lt_remove ax r r' : (ax < length r)%nat -> length r = length r' -> nth ax r 0%nat = nth ax r' 0%nat ->
  row_lt (remove_at ax r) (remove_at ax r') = row_lt r r'.
Proof.
  intros H Hl Hq. destruct (split_at ax r 0%nat H) as [E1 L1]. destruct (split_at ax r' 0%nat ltac:(lia)) as [E2 L2].
  unfold row_lt. rewrite E1 at 2. rewrite E2 at 2. unfold remove_at. rewrite Hq.
  rewrite !rev_app_distr. cbn [rev]. rewrite <- !app_assoc, !lex_lt_app by (rewrite !rev_length, !skipn_length; lia).
  cbn [app lex_lt]. rewrite Nat.ltb_irrefl, Nat.eqb_refl. reflexivity.
Qed.

(* injective because it keeps the order (row_lt_remove) and the order is total *)
Lemma remove_at_inj ax (r r' : list nat) : (ax < length r)%nat -> length r = length r' ->
  nth ax r 0%nat = nth ax r' 0%nat -> remove_at ax r = remove_at ax r' -> r = r'.
Proof.
  intros H Hl Hq He. apply row_lt_total; rewrite <- (row_lt_remove ax), He by (try symmetry; assumption || lia); apply row_lt_irrefl.
Qed.

Lemma nth_leg_charge l q j : nth j (leg_charge l q) 0 = chg l q j.
Proof. apply nth_vscale. Qed.

Lemma row_charge_remove ls r ax j : (ax < length ls)%nat -> length r = length ls ->
  row_charge ls r j = row_charge (remove_at ax ls) (remove_at ax r) j + chg (nth ax ls dleg) (nth ax r 0%nat) j.
Proof.
  intros Hax Hl. destruct (split_at ax ls dleg Hax) as [El Ll]. destruct (split_at ax r 0%nat ltac:(lia)) as [Er Lr].
  rewrite El at 1. rewrite Er at 1. unfold remove_at. rewrite !row_charge_app, row_charge_cons by lia. lia.
Qed.

Theorem wf_take_slice ci ax i a : WF ci a -> (ax < rank a)%nat ->
  length (nth (get_qindex (nth ax (legs a) dleg) i) (bch (nth ax (legs a) dleg)) []) = length ci ->
  WF ci (take_slice ci ax i a).
Proof.
  intros [Aq As An Ar Ac] Hax Hch. unfold rank in *.
  set (l := nth ax (legs a) dleg) in *. set (qi := get_qindex l i) in *.
  assert (Hlc : length (leg_charge l qi) = length ci) by (unfold leg_charge; auto with vlen).
  assert (Hin : forall r, In r (filter (fun r => (nth ax r 0 =? qi)%nat) (rows a)) ->
                          In r (rows a) /\ length r = length (legs a) /\ nth ax r 0%nat = qi).
  { intros r Hr. apply filter_In in Hr. destruct Hr as [Hr Hq]. apply Nat.eqb_eq in Hq. auto. }
  constructor; unfold rows_shape, charge_rule, claim_truthful, rank; rewrite ?take_slice_rows; cbn [take_slice qtot legs qsorted]; fold l qi.
  - auto with vlen.
  - intros r Hr. apply in_map_iff in Hr. destruct Hr as [r0 [<- Hr0]]. destruct (Hin r0 Hr0) as (_ & L & _).
    rewrite !remove_at_length; lia.
  - apply NoDup_map_in; [|apply NoDup_filter; exact An].
    intros x y Hx Hy E. destruct (Hin x Hx) as (_ & Lx & Qx). destruct (Hin y Hy) as (_ & Ly & Qy).
    apply (remove_at_inj ax); try lia. exact E.
  - intros r Hr. apply in_map_iff in Hr. destruct Hr as [r0 [<- Hr0]]. destruct (Hin r0 Hr0) as (I0 & L0 & Q0).
    intros j Hj. pose proof (Ar r0 I0 j Hj) as Hok. rewrite (row_charge_remove _ _ ax) in Hok by lia. rewrite Q0 in Hok. fold l in Hok.
    autorewrite with vnth. rewrite nth_leg_charge, <- Hok, mv1_add_l. f_equal. lia.
  - intros Hq. apply strictly_of_ssorted, ssorted_map; [|apply ssorted_filter, ssorted_of_strictly, Ac, Hq].
    intros x y Hx Hy H. destruct (Hin x Hx) as (_ & Lx & Qx). destruct (Hin y Hy) as (_ & Ly & Qy).
    rewrite row_lt_remove by lia. exact H.
Qed.

Theorem take_slice_dense ci ax i a idx : WF ci a -> (ax < rank a)%nat -> (i < ind_len (nth ax (legs a) dleg))%nat ->
  length (nth (get_qindex (nth ax (legs a) dleg) i) (bch (nth ax (legs a) dleg)) []) = length ci -> (ax <= length idx)%nat ->
  to_ndarray (take_slice ci ax i a) idx = to_ndarray a (insert_at ax i idx).
Proof.
  intros Wa Hax Hi Hch Hidx. rewrite !(wf_dense ci) by (try apply wf_take_slice; assumption).
  apply take_slice_dense_sum; [apply Wa|assumption..].
Qed.
