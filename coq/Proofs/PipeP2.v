(* C06: the q_map of a pipe, from its block-wise form (PipeP.pipe_init_blockwise): tiling of every outgoing block,
   q_map_slices, and the order of the rows (first by I_s, then the block tuples lexicographically), which holds for the
   block-wise q_map of any grouping of stably ordered rows into groups of one charge. *)
From TenpyV Require Import Base.Prelude Base.Lists Model.ChargeL Model.Leg Model.Pipe Model.PipeMaps Proofs.LegP Proofs.PipeP3 Proofs.PipeP.
Open Scope Z_scope.

Lemma zrange_length n : forall a, length (zrange a n) = n.
Proof. induction n as [|n IH]; intros a; [reflexivity|]. cbn [zrange length]. rewrite IH. reflexivity. Qed.

Lemma zrange_in n : forall a k, In k (zrange a n) <-> a <= k < a + Z.of_nat n.
Proof.
  induction n as [|n IH]; intros a k; cbn [zrange In]; [lia|]. rewrite IH. lia.
Qed.

Lemma ss_app_r {A} (R : A -> A -> Prop) (a b : list A) : StronglySorted R (a ++ b) -> StronglySorted R b.
Proof. induction a as [|x a IH]; intros H; [exact H|]. apply IH. cbn [app] in H. apply StronglySorted_inv in H. tauto. Qed.

Lemma qm_group_Is I g qr : In qr (qm_group I g) -> q_Is qr = I.
Proof. intros H. apply in_map_iff in H. destruct H as (k & <- & _). reflexivity. Qed.

Lemma qm_blocks_filter gs : forall I0 I,
  filter (fun qr => Nat.eqb (q_Is qr) I) (qm_blocks I0 gs) =
  if (I0 <=? I)%nat then qm_group I (nth (I - I0) gs []) else [].
Proof.
  induction gs as [|g gs IH]; intros I0 I; cbn [qm_blocks filter].
  - destruct (I - I0)%nat, (I0 <=? I)%nat; reflexivity.
  - rewrite filter_app, IH. destruct (Nat.eq_dec I I0) as [->|Hne].
    + rewrite filter_all by (intros qr Hq; apply Nat.eqb_eq, (qm_group_Is I0 g), Hq).
      rewrite Nat.leb_refl, Nat.sub_diag. replace (S I0 <=? I0)%nat with false by lia. apply app_nil_r.
    + rewrite filter_none by (intros qr Hq; apply Nat.eqb_neq; rewrite (qm_group_Is I0 g qr Hq); congruence).
      destruct (I0 <=? I)%nat eqn:E; [|replace (S I0 <=? I)%nat with false by lia; reflexivity].
      replace (S I0 <=? I)%nat with true by lia. replace (I - I0)%nat with (S (I - S I0)) by lia. reflexivity.
Qed.

Lemma qmap_rows_of_group ci legs qconj srt bun I :
  qmap_rows_of (pipe_init ci legs qconj srt bun) I = qm_group I (nth I (group_rows bun (pipe_rows ci legs qconj srt)) []).
Proof. unfold qmap_rows_of. rewrite pipe_init_blockwise, qm_blocks_filter, Nat.sub_0_r. reflexivity. Qed.

Lemma tiles_offs szs : nonneg szs -> forall a,
  tiles a (map (fun k => (a + offs szs k, a + offs szs (S k))) (seq 0 (length szs))) (a + sumZ szs).
Proof.
  induction 1 as [|s t Hs Ht IH]; intros a; [cbn [length seq map tiles sumZ]; lia|].
  cbn [length seq map tiles fst snd]. rewrite offs_0, offs_cons, offs_0.
  split; [lia|]. split; [lia|].
  rewrite <- seq_shift, map_map. cbn [sumZ].
  replace (a + (s + sumZ t)) with ((a + (s + 0)) + sumZ t) by lia.
  erewrite map_ext; [apply (IH (a + (s + 0)))|]. intros k. cbv beta. rewrite !offs_cons. f_equal; lia.
Qed.

Lemma tiles_group I g : nonneg (map r_sz g) -> tiles 0 (map qslice (qm_group I g)) (gsize g).
Proof.
  intros H. unfold qm_group, gsize. rewrite map_map. unfold qslice. cbn [q_b0 q_b1].
  pose proof (tiles_offs _ H 0) as T. rewrite map_length in T. rewrite Z.add_0_l in T.
  erewrite map_ext; [exact T|]. intros k. cbv beta. f_equal; lia.
Qed.

Lemma tiles_sorted l : forall a b, tiles a l b -> Sorted Z.le (map fst l) /\ a <= b.
Proof.
  induction l as [|xy t IH]; intros a b H; cbn [tiles map] in *; [split; [constructor|lia]|].
  destruct H as (H1 & H2 & H3). destruct (IH _ _ H3) as [S1 S2]. split; [|lia].
  constructor; [exact S1|]. destruct t as [|xy' t']; cbn [map]; constructor.
  cbn [tiles] in H3. lia.
Qed.

Theorem qmap_tiling ci legs qconj srt bun I : legs_ok legs ->
  let p := pipe_init ci legs qconj srt bun in
  (I < length (p_blocks p))%nat ->
  let rowsI := qmap_rows_of p I in
  rowsI <> [] /\
  tiles 0 (map qslice rowsI) (fst (nth I (p_blocks p) (0, []))) /\
  Sorted Z.le (map q_b0 rowsI) /\
  rowsI = qm_group I (nth I (group_rows bun (p_rows p)) []) /\
  p_qmap p = qm_blocks 0 (group_rows bun (p_rows p)).
Proof.
  intros Hl. cbv zeta. rewrite pipe_init_nblocks, qmap_rows_of_group, pipe_init_rows, pipe_init_blockwise. unfold block.
  rewrite <- (map_nth fst), pipe_init_sizes. cbn [fst]. rewrite nth_gsize. intros HI.
  set (rows := pipe_rows ci legs qconj srt) in *. set (gs := group_rows bun rows) in *. set (g := nth I gs []).
  assert (Gn : nonneg (map r_sz g)).
  { apply (proj1 (Forall_nth _ _) (group_nonneg bun rows (rows_sizes_nonneg ci legs qconj srt Hl))), HI. }
  destruct (proj1 (Forall_nth _ _) (group_rows_ok bun rows) I [] HI) as [Hne _]. fold gs g in Hne.
  pose proof (tiles_group I g Gn) as T.
  repeat split.
  - intros E. apply Hne, length_zero_iff_nil. rewrite <- (qm_group_length I g), E. reflexivity.
  - exact T.
  - apply tiles_sorted in T. destruct T as [T _]. rewrite map_map in T. exact T.
Qed.

Lemma offs_glen gs : forall k, (k <= length gs)%nat -> offs (map glen gs) k = Z.of_nat (length (concat (firstn k gs))).
Proof.
  induction gs as [|g gs IH]; intros k Hk; cbn [length] in Hk.
  - assert (k = 0%nat) by lia. subst k. reflexivity.
  - destruct k as [|k]; [reflexivity|]. cbn [map firstn concat]. rewrite offs_cons, app_length, IH by lia.
    unfold glen. lia.
Qed.

Lemma qm_blocks_split gs : forall I0 k, (k < length gs)%nat ->
  qm_blocks I0 gs = qm_blocks I0 (firstn k gs) ++ qm_group (I0 + k) (nth k gs []) ++ qm_blocks (I0 + S k) (skipn (S k) gs).
Proof.
  induction gs as [|g gs IH]; intros I0 [|k] Hk; cbn [length] in Hk; try lia; cbn [firstn skipn nth qm_blocks].
  - rewrite Nat.add_0_r, Nat.add_1_r. reflexivity.
  - rewrite (IH (S I0) k), <- app_assoc, !Nat.add_succ_r by lia. reflexivity.
Qed.

Theorem qmap_slices_rows ci legs qconj srt bun I :
  let p := pipe_init ci legs qconj srt bun in
  (I < length (p_blocks p))%nat ->
  let a := nth I (p_qmap_slices p) 0 in
  let b := nth (S I) (p_qmap_slices p) 0 in
  0 <= a < b /\ b <= Z.of_nat (length (p_qmap p)) /\
  qmap_rows_of p I = firstn (Z.to_nat (b - a)) (skipn (Z.to_nat a) (p_qmap p)) /\
  length (p_qmap_slices p) = S (length (p_blocks p)).
Proof.
  cbv zeta. rewrite pipe_init_nblocks, qmap_rows_of_group, pipe_init_blockwise, pipe_init_qmap_slices. intros HI.
  set (rows := pipe_rows ci legs qconj srt) in *. set (gs := group_rows bun rows) in *.
  rewrite !slices_of_nth by (rewrite map_length; lia).
  rewrite (offs_step (map glen gs) I) by (rewrite map_length; exact HI).
  replace (nth I (map glen gs) 0) with (glen (nth I gs [])) by (symmetry; apply (map_nth glen gs [])).
  rewrite (offs_glen gs I) by lia. set (g := nth I gs []).
  destruct (proj1 (Forall_nth _ _) (group_rows_ok bun rows) I [] HI) as [Hne _]. fold gs g in Hne.
  assert (Hlen : (0 < length g)%nat) by (destruct g; [congruence|cbn [length]; lia]).
  rewrite (qm_blocks_split gs 0%nat I HI). cbn [Nat.add]. fold g.
  rewrite <- (qm_blocks_length (firstn I gs) 0%nat), !app_length, qm_group_length.
  set (pre := qm_blocks 0 (firstn I gs)). unfold glen. repeat split; try lia.
  - replace (Z.of_nat (length pre) + Z.of_nat (length g) - Z.of_nat (length pre)) with (Z.of_nat (length g)) by lia.
    rewrite !Nat2Z.id, skipn_app_len, <- (qm_group_length I g), firstn_app_len. reflexivity.
  - unfold slices_of. rewrite map_length, seq_length, map_length. reflexivity.
Qed.

Lemma qm_blocks_ge gs : forall I0 qr, In qr (qm_blocks I0 gs) -> (I0 <= q_Is qr)%nat.
Proof.
  induction gs as [|g gs IH]; intros I0 qr H; cbn [qm_blocks] in H; [destruct H|].
  apply in_app_or in H. destruct H as [H|H]; [rewrite (qm_group_Is _ _ _ H); lia|]. apply IH in H. lia.
Qed.

(* the order of the LegPipe docstring: "lex-sorted first by I_s, then the i" *)
Definition qmap_lt (a b : qrow) : Prop := (q_Is a <= q_Is b)%nat /\ (q_Is a = q_Is b -> lex_lt (q_q a) (q_q b)).

Lemma qm_group_sorted I g : StronglySorted rstable g -> group_ok g -> StronglySorted qmap_lt (qm_group I g).
Proof.
  intros S [_ F]. apply (nth_ss _ _ qrow0). rewrite qm_group_length. intros i j Hij Hj.
  rewrite !qm_group_nth by lia. split; [reflexivity|]. intros _. cbn [q_q].
  (* rows of one charge are in grid order *)
  apply (ss_nth rstable _ row0 S i j Hij Hj).
  rewrite (proj1 (Forall_nth _ _) F i row0), (proj1 (Forall_nth _ _) F j row0) by lia. reflexivity.
Qed.

Lemma qm_blocks_sorted gs : Forall group_ok gs -> forall I0, StronglySorted rstable (concat gs) ->
  StronglySorted qmap_lt (qm_blocks I0 gs).
Proof.
  induction 1 as [|g gs Hg _ IH]; intros I0 S; cbn [qm_blocks concat] in *; [constructor|].
  apply ss_app; [exact (qm_group_sorted I0 g (ss_app_l _ _ _ S) Hg)|exact (IH _ (ss_app_r _ _ _ S))|].
  intros x y Hx Hy. apply qm_group_Is in Hx. apply qm_blocks_ge in Hy. split; lia.
Qed.

Theorem qmap_rows_lexsorted ci legs qconj srt bun :
  let p := pipe_init ci legs qconj srt bun in
  (forall i j, (i < j)%nat -> (j < length (p_qmap p))%nat ->
     let qi := nth i (p_qmap p) qrow0 in
     let qj := nth j (p_qmap p) qrow0 in
     (q_Is qi <= q_Is qj)%nat /\ (q_Is qi = q_Is qj -> lex_lt (q_q qi) (q_q qj))) /\
  (forall I, StronglySorted lex_lt (map q_q (qmap_rows_of p I))).
Proof.
  intros p.
  assert (S : StronglySorted qmap_lt (p_qmap p)).
  { unfold p. rewrite pipe_init_blockwise. apply qm_blocks_sorted; [apply group_rows_ok|].
    rewrite group_concat. apply pipe_rows_stable. }
  split; [intros i j; apply (ss_nth qmap_lt _ qrow0 S)|].
  (* the rows of block I: a filter of q_map, on which qmap_lt is lex_lt *)
  intros I. unfold qmap_rows_of.
  apply (ss_map (fun a b => lex_lt (q_q a) (q_q b))); [auto|].
  apply (ss_weaken_in qmap_lt); [|apply ss_filter, S].
  intros x y Hx Hy [_ H]. apply filter_In in Hx, Hy. destruct Hx as [_ Hx], Hy as [_ Hy].
  apply Nat.eqb_eq in Hx, Hy. apply H. congruence.
Qed.
