(* Sorting by exchanges of adjacent out-of-order neighbours, over any element type with an integer key and a parity
   flag.  Whatever the strategy (the bubble sort of order_combine_term, the back-and-forth loop of permute_sites), a run
   is a derivation of `swaps`; permutation, stability, the number of exchanges (= the inversions removed) and the parity
   of the exchanges of two odd elements (= the parity of the odd-odd inversions removed) are read off the derivation. *)
From TenpyV Require Import Base.Prelude Model.Perms.
Open Scope Z_scope.

Lemma countb_app {A : Type} (f : A -> bool) l1 l2 : countb f (l1 ++ l2) = (countb f l1 + countb f l2)%nat.
Proof. induction l1 as [|a l1 IH]; cbn [app countb]; [reflexivity | rewrite IH; lia]. Qed.

Lemma countb_zero {A : Type} (f : A -> bool) [l] : Forall (fun y => f y = false) l -> countb f l = 0%nat.
Proof. induction 1 as [|y l Hy _ IH]; cbn [countb]; [reflexivity | rewrite Hy, IH; reflexivity]. Qed.

Lemma ginv_swap {A : Type} (f : A -> A -> bool) l1 x y l2 :
  (ginv f (l1 ++ x :: y :: l2) + (if f y x then 1 else 0) =
   ginv f (l1 ++ y :: x :: l2) + (if f x y then 1 else 0))%nat.
Proof.
  induction l1 as [|a l1 IH]; cbn [app ginv countb].
  - destruct (f x y), (f y x); lia.
  - rewrite !countb_app. cbn [countb]. lia.
Qed.

Lemma countb_le_length {A : Type} (f : A -> bool) l : (countb f l <= length l)%nat.
Proof. induction l as [|a l IH]; cbn [countb length]; [lia | destruct (f a); lia]. Qed.

Lemma ginv_le_sq {A : Type} (f : A -> A -> bool) l : (ginv f l <= length l * length l)%nat.
Proof.
  induction l as [|a l IH]; cbn [ginv length]; [lia|].
  pose proof (countb_le_length (f a) l) as Hc. nia.
Qed.

Section AdjSwaps.
  (* the lemmas read key and odd off their `swaps` hypothesis; the definitions take them explicitly (Arguments lines below) *)
  Context {A : Type} {key : A -> Z} {odd : A -> bool}.

  Definition key_inv (x y : A) : bool := key y <? key x.
  Definition odd_inv (x y : A) : bool := (key y <? key x) && odd x && odd y.

  Inductive swaps : list A -> list A -> nat -> bool -> Prop :=
  | sw_refl l : swaps l l 0 false
  | sw_at l1 x y l2 : key y < key x -> swaps (l1 ++ x :: y :: l2) (l1 ++ y :: x :: l2) 1 (odd x && odd y)
  | sw_trans l1 l2 l3 n m s t : swaps l1 l2 n s -> swaps l2 l3 m t -> swaps l1 l3 (n + m) (xorb s t).

  Lemma sw_skip a [l l' n s] : swaps l l' n s -> swaps (a :: l) (a :: l') n s.
  Proof.
    induction 1 as [l|l1 x y l2 H|l1 l2 l3 n m s t _ IH1 _ IH2];
      [apply sw_refl | exact (sw_at (a :: l1) x y l2 H) | eapply sw_trans; eassumption].
  Qed.

  Lemma swaps_perm [l l' n s] : swaps l l' n s -> Permutation l l'.
  Proof.
    induction 1; [reflexivity | apply Permutation_app_head, perm_swap | etransitivity; eassumption].
  Qed.

  Lemma swaps_filter i [l l' n s] : swaps l l' n s ->
    filter (fun t => key t =? i) l' = filter (fun t => key t =? i) l.
  Proof.
    induction 1 as [l|l1 x y l2 Hxy|l1 l2 l3 n m s t _ IH1 _ IH2]; [reflexivity | | congruence].
    rewrite !filter_app. cbn [filter]. destruct (key y =? i) eqn:E1, (key x =? i) eqn:E2; try reflexivity. lia.
  Qed.

  Lemma swaps_ginv [l l' n s] : swaps l l' n s ->
    ginv key_inv l = (n + ginv key_inv l')%nat /\ Nat.odd (ginv odd_inv l) = xorb s (Nat.odd (ginv odd_inv l')).
  Proof.
    induction 1 as [l|l1 x y l2 Hxy|l1 l2 l3 n m s t _ [IH1 IH1'] _ [IH2 IH2']].
    - split; [reflexivity | symmetry; apply xorb_false_l].
    - pose proof (ginv_swap key_inv l1 x y l2) as Hk. pose proof (ginv_swap odd_inv l1 x y l2) as Ho.
      unfold key_inv at 2 4 in Hk. unfold odd_inv at 2 4 in Ho.
      replace (key x <? key y) with false in * by lia. replace (key y <? key x) with true in * by lia.
      cbn [andb] in Ho. split; [lia|].
      replace (ginv odd_inv (l1 ++ x :: y :: l2)) with (ginv odd_inv (l1 ++ y :: x :: l2) + (if odd x && odd y then 1 else 0))%nat by lia.
      rewrite Nat.odd_add. destruct (odd x && odd y), (Nat.odd (ginv odd_inv (l1 ++ y :: x :: l2))); reflexivity.
    - split; [lia|]. rewrite IH1', IH2'. symmetry. apply xorb_assoc.
  Qed.

  Lemma ginv_sorted_zero (f : A -> A -> bool) [l] :
    (forall x y, key x <= key y -> f x y = false) -> StronglySorted (fun a b => key a <= key b) l -> ginv f l = 0%nat.
  Proof.
    intros Hf. induction 1 as [|x r _ IH Hx]; cbn [ginv]; [reflexivity|].
    rewrite IH, countb_zero; [reflexivity|]. revert Hx. apply Forall_impl. intros y. apply Hf.
  Qed.

  Lemma ssorted_by_key l : StronglySorted Z.le (map key l) -> StronglySorted (fun a b => key a <= key b) l.
  Proof.
    induction l as [|x l IH]; intros H; [constructor|]. cbn [map] in H. apply StronglySorted_inv in H as [H1 H2].
    constructor; [apply IH; exact H1 | exact (proj1 (Forall_map _ _ _) H2)].
  Qed.

  Lemma swaps_sorted [l l' n s] : swaps l l' n s -> StronglySorted (fun a b => key a <= key b) l' ->
    n = ginv key_inv l /\ s = Nat.odd (ginv odd_inv l).
  Proof.
    intros H Hs. destruct (swaps_ginv H) as [Hk Ho]. rewrite Hk, Ho, !ginv_sorted_zero; try exact Hs.
    - split; [lia | destruct s; reflexivity].
    - intros x y Hxy. unfold odd_inv. replace (key y <? key x) with false by lia. reflexivity.
    - intros x y Hxy. unfold key_inv. lia.
  Qed.
End AdjSwaps.

Arguments key_inv {A} key.
Arguments odd_inv {A} key odd.
Arguments swaps {A} key odd.
Arguments sw_refl {A} key odd.
Arguments sw_at {A} key odd.
Arguments sw_trans {A key odd} [l1 l2 l3 n m s t].
Arguments ginv_sorted_zero {A} key f [l].
Arguments ssorted_by_key {A} key.
