(* Model/PipeOps.v (C06): flip_charges_qconj / outer_conj of a LegPipe keep the pipe contract. *)
From TenpyV Require Import Base.Prelude Model.ChargeL Model.Leg Model.Pipe Model.PipeOps Proofs.ChargeP Proofs.LegP Proofs.PipeP.
Open Scope Z_scope.

Lemma nth_neg_blocks ci (bl : list block) : forall I,
  nth I (map snd (map (neg_block ci) bl)) [] = make_valid ci (vneg (nth I (map snd bl) [])).
Proof.
  induction bl as [|b bl IH]; intros I.
  - destruct I; cbn [map nth vneg]; rewrite make_valid_nil; reflexivity.
  - destruct I as [|I]; [reflexivity|]. cbn [map nth]. apply IH.
Qed.

Lemma find_row_neg ci q rows : find_row q (map (neg_row ci) rows) = find_row q rows.
Proof.
  induction rows as [|r t IH]; [reflexivity|]. cbn [map find_row neg_row r_q]. rewrite IH. reflexivity.
Qed.

Lemma fst_neg_blocks ci (bl : list block) : map fst (map (neg_block ci) bl) = map fst bl.
Proof. rewrite map_map. reflexivity. Qed.

Lemma flip_pipe_mif ci p t : map_incoming_flat (flip_pipe ci p) t = map_incoming_flat p t.
Proof.
  unfold map_incoming_flat, flip_pipe. cbn [p_legs p_rows p_qmap p_blocks].
  destruct (split_indices (p_legs p) t) as [[qs ws]|]; [|reflexivity].
  rewrite find_row_neg, fst_neg_blocks. reflexivity.
Qed.

Lemma flip_pipe_block_of ci p t : block_of (flip_pipe ci p) t = block_of p t.
Proof.
  unfold block_of, flip_pipe. cbn [p_legs p_rows p_qmap].
  destruct (split_indices (p_legs p) t) as [[qs ws]|]; [|reflexivity]. rewrite find_row_neg. reflexivity.
Qed.

Lemma flip_pipe_leg ci p : pipe_leg (flip_pipe ci p) = flip_leg ci (pipe_leg p).
Proof. reflexivity. Qed.

Theorem flip_pipe_spec ci legs qconj srt bun t : legs_ok legs -> idx_ok legs t ->
  let p := pipe_init ci legs qconj srt bun in
  let f := flip_pipe ci p in
  p_legs f = legs /\ p_qconj f = - qconj /\ p_qmap f = p_qmap p /\ p_qmap_slices f = p_qmap_slices p /\
  map fst (p_blocks f) = map fst (p_blocks p) /\
  leg_equal ci (pipe_leg p) (pipe_leg f) = true /\
  map_incoming_flat f t = map_incoming_flat p t /\
  exists qs ws I, split_indices legs t = Some (qs, ws) /\ block_of f t = Some I /\
    nth I (map snd (p_blocks f)) [] = make_valid ci (vscale (- qconj) (vsum (length ci) (tuple_charges legs qs))).
Proof.
  intros Hl Ht p f.
  split; [reflexivity|]. split; [reflexivity|]. split; [reflexivity|]. split; [reflexivity|].
  split; [apply fst_neg_blocks|]. split; [unfold f; rewrite flip_pipe_leg; apply flip_equal|].
  split; [apply flip_pipe_mif|].
  destruct (fusion_rule ci legs qconj srt bun t Hl Ht) as (qs & ws & I & E & B & C).
  exists qs, ws, I. split; [exact E|]. split.
  - unfold f. rewrite flip_pipe_block_of. exact B.
  - unfold f, flip_pipe. cbn [p_blocks]. rewrite nth_neg_blocks. unfold p. rewrite C. apply make_valid_neg_scale.
Qed.
