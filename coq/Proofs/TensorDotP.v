(* tensordot (Model/TensorDot.v): the result is WF, and its dense form is the finite sum over all contracted multi-indices.  The one
   idea is pair_sum; the rest is bilinearity and exchange of finite sums (csum_swap), and that collecting and sorting the block products
   only reorders and fuses them (tensordot_fuses). *)
From TenpyV Require Import Base.Prelude Base.Lists Model.Charge Model.Tensor Model.TensorOps Model.TensorDot.
From TenpyV Require Import Proofs.ChargeP Proofs.TensorP.
Open Scope Z_scope.

Lemma map_seq_shift {A} (f : nat -> A) n m : map f (seq n m) = map (fun k => f (n + k)%nat) (seq 0 m).
Proof.
  revert n. induction m as [|m IH]; intros n; cbn [seq map]; [reflexivity|].
  rewrite Nat.add_0_r. f_equal. rewrite IH. rewrite <- seq_shift, map_map.
  apply map_ext. intros k. f_equal. lia.
Qed.

Lemma csum_cons x l : csum (x :: l) = cadd x (csum l).
Proof. reflexivity. Qed.
Lemma csum_app l1 l2 : csum (l1 ++ l2) = cadd (csum l1) (csum l2).
Proof.
  induction l1 as [|x l1 IH]; cbn [app]; [symmetry; apply cadd_0_l|].
  rewrite !csum_cons, IH. apply cadd_assoc.
Qed.
Lemma csum_zero {A} (f : A -> C) l : (forall x, In x l -> f x = c0) -> csum (map f l) = c0.
Proof.
  induction l as [|x l IH]; intros H; [reflexivity|]. cbn [map]. rewrite csum_cons.
  rewrite (H x (or_introl eq_refl)), IH; [reflexivity|]. intros y Hy. apply H. right. exact Hy.
Qed.
Lemma csum_ext {A} (f g : A -> C) l : (forall x, In x l -> f x = g x) -> csum (map f l) = csum (map g l).
Proof. intros H. f_equal. apply map_ext_in. exact H. Qed.
Lemma csum_map_add {A} (f g : A -> C) l :
  csum (map (fun x => cadd (f x) (g x)) l) = cadd (csum (map f l)) (csum (map g l)).
Proof.
  induction l as [|x l IH]; cbn [map]; [reflexivity|]. rewrite !csum_cons, IH.
  generalize (f x) (g x) (csum (map f l)) (csum (map g l)). cring.
Qed.
Lemma csum_mul_l {A} s (f : A -> C) l : csum (map (fun x => cmul s (f x)) l) = cmul s (csum (map f l)).
Proof.
  induction l as [|x l IH]; cbn [map]; [symmetry; apply cmul_0_r|]. rewrite !csum_cons, IH.
  symmetry. apply cmul_add_r.
Qed.
Lemma csum_mul_r {A} s (f : A -> C) l : csum (map (fun x => cmul (f x) s) l) = cmul (csum (map f l)) s.
Proof.
  induction l as [|x l IH]; cbn [map]; [symmetry; apply cmul_0_l|]. rewrite !csum_cons, IH.
  symmetry. apply cmul_add_l.
Qed.
Lemma csum_swap {A B} (f : A -> B -> C) lx ly :
  csum (map (fun x => csum (map (fun y => f x y) ly)) lx) = csum (map (fun y => csum (map (fun x => f x y) lx)) ly).
Proof.
  induction lx as [|x lx IH]; cbn [map].
  - symmetry. apply csum_zero. reflexivity.
  - rewrite csum_cons, IH. rewrite <- csum_map_add. reflexivity.
Qed.
Lemma csum_mul_csum {A B} (f : A -> C) (g : B -> C) lx ly :
  cmul (csum (map f lx)) (csum (map g ly)) = csum (map (fun y => csum (map (fun x => cmul (f x) (g y)) lx)) ly).
Proof. rewrite <- csum_mul_l. apply csum_ext. intros y _. symmetry. apply csum_mul_r. Qed.
Lemma csum_flat_map {A B} (f : B -> C) (h : A -> list B) l :
  csum (map f (flat_map h l)) = csum (map (fun x => csum (map f (h x))) l).
Proof.
  induction l as [|x l IH]; cbn [flat_map map]; [reflexivity|]. rewrite map_app, csum_app, IH. reflexivity.
Qed.

Definition oval (o : option C) : C := match o with Some v => v | None => c0 end.
Lemma osum_cons_oval o l : osum (o :: l) = cadd (oval o) (osum l).
Proof. rewrite osum_cons. destruct o; [reflexivity|symmetry; apply cadd_0_l]. Qed.
Lemma osum_csum {A} (g : A -> option C) l : osum (map g l) = csum (map (fun x => oval (g x)) l).
Proof. induction l as [|x l IH]; cbn [map]; [reflexivity|]. rewrite osum_cons_oval, csum_cons, IH. reflexivity. Qed.

Lemma sum_in1 l q (G : nat -> C) :
  csum (map (fun x => if in1 l q x then G (x - bstart l q)%nat else c0) (seq 0 (ind_len l)))
  = csum (map G (seq 0 (bsize l q))).
Proof.
  pose proof (bstart_le l (S q)) as Hin. pose proof (bstart_S l q) as HS.
  (* seq 0 (ind_len l) cut into the indices before, inside and after block q *)
  replace (ind_len l) with (bstart l q + (bsize l q + (ind_len l - bstart l (S q))))%nat by lia.
  rewrite !seq_app, !map_app, !csum_app. cbn [Nat.add].
  rewrite (csum_zero _ (seq 0 _)), (csum_zero _ (seq (_ + _) _)), cadd_0_l, cadd_0_r.
  2,3: intros x Hx; apply in_seq in Hx; destruct (in1 l q x) eqn:E; [apply in1_iff in E; lia|reflexivity].
  rewrite map_seq_shift. apply csum_ext. intros y Hy. apply in_seq in Hy.
  rewrite (proj2 (in1_iff l q _)) by lia. f_equal. lia.
Qed.

Lemma multi_idx_cons n sh : multi_idx (n :: sh) = flat_map (fun i => map (cons i) (multi_idx sh)) (seq 0 n).
Proof. reflexivity. Qed.

Lemma multi_idx_length sh c : In c (multi_idx sh) -> length c = length sh.
Proof.
  revert c. induction sh as [|n sh IH]; intros c H.
  - destruct H as [<-|[]]. reflexivity.
  - rewrite multi_idx_cons in H. apply in_flat_map in H. destruct H as [i [_ H]].
    apply in_map_iff in H. destruct H as [c' [<- Hc']]. cbn [length]. rewrite (IH c' Hc'). reflexivity.
Qed.

Lemma sum_inb lc : forall qc (g : list nat -> C), length qc = length lc ->
  csum (map (fun c => if inb lc qc c then g (loc lc qc c) else c0) (multi_idx (map ind_len lc)))
  = csum (map g (multi_idx (box lc qc))).
Proof.
  induction lc as [|l lc IH]; intros [|q qc] g Hl; cbn [length] in Hl; try discriminate.
  - reflexivity.
  - cbn [map]. unfold box. cbn [combine map fst snd]. fold (box lc qc). rewrite !multi_idx_cons, !csum_flat_map.
    rewrite <- (sum_in1 l q (fun y => csum (map g (map (cons y) (multi_idx (box lc qc)))))).
    apply csum_ext. intros x _. rewrite !map_map.
    destruct (in1 l q x) eqn:E.
    + rewrite <- (IH qc (fun c' => g ((x - bstart l q)%nat :: c'))) by lia.
      apply csum_ext. intros c _. rewrite inb_cons, loc_cons, E. reflexivity.
    + apply csum_zero. intros c _. rewrite inb_cons, E. reflexivity.
Qed.

Lemma bval_tdot_block lak lac lbk qak qac qbc qbk fa fb ia ib :
  length qak = length lak -> length qbc = length lac -> length ia = length lak ->
  bval (lak ++ lbk) (ia ++ ib) (tdot_block (length lak) (length lac) lac (qak ++ qac, fa) (qbc ++ qbk, fb))
  = if inb lak qak ia && inb lbk qbk ib
    then Some (csum (map (fun c => cmul (fa (loc lak qak ia ++ c)) (fb (c ++ loc lbk qbk ib))) (multi_idx (box lac qac))))
    else None.
Proof.
  intros Hqak Hqbc Hia. unfold tdot_block. cbn [fst snd].
  rewrite (firstn_app_eq _ qak), (skipn_app_eq _ qak), (skipn_app_eq _ qbc), bval_app by assumption.
  rewrite (firstn_app_eq _ (loc lak qak ia)), (skipn_app_eq _ (loc lak qak ia)) by apply loc_length. reflexivity.
Qed.

(* Summing the product of the two embedded blocks over ALL contracted multi-indices gives the embedded block-matrix product if the
   contracted qindices agree, and 0 otherwise: entries whose contracted multi-indices lie in different charge blocks never meet. *)
Lemma pair_sum lak lac lbc lbk qak qac qbc qbk fa fb ia ib :
  map bsz lac = map bsz lbc ->
  length qak = length lak -> length qac = length lac -> length qbc = length lbc -> length ia = length lak ->
  csum (map (fun c => cmul (oval (bval (lak ++ lac) (ia ++ c) (qak ++ qac, fa)))
                           (oval (bval (lbc ++ lbk) (c ++ ib) (qbc ++ qbk, fb))))
            (multi_idx (map ind_len lac)))
  = if row_eqb qac qbc
    then oval (bval (lak ++ lbk) (ia ++ ib) (tdot_block (length lak) (length lac) lac (qak ++ qac, fa) (qbc ++ qbk, fb)))
    else c0.
Proof.
  intros Hbsz Hqak Hqac Hqbc Hia.
  assert (Hlc : length lac = length lbc) by (rewrite <- (map_length bsz lac), Hbsz, map_length; reflexivity).
  rewrite bval_tdot_block by lia.
  rewrite (csum_ext _ (fun c => if inb lak qak ia && inb lbk qbk ib
       then cmul (if inb lac qac c then fa (loc lak qak ia ++ loc lac qac c) else c0)
                 (if inb lac qbc c then fb (loc lac qbc c ++ loc lbk qbk ib) else c0)
       else c0)).
  2:{ intros c Hc. apply multi_idx_length in Hc. rewrite map_length in Hc. rewrite !bval_app by lia.
      rewrite <- (inb_bsz lac lbc qbc c Hbsz), <- (loc_bsz lac lbc qbc c Hbsz).
      destruct (inb lak qak ia), (inb lbk qbk ib), (inb lac qac c), (inb lac qbc c); cbn [andb oval];
        rewrite ?cmul_0_l, ?cmul_0_r; reflexivity. }
  destruct (inb lak qak ia && inb lbk qbk ib); cbn [oval].
  2:{ rewrite csum_zero by reflexivity. destruct (row_eqb qac qbc); reflexivity. }
  destruct (row_eqb qac qbc) eqn:E.
  - apply row_eqb_iff in E. subst qbc.
    rewrite <- (sum_inb lac qac (fun c' => cmul (fa (loc lak qak ia ++ c')) (fb (c' ++ loc lbk qbk ib)))) by exact Hqac.
    apply csum_ext. intros c _. destruct (inb lac qac c); [reflexivity|apply cmul_0_l].
  - apply csum_zero. intros c _.
    destruct (inb lac qac c) eqn:E1; [|apply cmul_0_l].
    rewrite (inb_disjoint lac qac qbc c); [apply cmul_0_r|exact Hqac|lia| |exact E1].
    intros Heq. subst qbc. rewrite row_eqb_refl in E. discriminate E.
Qed.

Lemma d_tensordot_dense_sum a b sh nk idx :
  d_tensordot (dense_sum a) (dense_sum b) sh nk idx
  = csum (map (fun bb => csum (map (fun ba =>
      d_tensordot (fun i => oval (bval (legs a) i ba)) (fun j => oval (bval (legs b) j bb)) sh nk idx) (blks a))) (blks b)).
Proof.
  unfold d_tensordot, dense_sum. etransitivity; [apply csum_ext; intros c _; rewrite !osum_csum; apply csum_mul_csum|].
  rewrite csum_swap. apply csum_ext. intros bb _. apply csum_swap.
Qed.

Theorem tdot_pairs_dense_sum k a b idx :
  rows_shape a -> rows_shape b -> (k <= rank a)%nat -> (k <= rank b)%nat ->
  map bsz (skipn (rank a - k) (legs a)) = map bsz (firstn k (legs b)) ->
  (rank a - k <= length idx)%nat ->
  osum (map (bval (tdot_legs k a b) idx) (tdot_pairs k a b))
  = d_tensordot (dense_sum a) (dense_sum b) (map ind_len (skipn (rank a - k) (legs a))) (rank a - k) idx.
Proof.
  intros Sa Sb Hka Hkb Hbsz Hidx. rewrite d_tensordot_dense_sum, osum_csum.
  unfold tdot_legs, tdot_pairs, d_tensordot, rows_shape, rows, rank in *.
  rewrite csum_flat_map. apply csum_ext. intros [rb fb] Hbb. rewrite csum_flat_map. apply csum_ext. intros [ra fa] Hba.
  (* one pair of blocks; everything is split at the contracted legs *)
  destruct (app_split (length (legs a) - k) (legs a)) as (lak & lac & Ea & Lak); [lia|].
  destruct (app_split k (legs b) Hkb) as (lbc & lbk & Eb & Lbc).
  destruct (app_split _ idx Hidx) as (ia & ib & -> & Lia).
  assert (Lac : length lac = k) by (rewrite Ea, app_length in *; lia).
  rewrite <- Lak in *. subst k. rewrite Ea, Eb in *.
  rewrite skipn_app_len, firstn_app_len in Hbsz. rewrite !firstn_app_len, !skipn_app_len.
  rewrite (firstn_app_eq _ ia), (skipn_app_eq _ ia) by exact Lia. rewrite <- Lac.
  pose proof (Sa _ (in_map fst _ _ Hba)) as La. pose proof (Sb _ (in_map fst _ _ Hbb)) as Lb. cbn [fst] in *. rewrite app_length in La, Lb.
  destruct (app_split (length lak) ra) as (ra1 & ra2 & -> & La1); [lia|].
  destruct (app_split (length lac) rb) as (rb1 & rb2 & -> & Lb1); [lia|]. rewrite app_length in La, Lb.
  rewrite (skipn_app_eq _ ra1), (firstn_app_eq _ rb1) by assumption. rewrite (pair_sum _ _ _ _ _ _ _ _ _ _ _ _ Hbsz) by lia.
  destruct (row_eqb ra2 rb1); cbn [map csum]; [apply cadd_0_r|reflexivity].
Qed.

Lemma add_block_fuses b l : fuses (b :: l) (add_block b l).
Proof.
  induction l as [|c t IH]; cbn [add_block]; [apply fuses_perm, Permutation_refl|].
  apply (fuses_trans _ _ _ (fuses_perm _ _ (perm_swap c b t))). destruct (row_eqb (fst c) (fst b)) eqn:E.
  - apply row_eqb_iff in E. destruct c as [rc fc], b as [rb fb]. cbn [fst snd] in *. subst rb. apply fuses_badd.
  - apply fuses_cons, IH.
Qed.

Lemma add_block_osum ls idx b l :
  osum (map (bval ls idx) (add_block b l)) = cadd (oval (bval ls idx b)) (osum (map (bval ls idx) l)).
Proof. rewrite (fuses_osum _ _ _ _ (add_block_fuses b l)). apply osum_cons_oval. Qed.

Lemma add_block_rows_in b l r : In r (map fst (add_block b l)) <-> r = fst b \/ In r (map fst l).
Proof. rewrite (fuses_rows _ _ r (add_block_fuses b l)). cbn [map In]. intuition. Qed.

Lemma collect_cons b l : collect (b :: l) = add_block b (collect l).
Proof. reflexivity. Qed.

Lemma collect_fuses l : fuses l (collect l).
Proof.
  induction l as [|b l IH]; [apply fuses_perm, Permutation_refl|].
  exact (fuses_trans _ _ _ (fuses_cons b _ _ IH) (add_block_fuses b (collect l))).
Qed.

Lemma collect_osum ls idx l : osum (map (bval ls idx) (collect l)) = osum (map (bval ls idx) l).
Proof. apply fuses_osum, collect_fuses. Qed.

Lemma collect_rows_in l r : In r (map fst (collect l)) <-> In r (map fst l).
Proof. apply fuses_rows, collect_fuses. Qed.

Lemma add_block_nodup b l : NoDup (map fst l) -> NoDup (map fst (add_block b l)).
Proof.
  induction l as [|c t IH]; intros H; cbn [add_block map].
  - constructor; [intros []|constructor].
  - cbn [map] in H. inversion H as [|x y Hx Hy]; subst.
    destruct (row_eqb (fst c) (fst b)) eqn:E; cbn [map fst]; [exact H|].
    constructor; [|apply IH; exact Hy].
    intros Hin. apply add_block_rows_in in Hin. destruct Hin as [Hin|Hin]; [|exact (Hx Hin)].
    apply row_eqb_iff in Hin. congruence.
Qed.

Lemma collect_nodup l : NoDup (map fst (collect l)).
Proof.
  induction l as [|b l IH]; [constructor|]. rewrite collect_cons. apply add_block_nodup. exact IH.
Qed.

Lemma tdot_pairs_rows k a b : map fst (tdot_pairs k a b) = tdot_rows k a b.
Proof.
  unfold tdot_pairs, tdot_rows, rows. rewrite map_flat_map, flat_map_map.
  apply flat_map_ext. intros bb. rewrite map_flat_map, flat_map_map.
  apply flat_map_ext. intros ba. destruct (row_eqb (skipn (rank a - k) (fst ba)) (firstn k (fst bb))); reflexivity.
Qed.

Lemma tensordot_fuses ci k a b : fuses (tdot_pairs k a b) (blks (tensordot ci k a b)).
Proof. exact (fuses_trans _ _ _ (collect_fuses _) (fuses_perm _ _ (Permutation_sym (sort_blocks_perm _)))). Qed.

Lemma tensordot_rows_in ci k a b r : In r (rows (tensordot ci k a b)) <-> In r (tdot_rows k a b).
Proof. rewrite <- tdot_pairs_rows. apply fuses_rows, tensordot_fuses. Qed.

Lemma tdot_rows_in k a b r : In r (tdot_rows k a b) ->
  exists ra rb, In ra (rows a) /\ In rb (rows b) /\ skipn (rank a - k) ra = firstn k rb /\
                r = firstn (rank a - k) ra ++ skipn k rb.
Proof.
  unfold tdot_rows. intros H. apply in_flat_map in H. destruct H as [rb [Hb H]].
  apply in_flat_map in H. destruct H as [ra [Ha H]].
  destruct (row_eqb (skipn (rank a - k) ra) (firstn k rb)) eqn:E; [|destruct H].
  destruct H as [<-|[]]. apply row_eqb_iff in E. exists ra, rb. auto.
Qed.

Theorem charge_rule_tensordot ci k a b : WF ci a -> WF ci b ->
  (k <= rank a)%nat -> (k <= rank b)%nat ->
  Forall2 (contractible ci) (skipn (rank a - k) (legs a)) (firstn k (legs b)) ->
  forall r, In r (tdot_rows k a b) -> row_ok ci (tdot_legs k a b) (tdot_qtot ci a b) r.
Proof.
  intros [Aq As _ Ar _] [Bq Bs _ Br _] Hka Hkb HF r Hr.
  destruct (tdot_rows_in k a b r Hr) as [ra [rb [Ha [Hb [Hc ->]]]]].
  pose proof (As ra Ha) as Lra. pose proof (Bs rb Hb) as Lrb. unfold tdot_legs, tdot_qtot, rank in *.
  set (n := length (legs a)) in *.
  apply (row_ok_tensordot ci (firstn (n - k) (legs a)) (skipn (n - k) (legs a)) (firstn k (legs b)) (skipn k (legs b))
                          (qtot a) (qtot b) (firstn (n - k) ra) (skipn (n - k) ra) (skipn k rb)); try assumption.
  - rewrite !firstn_length. lia.
  - rewrite !skipn_length. lia.
  - rewrite !firstn_skipn. apply Ar. exact Ha.
  - rewrite Hc, !firstn_skipn. apply Br. exact Hb.
Qed.

Lemma tensordot_ssorted ci k a b : ssorted (rows (tensordot ci k a b)).
Proof. unfold tensordot, rows. cbn [blks]. apply sort_blocks_ssorted. apply collect_nodup. Qed.

Lemma tensordot_rank ci k a b : (k <= rank a)%nat -> (k <= rank b)%nat ->
  rank (tensordot ci k a b) = (rank a - k + (rank b - k))%nat.
Proof.
  intros Ha Hb. unfold rank, tensordot, tdot_legs in *. cbn [legs]. unfold rank.
  rewrite app_length, firstn_length, skipn_length. lia.
Qed.

Lemma tensordot_rows_shape ci k a b : rows_shape a -> rows_shape b -> (k <= rank a)%nat -> (k <= rank b)%nat ->
  rows_shape (tensordot ci k a b).
Proof.
  intros Sa Sb Ha Hb r Hr. apply tensordot_rows_in in Hr.
  destruct (tdot_rows_in k a b r Hr) as [ra [rb [Ia [Ib [_ ->]]]]].
  rewrite tensordot_rank by assumption. rewrite app_length, firstn_length, skipn_length.
  rewrite (Sa ra Ia), (Sb rb Ib). lia.
Qed.

Theorem wf_tensordot ci k a b : WF ci a -> WF ci b -> (k <= rank a)%nat -> (k <= rank b)%nat ->
  Forall2 (contractible ci) (skipn (rank a - k) (legs a)) (firstn k (legs b)) ->
  WF ci (tensordot ci k a b).
Proof.
  intros Wa Wb Hka Hkb HF. apply wf_of_ssorted.
  - pose proof (wf_len _ _ Wa). pose proof (wf_len _ _ Wb). cbn [tensordot qtot]. unfold tdot_qtot. auto with vlen.
  - apply tensordot_rows_shape; [apply Wa|apply Wb|assumption..].
  - apply tensordot_ssorted.
  - intros r Hr. apply tensordot_rows_in in Hr. exact (charge_rule_tensordot ci k a b Wa Wb Hka Hkb HF r Hr).
Qed.

Theorem tensordot_dense_sum ci k a b idx :
  rows_shape a -> rows_shape b -> (k <= rank a)%nat -> (k <= rank b)%nat ->
  map bsz (skipn (rank a - k) (legs a)) = map bsz (firstn k (legs b)) ->
  (rank a - k <= length idx)%nat ->
  dense_sum (tensordot ci k a b) idx
  = d_tensordot (dense_sum a) (dense_sum b) (map ind_len (skipn (rank a - k) (legs a))) (rank a - k) idx.
Proof.
  intros Sa Sb Hka Hkb Hbsz Hidx. rewrite <- tdot_pairs_dense_sum by assumption. apply fuses_osum, tensordot_fuses.
Qed.

Lemma d_tensordot_ext A A' B B' sh nk idx : (forall x, A x = A' x) -> (forall x, B x = B' x) ->
  d_tensordot A B sh nk idx = d_tensordot A' B' sh nk idx.
Proof. intros HA HB. unfold d_tensordot. apply csum_ext. intros c _. rewrite HA, HB. reflexivity. Qed.

Theorem tensordot_dense ci k a b idx : WF ci a -> WF ci b -> (k <= rank a)%nat -> (k <= rank b)%nat ->
  Forall2 (contractible ci) (skipn (rank a - k) (legs a)) (firstn k (legs b)) ->
  (rank a - k <= length idx)%nat ->
  to_ndarray (tensordot ci k a b) idx
  = d_tensordot (to_ndarray a) (to_ndarray b) (map ind_len (skipn (rank a - k) (legs a))) (rank a - k) idx.
Proof.
  intros Wa Wb Hka Hkb HF Hidx. rewrite (wf_dense ci) by (apply wf_tensordot; assumption).
  rewrite (d_tensordot_ext (to_ndarray a) (dense_sum a) (to_ndarray b) (dense_sum b))
    by (intros x; apply (wf_dense ci); assumption).
  apply tensordot_dense_sum; [apply Wa|apply Wb|assumption..|apply (contractible_bsz ci), HF|assumption].
Qed.

Theorem tensordot_full ci k a b : valid_ci ci -> WF ci a -> WF ci b -> (k <= rank a)%nat -> (k <= rank b)%nat ->
  Forall2 (contractible ci) (skipn (rank a - k) (legs a)) (firstn k (legs b)) ->
  WF ci (tensordot ci k a b) /\
  qtot (tensordot ci k a b) = make_valid ci (vadd (qtot a) (qtot b)) /\
  legs (tensordot ci k a b) = firstn (rank a - k) (legs a) ++ skipn k (legs b) /\
  (forall r, In r (rows (tensordot ci k a b)) <-> In r (tdot_rows k a b)) /\
  (forall idx, (rank a - k <= length idx)%nat ->
     to_ndarray (tensordot ci k a b) idx
     = d_tensordot (to_ndarray a) (to_ndarray b) (map ind_len (skipn (rank a - k) (legs a))) (rank a - k) idx).
Proof.
  intros _ Wa Wb Hka Hkb HF. split; [apply wf_tensordot; assumption|]. split; [reflexivity|]. split; [reflexivity|].
  split; [intros r; apply tensordot_rows_in|]. intros idx Hidx. apply tensordot_dense; assumption.
Qed.
