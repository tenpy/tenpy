(* MPS.add is linear: the product of the block matrices is alpha * prod A + beta * prod B (C09). *)
From TenpyV Require Import Base.Prelude Model.MpsAdd.
Open Scope Z_scope.

Lemma sumn_ext n f g : (forall k, (k < n)%nat -> f k = g k) -> sumn n f = sumn n g.
Proof.
  induction n as [|n IH]; intros H; cbn [sumn]; [reflexivity|].
  rewrite IH by (intros k Hk; apply H; lia). rewrite H by lia. reflexivity.
Qed.

Lemma sumn_split n m f : sumn (n + m) f = sumn n f + sumn m (fun k => f (n + k)%nat).
Proof.
  induction m as [|m IH]; cbn [sumn].
  - rewrite Nat.add_0_r. lia.
  - replace (n + Datatypes.S m)%nat with (Datatypes.S (n + m)) by lia. cbn [sumn]. rewrite IH. lia.
Qed.

Lemma sumn_zero n f : (forall k, (k < n)%nat -> f k = 0) -> sumn n f = 0.
Proof.
  induction n as [|n IH]; intros H; cbn [sumn]; [reflexivity|].
  rewrite IH by (intros k Hk; apply H; lia). rewrite H by lia. reflexivity.
Qed.

Lemma sumn_scale n a f : sumn n (fun k => a * f k) = a * sumn n f.
Proof. induction n as [|n IH]; cbn [sumn]; [lia|]. rewrite IH. lia. Qed.

Lemma bdiag_vcat ra ca cb A B PA PB i j :
  mmul (ca + cb) (bdiag ra ca A B) (vcat ca PA PB) i j = vcat ra (mmul ca A PA) (mmul cb B PB) i j.
Proof.
  unfold mmul, vcat at 2. rewrite sumn_split. unfold bdiag.
  destruct (i <? ra)%nat eqn:Ei.
  - rewrite (sumn_zero cb).
    + rewrite Z.add_0_r. apply sumn_ext. intros k Hk. unfold vcat.
      destruct (k <? ca)%nat eqn:E; [reflexivity|lia].
    + intros k Hk. destruct (ca + k <? ca)%nat eqn:E; [lia|]. lia.
  - rewrite (sumn_zero ca).
    + rewrite Z.add_0_l. apply sumn_ext. intros k Hk. unfold vcat.
      destruct (ca + k <? ca)%nat eqn:E; [lia|].
      replace (ca + k - ca)%nat with k by lia. reflexivity.
    + intros k Hk. destruct (k <? ca)%nat eqn:E; lia.
Qed.

Lemma hcat_vcat ca cb alpha beta A B PA PB i j :
  mmul (ca + cb) (hcat ca (mscale alpha A) (mscale beta B)) (vcat ca PA PB) i j =
  alpha * mmul ca A PA i j + beta * mmul cb B PB i j.
Proof.
  unfold mmul. rewrite sumn_split. rewrite <- !sumn_scale. f_equal.
  - apply sumn_ext. intros k Hk. unfold hcat, vcat, mscale.
    destruct (k <? ca)%nat eqn:E; [lia|lia].
  - apply sumn_ext. intros k Hk. unfold hcat, vcat, mscale.
    destruct (ca + k <? ca)%nat eqn:E; [lia|].
    replace (ca + k - ca)%nat with k by lia. lia.
Qed.

Lemma mmul_ext n A A' B B' i j :
  (forall k, (k < n)%nat -> A i k = A' i k) -> (forall k, (k < n)%nat -> B k j = B' k j) ->
  mmul n A B i j = mmul n A' B' i j.
Proof. intros HA HB. unfold mmul. apply sumn_ext. intros k Hk. rewrite HA, HB by exact Hk. reflexivity. Qed.

Lemma chain_prod_cons n A rest : (0 < length rest)%nat -> chain_prod ((n, A) :: rest) = mmul n A (chain_prod rest).
Proof. intros H. cbn [chain_prod]. destruct rest; [cbn in H; lia|reflexivity]. Qed.

Lemma add_tail_length : forall As Bs ra, length As = length Bs -> length (add_tail ra As Bs) = length As.
Proof.
  induction As as [|[ca A] As' IH]; intros [|[cb B] Bs'] ra Hl; try discriminate; [reflexivity|].
  cbn [add_tail]. destruct As', Bs'; try discriminate; [reflexivity|].
  cbn [length] in *. rewrite IH by (cbn [length]; lia). reflexivity.
Qed.

Lemma add_tail_prod : forall As Bs ra, length As = length Bs -> As <> [] ->
  forall i j, chain_prod (add_tail ra As Bs) i j = vcat ra (chain_prod As) (chain_prod Bs) i j.
Proof.
  induction As as [|[ca A] As' IH]; intros Bs ra Hl Hne i j; [congruence|].
  destruct Bs as [|[cb B] Bs']; [discriminate|].
  cbn [add_tail]. destruct As' as [|a As'']; destruct Bs' as [|b Bs'']; try discriminate; [reflexivity|].
  cbn [length] in Hl.
  rewrite !chain_prod_cons by (rewrite ?add_tail_length; cbn [length]; lia).
  rewrite <- bdiag_vcat. apply mmul_ext; [reflexivity|].
  intros k _. apply IH; [cbn [length]; lia|congruence].
Qed.

Theorem add_linear : forall alpha beta As Bs, length As = length Bs -> (2 <= length As)%nat ->
  forall i j, chain_prod (add_chain alpha beta As Bs) i j =
              alpha * chain_prod As i j + beta * chain_prod Bs i j.
Proof.
  intros alpha beta As Bs Hl H2 i j.
  destruct As as [|[ca A] As']; [cbn in H2; lia|]. destruct Bs as [|[cb B] Bs']; [discriminate|].
  cbn [length] in *. cbn [add_chain].
  rewrite !chain_prod_cons by (rewrite ?add_tail_length; lia).
  rewrite <- hcat_vcat. apply mmul_ext; [reflexivity|].
  intros k _. apply add_tail_prod; [lia|]. intros ->. cbn in H2. lia.
Qed.

Lemma select_tadd_tail : forall TA TB ra ps, length TA = length TB -> length ps = length TA ->
  select (tadd_tail ra TA TB) ps = add_tail ra (select TA ps) (select TB ps).
Proof.
  induction TA as [|[ca A] TA' IH]; intros TB ra ps Hl Hp.
  - destruct TB; reflexivity.
  - destruct TB as [|[cb B] TB']; [discriminate|]. destruct ps as [|p ps']; [discriminate|].
    cbn [length] in *. cbn [tadd_tail select add_tail].
    destruct TA' as [|[ca' A'] TA'']; destruct TB' as [|[cb' B'] TB'']; cbn [length] in *; try lia.
    + destruct ps'; reflexivity.
    + destruct ps' as [|p' ps'']; [cbn [length] in Hp; lia|].
      cbn [select]. f_equal.
      specialize (IH ((cb', B') :: TB'') ca (p' :: ps'')). cbn [select length] in IH. cbn [length] in Hp. apply IH; lia.
Qed.

Lemma select_length : forall (T : tchain) (ps : list nat), length ps = length T -> length (select T ps) = length T.
Proof. induction T as [|[c t] T IH]; intros [|p ps] H; cbn [select length] in *; try lia. rewrite IH; lia. Qed.

Theorem tadd_linear : forall alpha beta TA TB ps, length TA = length TB -> (2 <= length TA)%nat ->
  length ps = length TA ->
  forall i j, amplitude (tadd alpha beta TA TB) ps i j =
              alpha * amplitude TA ps i j + beta * amplitude TB ps i j.
Proof.
  intros alpha beta TA TB ps Hl H2 Hp i j. unfold amplitude.
  assert (Hs : select (tadd alpha beta TA TB) ps = add_chain alpha beta (select TA ps) (select TB ps)).
  { destruct TA as [|[ca A] TA']; [cbn in H2; lia|]. destruct TB as [|[cb B] TB']; [discriminate|].
    destruct ps as [|p ps']; [discriminate|]. cbn [length] in *.
    cbn [tadd select add_chain]. f_equal. apply select_tadd_tail; lia. }
  rewrite Hs.
  apply add_linear; rewrite !select_length; lia.
Qed.
