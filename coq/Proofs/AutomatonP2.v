(* cl appends both identity loops to every site: it is `close` of the model wherever no edge enters IdL or leaves IdR,
   which is so for every graph the builders of C10 make.  D g k x is what the state x denotes in cl g, the sites
   numbered from k. *)
From TenpyV Require Import Base.Prelude Base.Lists Model.Automaton Proofs.AutomatonP.
Open Scope Z_scope.

Definition lL : edge := mkE IdL IdL 0 c1.
Definition lR : edge := mkE IdR IdR 0 c1.
Definition cl (g : graph) : graph := map (fun es => es ++ [lL; lR]) g.
Definition D (g : graph) (k : nat) (x : key) : poly := rden (cl g) k x.

Lemma length_cl g : length (cl g) = length g.
Proof. apply map_length. Qed.

Lemma nth_cl g k : (k < length g)%nat -> nth k (cl g) [] = nth k g [] ++ [lL; lR].
Proof. apply (nth_map_default (fun es => es ++ [lL; lR])). Qed.

Lemma D_nil k x : D [] k x = if key_eqb x IdR then [(c1, [])] else [].
Proof. apply rden_nil. Qed.

Lemma D_cons es g k x :
  D (es :: g) k x = flat_map (fun e => map (mstep k e) (D g (S k) (eR e))) (out x es) ++
                    (if key_eqb IdL x then D g (S k) IdL else []) ++
                    (if key_eqb IdR x then D g (S k) IdR else []).
Proof.
  unfold D. cbn [cl map]. rewrite rden_cons, out_app, flat_map_app. f_equal.
  unfold out. cbn [filter eL lL lR].
  destruct (key_eqb IdL x), (key_eqb IdR x); cbn [flat_map eR lL lR app];
    rewrite ?(mstep_id_loop IdL lL), ?(mstep_id_loop IdR lR), ?app_nil_r by reflexivity; reflexivity.
Qed.

Lemma D_cons_unch (P : key -> Prop) es es' g g' k x : out x es' = out x es ->
  (forall y, P y -> D g' (S k) y = D g (S k) y) -> (forall e, In e (out x es) -> P (eR e)) -> P x ->
  D (es' :: g') k x = D (es :: g) k x.
Proof.
  intros Eo H Hs Hx. rewrite !D_cons, Eo. f_equal; [|f_equal].
  - apply flat_map_ext_in. intros e He. rewrite (H _ (Hs e He)). reflexivity.
  - destruct (key_eqb_spec IdL x) as [<-|_]; [apply H; exact Hx|reflexivity].
  - destruct (key_eqb_spec IdR x) as [<-|_]; [apply H; exact Hx|reflexivity].
Qed.

Definition noloop_site (es : list edge) : Prop := forall e, In e es -> eR e <> IdL /\ eL e <> IdR.

Lemma close_site_noloop es : noloop_site es -> close_site es = es ++ [lL; lR].
Proof.
  intro H. unfold close_site.
  assert (E : forall k, k = IdL \/ k = IdR ->
                existsb (fun e => key_eqb (eL e) k && key_eqb (eR e) k) es = false).
  { intros k Hk. apply not_true_is_false. intro E. apply existsb_exists in E.
    destruct E as [e [He E]]. apply andb_true_iff in E. destruct E as [E1 E2].
    apply key_eqb_eq in E1, E2. destruct (H e He), Hk; congruence. }
  rewrite (E IdL), existsb_app, (E IdR) by auto.
  cbn [existsb eL eR key_eqb andb orb]. rewrite <- app_assoc. reflexivity.
Qed.

Lemma close_noloop g : Forall noloop_site g -> close g = cl g.
Proof.
  induction 1 as [|es g He _ IH]; cbn [close cl map]; [reflexivity|].
  rewrite (close_site_noloop es He). f_equal. exact IH.
Qed.

(* so the closed graphs of C10 are in the standard sum form that the theorems of C11 assume *)
Lemma std_cl g : Forall noloop_site g -> std_form (cl g) = true.
Proof.
  induction 1 as [|es g He _ IH]; [reflexivity|]. apply std_form_cons. split; [|exact IH].
  assert (E : forall k, k = IdL \/ k = IdR -> filter (id_loop k) es = []).
  { intros k Hk. apply filter_none. intros e Hin. apply not_true_is_false. intro E.
    apply id_loop_inv in E. destruct (He e Hin), Hk; intuition congruence. }
  unfold std_site. rewrite !filter_app, forallb_app, !E by auto.
  apply andb_true_iff. split; [reflexivity|]. apply andb_true_iff. split; [|reflexivity].
  apply forallb_forall. intros e Hin. destruct (He e Hin) as [H1 H2].
  apply key_eqb_neq in H1, H2. rewrite H1, H2. reflexivity.
Qed.

Lemma D_IdR_noloop g : Forall noloop_site g -> forall k, D g k IdR = [(c1, [])].
Proof. intro H. exact (rden_IdR_std (cl g) (std_cl g H)). Qed.

Lemma upd_site_nil j f : upd_site j f [] = [].
Proof. destruct j; reflexivity. Qed.

Lemma length_upd_site f g : forall j, length (upd_site j f g) = length g.
Proof.
  induction g as [|es g IH]; intros [|j]; cbn [upd_site length]; try reflexivity. rewrite IH. reflexivity.
Qed.

Lemma nth_upd_site f g : forall j k, (j < length g)%nat ->
  nth k (upd_site j f g) [] = if Nat.eqb k j then f (nth j g []) else nth k g [].
Proof.
  induction g as [|es g IH]; intros j k Hj; cbn [length] in Hj; [lia|].
  destruct j as [|j], k as [|k]; cbn [upd_site nth Nat.eqb]; try reflexivity.
  apply IH. lia.
Qed.

Lemma upd_site_split f g : forall j, (j < length g)%nat ->
  upd_site j f g = firstn j g ++ f (nth j g []) :: skipn (S j) g.
Proof.
  induction g as [|es g IH]; intros j Hj; cbn [length] in Hj; [lia|].
  destruct j as [|j]; cbn [upd_site firstn nth skipn app]; [reflexivity|].
  f_equal. apply IH. lia.
Qed.

Lemma length_add_edge g k e : length (add_edge k e g) = length g.
Proof. apply length_upd_site. Qed.

Lemma nth_add_edge g k e k' : (k < length g)%nat ->
  nth k' (add_edge k e g) [] = if Nat.eqb k' k then nth k g [] ++ [e] else nth k' g [].
Proof. intro H. unfold add_edge. apply nth_upd_site. exact H. Qed.

Lemma nth_add_edge_same g k e : (k < length g)%nat -> nth k (add_edge k e g) [] = nth k g [] ++ [e].
Proof. intro H. rewrite nth_add_edge by exact H. rewrite Nat.eqb_refl. reflexivity. Qed.

Lemma has_edge_true k a b g : has_edge k a b g = true <-> exists e, In e (nth k g []) /\ eL e = a /\ eR e = b.
Proof.
  unfold has_edge. rewrite existsb_exists. split; intros (e & He & E); exists e; split; try exact He.
  - apply andb_true_iff in E. rewrite !key_eqb_eq in E. exact E.
  - apply andb_true_iff. rewrite !key_eqb_eq. exact E.
Qed.

Lemma has_edge_op_true k a b op g :
  has_edge_op k a b op g = true <-> exists e, In e (nth k g []) /\ eL e = a /\ eR e = b /\ eop e = op.
Proof.
  unfold has_edge_op. rewrite existsb_exists. split; intros (e & He & E); exists e; split; try exact He.
  - apply andb_true_iff in E. destruct E as [E E3]. apply andb_true_iff in E. rewrite !key_eqb_eq in E.
    destruct E as [E1 E2]. split; [exact E1|]. split; [exact E2|]. lia.
  - destruct E as (E1 & E2 & E3). rewrite !andb_true_iff, !key_eqb_eq. split; [split; assumption|]. lia.
Qed.

Lemma wf_from_cons k prev es g :
  wf_from k prev (es :: g) = true <-> wf_site k prev es = true /\ wf_from (S k) es g = true.
Proof. cbn [wf_from]. apply andb_true_iff. Qed.

Lemma wf_site_iff k prev es : wf_site k prev es = true <->
  (forall e, In e es -> wf_edge k e = true) /\ nodup_keys (lbl_targets es) = true /\
  (forall e, In e es -> is_lbl (eL e) = true -> entered prev (eL e) = true).
Proof.
  unfold wf_site. rewrite !andb_true_iff, !forallb_forall. split.
  - intros [[H1 H2] H3]. split; [exact H1|]. split; [exact H2|]. intros e He Hl.
    specialize (H3 e He). rewrite Hl in H3. exact H3.
  - intros (H1 & H2 & H3). split; [split; assumption|]. intros e He.
    destruct (is_lbl (eL e)) eqn:E; [|reflexivity]. apply H3; assumption.
Qed.

Lemma wf_edge_inv k e : wf_edge k e = true ->
  (eL e = IdL /\ eR e = IdR) \/
  (exists a s, eL e = IdL /\ eR e = Lbl k a s /\ eop e = a /\ ew e = c1) \/
  (exists i a s, eL e = Lbl i a s /\ eR e = Lbl i a s /\ (i < k)%nat /\ eop e = s /\ ew e = c1) \/
  (exists i a s, eL e = Lbl i a s /\ eR e = IdR /\ (i < k)%nat).
Proof.
  unfold wf_edge. destruct e as [l r op w]. cbn [eL eR eop ew].
  destruct l as [| |i a s|n|l|l], r as [| |i' a' s'|n'|r|r]; intro H; try discriminate H.
  - left. auto.
  - right. left. apply andb_true_iff in H. destruct H as [H H3]. apply ceqb_eq in H3.
    assert (i' = k /\ op = a') as [-> ->] by lia. exists a', s'. auto.
  - right. right. right. exists i, a, s. split; [reflexivity|]. split; [reflexivity|]. lia.
  - right. right. left. apply andb_true_iff in H. destruct H as [H H3]. apply ceqb_eq in H3.
    assert (i = i' /\ a = a' /\ s = s' /\ (i < k)%nat /\ op = s) as (-> & -> & -> & Hk & ->) by lia.
    exists i', a', s'. auto.
Qed.

Lemma wf_edge_ends k e : wf_edge k e = true -> eR e <> IdL /\ eL e <> IdR.
Proof.
  intro H. apply wf_edge_inv in H.
  destruct H as [[H1 H2]|[(a & s & H1 & H2 & _)|[(i & a & s & H1 & H2 & _)|(i & a & s & H1 & H2 & _)]]];
    rewrite H1, H2; split; discriminate.
Qed.

Lemma wf_noloop g : forall k prev, wf_from k prev g = true -> Forall noloop_site g.
Proof.
  induction g as [|es g IH]; intros k prev H; constructor; apply wf_from_cons in H; destruct H as [Hs Hg].
  - intros e He. apply (wf_edge_ends k). apply wf_site_iff in Hs. apply Hs. exact He.
  - exact (IH (S k) es Hg).
Qed.

Lemma close_wf g k prev : wf_from k prev g = true -> close g = cl g.
Proof. intro H. exact (close_noloop g (wf_noloop g k prev H)). Qed.

Lemma wf_empty L : forall k prev, wf_from k prev (repeat [] L) = true.
Proof. induction L as [|L IH]; intros k prev; cbn [repeat wf_from]; [reflexivity|]. apply IH. Qed.

Lemma D_empty L : forall k, D (repeat [] L) k IdL = [].
Proof.
  induction L as [|L IH]; intro k; cbn [repeat]; [reflexivity|].
  rewrite D_cons. cbn [out filter flat_map key_eqb app]. rewrite app_nil_r. apply IH.
Qed.

Lemma denote_empty L : denote (close (empty_graph L)) = [].
Proof.
  unfold empty_graph. rewrite (close_wf _ 0%nat [] (wf_empty L 0%nat [])). apply D_empty.
Qed.

Lemma entered_true es x : entered es x = true <-> exists e, In e es /\ eR e = x.
Proof. apply has_key_true. Qed.

Lemma entered_false es x : entered es x = false <-> forall e, In e es -> eR e <> x.
Proof. apply has_key_false. Qed.

Lemma entered_app es fs x : entered (es ++ fs) x = entered es x || entered fs x.
Proof. apply existsb_app. Qed.

Lemma wf_mono k prev prev' g : wf_from k prev g = true ->
  (forall x, entered prev x = true -> entered prev' x = true) -> wf_from k prev' g = true.
Proof.
  destruct g as [|es g]; intros H Hm; [reflexivity|].
  apply wf_from_cons in H. destruct H as [Hs Hg]. apply wf_from_cons. split; [|exact Hg].
  apply wf_site_iff in Hs. destruct Hs as (H1 & H2 & H3). apply wf_site_iff.
  split; [exact H1|]. split; [exact H2|]. intros e He Hl. apply Hm. apply H3; assumption.
Qed.

Lemma lbl_targets_cons e es :
  lbl_targets (e :: es) = if is_lbl (eR e) then eR e :: lbl_targets es else lbl_targets es.
Proof. reflexivity. Qed.

Lemma lbl_targets_app es fs : lbl_targets (es ++ fs) = lbl_targets es ++ lbl_targets fs.
Proof. unfold lbl_targets. rewrite map_app, filter_app. reflexivity. Qed.

Lemma lbl_targets_entered es x : is_lbl x = true -> existsb (key_eqb x) (lbl_targets es) = entered es x.
Proof.
  intro Hx. unfold entered. induction es as [|e es IH]; [reflexivity|].
  rewrite lbl_targets_cons. cbn [existsb]. rewrite <- IH, (key_eqb_sym (eR e)).
  destruct (is_lbl (eR e)) eqn:E; [reflexivity|].
  destruct (key_eqb x (eR e)) eqn:E'; [|reflexivity]. apply key_eqb_eq in E'. congruence.
Qed.

Lemma nodup_keys_snoc l x : nodup_keys l = true -> existsb (key_eqb x) l = false ->
  nodup_keys (l ++ [x]) = true.
Proof.
  induction l as [|y l IH]; intros Hn Hx; [reflexivity|].
  cbn [nodup_keys app] in *. cbn [existsb] in Hx.
  apply andb_true_iff in Hn. destruct Hn as [Hy Hn]. apply orb_false_iff in Hx. destruct Hx as [Hxy Hx].
  apply andb_true_iff. split; [|apply IH; assumption].
  rewrite existsb_app. cbn [existsb]. rewrite key_eqb_sym, Hxy. rewrite orb_false_r. exact Hy.
Qed.

Lemma wf_site_snoc k prev es e : wf_site k prev es = true -> wf_edge k e = true ->
  (is_lbl (eR e) = true -> entered es (eR e) = false) ->
  (is_lbl (eL e) = true -> entered prev (eL e) = true) ->
  wf_site k prev (es ++ [e]) = true.
Proof.
  intros Hs He HR HL. apply wf_site_iff in Hs. destruct Hs as (H1 & H2 & H3). apply wf_site_iff.
  split; [|split].
  - intros f Hf. apply in_app_or in Hf. destruct Hf as [Hf|[<-|[]]]; [apply H1; exact Hf|exact He].
  - rewrite lbl_targets_app. unfold lbl_targets at 2. cbn [map filter].
    destruct (is_lbl (eR e)) eqn:E; [|rewrite app_nil_r; exact H2].
    apply nodup_keys_snoc; [exact H2|]. rewrite (lbl_targets_entered es _ E). apply HR. reflexivity.
  - intros f Hf. apply in_app_or in Hf. destruct Hf as [Hf|[<-|[]]]; [apply H3; exact Hf|exact HL].
Qed.

Lemma add_string_nil k n ky op : add_string k n ky op [] = [].
Proof.
  revert k. induction n as [|n IH]; intro k; cbn [add_string]; [reflexivity|].
  destruct (has_edge k ky ky []); [apply IH|]. unfold add_edge. rewrite upd_site_nil. apply IH.
Qed.

Lemma add_string_cons n : forall k ky op es g,
  add_string (S k) n ky op (es :: g) = es :: add_string k n ky op g.
Proof.
  induction n as [|n IH]; intros k ky op es g; cbn [add_string]; [reflexivity|].
  change (has_edge (S k) ky ky (es :: g)) with (has_edge k ky ky g).
  destruct (has_edge k ky ky g); [apply IH|].
  change (add_edge (S k) (mkE ky ky op c1) (es :: g)) with (es :: add_edge k (mkE ky ky op c1) g).
  apply IH.
Qed.

Section Coupling.
Variables (i0 : nat) (a s b : Z) (w : C).
Local Notation lbl := (Lbl i0 a s).

(* per-site form of add_cterm: relative indices, structural recursion over the sites *)
Definition site_start (es : list edge) : list edge :=
  if existsb (fun e => key_eqb (eL e) IdL && key_eqb (eR e) lbl && (eop e =? a)) es then es
  else es ++ [mkE IdL lbl a c1].
Definition site_str (es : list edge) : list edge :=
  if existsb (fun e => key_eqb (eL e) lbl && key_eqb (eR e) lbl) es then es
  else es ++ [mkE lbl lbl s c1].
Fixpoint tailg (n : nat) (g : graph) {struct g} : graph :=
  match g with
  | [] => []
  | es :: g' => match n with
                | O => (es ++ [mkE lbl IdR b w]) :: g'
                | S n' => site_str es :: tailg n' g'
                end
  end.
Fixpoint addc (i n : nat) (g : graph) {struct g} : graph :=
  match g with
  | [] => []
  | es :: g' => match i with
                | O => site_start es :: tailg n g'
                | S i' => es :: addc i' n g'
                end
  end.

(* the body of add_cterm with the site index relative to the suffix graph: from the site after the start edge
   (tailfull) and from any site before it (fullc) *)
Definition tailfull (n : nat) (g : graph) : graph :=
  add_edge n (mkE lbl IdR b w) (add_string 0 n lbl s g).
Definition fullc (i n : nat) (g : graph) : graph :=
  add_edge (i + S n) (mkE lbl IdR b w) (add_string (S i) n lbl s (add_skip i (mkE IdL lbl a c1) g)).

Lemma tailfull_eq n : forall g, tailfull n g = tailg n g.
Proof.
  induction n as [|n IH]; intros [|es g]; unfold tailfull.
  - reflexivity.
  - reflexivity.
  - rewrite add_string_nil. apply upd_site_nil.
  - cbn [add_string tailg]. unfold site_str.
    change (has_edge 0 lbl lbl (es :: g))
      with (existsb (fun e => key_eqb (eL e) lbl && key_eqb (eR e) lbl) es).
    destruct (existsb (fun e => key_eqb (eL e) lbl && key_eqb (eR e) lbl) es).
    + rewrite add_string_cons. unfold add_edge. cbn [upd_site]. f_equal. apply IH.
    + unfold add_edge at 2. cbn [upd_site]. rewrite add_string_cons.
      unfold add_edge. cbn [upd_site]. f_equal. apply IH.
Qed.

Lemma fullc_eq g : forall i n, fullc i n g = addc i n g.
Proof.
  induction g as [|es g IH]; intros i n; unfold fullc.
  - assert (E : add_skip i (mkE IdL lbl a c1) [] = []).
    { unfold add_skip. destruct (has_edge_op _ _ _ _ _); [reflexivity|]. apply upd_site_nil. }
    rewrite E, add_string_nil. apply upd_site_nil.
  - destruct i as [|i]; cbn [addc].
    + unfold add_skip, site_start. cbn [eL eR eop].
      change (has_edge_op 0 IdL lbl a (es :: g))
        with (existsb (fun e => key_eqb (eL e) IdL && key_eqb (eR e) lbl && (eop e =? a)) es).
      destruct (existsb (fun e => key_eqb (eL e) IdL && key_eqb (eR e) lbl && (eop e =? a)) es).
      * rewrite add_string_cons. unfold add_edge. cbn [upd_site Nat.add]. f_equal. apply tailfull_eq.
      * unfold add_edge at 2. cbn [upd_site]. rewrite add_string_cons.
        unfold add_edge. cbn [upd_site Nat.add]. f_equal. apply tailfull_eq.
    + assert (E : add_skip (S i) (mkE IdL lbl a c1) (es :: g) = es :: add_skip i (mkE IdL lbl a c1) g).
      { unfold add_skip, has_edge_op. cbn [nth]. destruct (existsb _ (nth i g [])); reflexivity. }
      rewrite E, add_string_cons. unfold add_edge. cbn [upd_site Nat.add]. f_equal. apply IH.
Qed.

End Coupling.

Lemma add_cterm_addc g t : (ct_i t < ct_j t)%nat ->
  add_cterm g t = addc (ct_i t) (ct_a t) (ct_s t) (ct_b t) (ct_w t) (ct_i t) (ct_j t - ct_i t - 1) g.
Proof.
  intro H. rewrite <- fullc_eq. unfold add_cterm, fullc.
  replace (ct_i t + S (ct_j t - ct_i t - 1))%nat with (ct_j t) by lia. reflexivity.
Qed.

Lemma add_os_unch op w' g : forall i k prev x, wf_from k prev g = true -> x <> IdL ->
  D (add_edge i (mkE IdL IdR op w') g) k x = D g k x.
Proof.
  induction g as [|es g IH]; intros i k prev x H Hx; unfold add_edge; [rewrite upd_site_nil; reflexivity|].
  apply wf_from_cons in H. destruct H as [Hs Hg]. apply wf_site_iff in Hs. destruct Hs as (H1 & _ & _).
  assert (Hs : forall e, In e (out x es) -> eR e <> IdL).
  { intros e He. apply in_out in He. apply (wf_edge_ends k e (H1 e (proj1 He))). }
  destruct i as [|i]; cbn [upd_site]; apply (D_cons_unch (fun y => y <> IdL)); try assumption.
  - rewrite out_app, (out_nil_in x [_]), app_nil_r; [reflexivity|].
    intros e [<-|[]]. cbn [eL]. congruence.
  - reflexivity.
  - reflexivity.
  - intros y Hy. exact (IH i (S k) es y Hg Hy).
Qed.

Lemma length_add_string n : forall k ky op g, length (add_string k n ky op g) = length g.
Proof.
  induction n as [|n IH]; intros k ky op g; cbn [add_string]; [reflexivity|].
  rewrite IH. destruct (has_edge k ky ky g); [reflexivity|]. apply length_upd_site.
Qed.

Lemma length_add_cterm g t : length (add_cterm g t) = length g.
Proof.
  unfold add_cterm, add_edge. rewrite length_upd_site, length_add_string. unfold add_skip.
  destruct (has_edge_op _ _ _ _ g); [reflexivity|]. apply length_upd_site.
Qed.

Lemma length_add_oterm g t : length (add_oterm g t) = length g.
Proof. apply length_upd_site. Qed.
