(* Proofs about Model/AutomatonMulti.v (property C10): MultiCouplingTerms.add_to_graph.
   A new edge e on site k adds to the operator of the closed graph exactly
   (left weight Lw of eL e) * e * (right weight Rw of eR e)  (through_edge).  Under the invariant mwf a
   left state that is entered carries its word with weight 1 and one that is not carries nothing, and
   the mirror image holds for right states; so a structure edge inserted by add_mterm adds nothing (its
   far end is not connected yet) and the final connection adds exactly the term. *)
From TenpyV Require Import Base.Prelude Base.Lists Model.Automaton Proofs.AutomatonP Proofs.AutomatonP2
  Model.AutomatonMulti.
Open Scope Z_scope.

Lemma filter_unique {A} (f : A -> bool) l a :
  (length (filter f l) <= 1)%nat -> In a l -> f a = true -> filter f l = [a].
Proof.
  intros Hl Ha Hf. assert (Hi : In a (filter f l)) by (apply filter_In; auto).
  destruct (filter f l) as [|b [|c r]]; cbn [length In] in *; [contradiction| |lia].
  destruct Hi as [->|[]]. reflexivity.
Qed.
Lemma filter_snoc_le1 {A} (f : A -> bool) l a : (length (filter f l) <= 1)%nat ->
  (f a = true -> filter f l = []) -> (length (filter f (l ++ [a])) <= 1)%nat.
Proof.
  intros Hl Ha. rewrite filter_app, app_length. cbn [filter].
  destruct (f a); cbn [length]; [rewrite Ha by reflexivity; cbn [length]|]; lia.
Qed.
Lemma forallb_map {A B} (f : A -> B) (p : B -> bool) (q : A -> bool) l :
  (forall x, q x = true -> p (f x) = true) -> forallb q l = true -> forallb p (map f l) = true.
Proof.
  intro H. induction l as [|x l IH]; cbn [forallb map]; [auto|].
  intro E. apply andb_true_iff in E. destruct E as [E1 E2]. rewrite (H x E1), (IH E2). reflexivity.
Qed.

Lemma z2n_inj a b : z2n a = z2n b -> a = b.
Proof. unfold z2n. destruct (0 <=? a) eqn:Ea, (0 <=? b) eqn:Eb; lia. Qed.

Lemma triple_ext t t' : tsite t = tsite t' -> top t = top t' -> tstr t = tstr t' -> t = t'.
Proof. destruct t as [[i a] s], t' as [[i' a'] s']. cbn [tsite top tstr fst snd]. congruence. Qed.

(* enc_tr writes a triple as three unary numbers over InA (the operator ids through the zigzag injection z2n of Z
   into nat), each behind an InB; k is not an InA key, so the last number is read back unambiguously.  InA / InB are
   also the tags of MPO.__add__ (Model/Automaton.v: tagA, tagB); those wrap whole keys, injectively whatever is inside
   (AutomatonP.tagA_inj, tagAB_true), so the two uses do not meet *)
Definition nia (k : key) : Prop := match k with InA _ => False | _ => True end.

Lemma iter_InA_inj n : forall m x y, nia x -> nia y ->
  Nat.iter n InA x = Nat.iter m InA y -> n = m /\ x = y.
Proof.
  induction n as [|n IH]; intros [|m] x y Hx Hy H; simpl in H.
  - auto.
  - subst x. destruct Hx.
  - subst y. destruct Hy.
  - injection H as H. destruct (IH m x y Hx Hy H) as [-> ->]. auto.
Qed.

Lemma enc_tr_inj t t' k k' : nia k -> nia k' -> enc_tr t k = enc_tr t' k' -> t = t' /\ k = k'.
Proof.
  intros Hk Hk' H. unfold enc_tr in H. injection H as H.
  apply iter_InA_inj in H; [|exact I|exact I]. destruct H as [H1 H]. injection H as H.
  apply iter_InA_inj in H; [|exact I|exact I]. destruct H as [H2 H]. injection H as H.
  apply iter_InA_inj in H; [|exact Hk|exact Hk']. destruct H as [H3 H].
  split; [apply triple_ext; [exact H1|apply z2n_inj, H2|apply z2n_inj, H3]|exact H].
Qed.

Lemma kleft_single t : kleft [t] = Lbl (tsite t) (top t) (tstr t).
Proof. reflexivity. Qed.
Lemma kleft_cons2 t t' p : kleft (t :: t' :: p) = enc_tr t (kleft (t' :: p)).
Proof. reflexivity. Qed.
Lemma kright_cons t q : kright (t :: q) = enc_tr t (kright q).
Proof. reflexivity. Qed.

Lemma nia_kleft p : nia (kleft p).
Proof. destruct p as [|t [|t' p]]; exact I. Qed.
Lemma nia_kright q : nia (kright q).
Proof. destruct q; exact I. Qed.

Lemma kleft_inj p : forall p', kleft p = kleft p' -> p = p'.
Proof.
  induction p as [|t p IH]; intros p' H.
  - destruct p' as [|t' [|t'' p']]; [reflexivity| |]; discriminate H.
  - destruct p as [|t1 p].
    + destruct p' as [|t' [|t'' p']]; try discriminate H.
      rewrite !kleft_single in H. injection H as H1 H2 H3. rewrite (triple_ext t t' H1 H2 H3). reflexivity.
    + destruct p' as [|t' [|t'' p']]; try discriminate H.
      rewrite !kleft_cons2 in H. apply enc_tr_inj in H; try apply nia_kleft.
      destruct H as [-> H]. apply IH in H. rewrite H. reflexivity.
Qed.

Lemma kright_inj q : forall q', kright q = kright q' -> q = q'.
Proof.
  induction q as [|t q IH]; intros [|t' q'] H; try reflexivity; try discriminate H.
  rewrite !kright_cons in H. apply enc_tr_inj in H; try apply nia_kright.
  destruct H as [-> H]. apply IH in H. rewrite H. reflexivity.
Qed.

Lemma kleft_kright p : forall q, kleft p <> kright q.
Proof.
  induction p as [|t p IH]; intros q H.
  - destruct q; discriminate H.
  - destruct p as [|t1 p].
    + destruct q; discriminate H.
    + destruct q as [|u q]; [discriminate H|].
      rewrite kleft_cons2, kright_cons in H. apply enc_tr_inj in H; [|apply nia_kleft|apply nia_kright].
      destruct H as [_ H]. exact (IH q H).
Qed.

Lemma kleft_IdL : kleft [] = IdL. Proof. reflexivity. Qed.
Lemma kright_IdR : kright [] = IdR. Proof. reflexivity. Qed.
Lemma kleft_cons_nIdL t p : kleft (t :: p) <> IdL.
Proof. intro H. change IdL with (kleft []) in H. apply kleft_inj in H. discriminate H. Qed.
Lemma kleft_nIdR p : kleft p <> IdR.
Proof. change IdR with (kright []). apply kleft_kright. Qed.
Lemma kright_cons_nIdR t q : kright (t :: q) <> IdR.
Proof. intro H. change IdR with (kright []) in H. apply kright_inj in H. discriminate H. Qed.
Lemma kright_nIdL q : kright q <> IdL.
Proof. intro H. change IdL with (kleft []) in H. symmetry in H. exact (kleft_kright _ _ H). Qed.

Lemma add_cterm_as_mterm g t : add_cterm g t = add_mterm g (mterm_of_cterm t).
Proof. reflexivity. Qed.
Lemma add_oterm_as_mterm g t : add_oterm g t = add_mterm g (mterm_of_oterm t).
Proof. reflexivity. Qed.
Lemma nf_cterm_as_mterm t : nf_cterm t = nf_mterm (mterm_of_cterm t).
Proof.
  unfold nf_cterm, nf_mterm, mterm_of_cterm. cbn [mt_w mt_left mt_right mt_sw mt_op rev app lword rword].
  cbn [tsite top tstr fst snd app]. rewrite consop_app. reflexivity.
Qed.
Lemma nf_oterm_as_mterm t : nf_oterm t = nf_mterm (mterm_of_oterm t).
Proof. reflexivity. Qed.

Lemma ending_last_into x g1 es i y :
  ending x (paths (g1 ++ [es]) i y) = ending x (paths (g1 ++ [into x es]) i y).
Proof.
  rewrite !paths_app, !ending_flat_map. apply flat_map_ext_in. intros p _.
  generalize (i + length g1)%nat as j. intro j. unfold ending. rewrite !filter_map_comm. cbn [snd].
  do 2 f_equal. induction es as [|e es IH]; [reflexivity|].
  assert (P : forall l, paths [e :: l] j (snd p) = paths [[e]] j (snd p) ++ paths [l] j (snd p)).
  { intro l. cbn [paths flat_map]. rewrite app_nil_r. reflexivity. }
  rewrite P, filter_app. unfold into in *. cbn [filter].
  destruct (key_eqb (eR e) x) eqn:E; [rewrite (P (filter _ es)), filter_app; f_equal; exact IH|].
  etransitivity; [|exact IH]. cbn [paths flat_map]. destruct (key_eqb (eL e) (snd p)); [|reflexivity].
  cbn [map app filter pstep snd]. rewrite E. reflexivity.
Qed.

(* the weights of the state x on bond k of the closed graph: the paths IdL ->* x through the sites before k, the
   paths x ->* IdR through the sites from k on.  Rw g k y = D (skipn k g) k y (skipn_map): D of AutomatonP2 takes
   the suffix graph, for inductions over the sites; Rw, like Lw, the whole graph and the bond *)
Definition Lw (g : graph) (k : nat) (x : key) : poly := ending x (paths (firstn k (cl g)) 0 IdL).
Definition Rw (g : graph) (k : nat) (y : key) : poly := rden (skipn k (cl g)) k y.

Lemma Lw_0 g x : Lw g 0 x = if key_eqb IdL x then [(c1, [])] else [].
Proof. unfold Lw, ending. cbn [firstn paths filter snd]. destruct (key_eqb IdL x); reflexivity. Qed.

Lemma Lw_S g k x : (k < length g)%nat ->
  Lw g (S k) x = ending x (paths (firstn k (cl g) ++ [into x (nth k g [] ++ [lL; lR])]) 0 IdL).
Proof.
  intro Hk. unfold Lw. rewrite (firstn_S_nth [] (cl g) k), nth_cl by (rewrite ?length_cl; exact Hk).
  apply ending_last_into.
Qed.

Lemma Lw_S_none g k x : (k < length g)%nat -> into x (nth k g [] ++ [lL; lR]) = [] -> Lw g (S k) x = [].
Proof.
  intros Hk H. rewrite Lw_S, H, paths_app, ending_flat_map by exact Hk. apply flat_map_nil_in. reflexivity.
Qed.

Lemma Lw_S_one g k x e0 : (k < length g)%nat -> into x (nth k g [] ++ [lL; lR]) = [e0] ->
  Lw g (S k) x = pmul3 (Lw g k (eL e0)) k e0 [(c1, [])].
Proof.
  intros Hk H. rewrite Lw_S, H, ending_through, firstn_length, length_cl, Nat.min_l by lia.
  apply filter_single_in in H. destruct H as [_ H].
  unfold ending at 2. cbn [paths filter snd]. rewrite H. reflexivity.
Qed.

Lemma Rw_step g k y : (k < length g)%nat ->
  Rw g k y = flat_map (fun e => map (mstep k e) (Rw g (S k) (eR e))) (out y (nth k g [] ++ [lL; lR])).
Proof.
  intro Hk. unfold Rw. rewrite (skipn_nth_cons [] (cl g) k) by (rewrite length_cl; exact Hk).
  rewrite rden_cons, nth_cl by exact Hk. reflexivity.
Qed.

Lemma Rw_end g k y : (length g <= k)%nat -> Rw g k y = if key_eqb y IdR then [(c1, [])] else [].
Proof.
  intro Hk. unfold Rw. rewrite skipn_all2 by (rewrite length_cl; exact Hk). apply rden_nil.
Qed.

Lemma through_edge g k e : (k < length g)%nat ->
  peq (denote (cl (add_edge k e g)))
      (denote (cl g) ++ pmul3 (Lw g k (eL e)) k e (Rw g (S k) (eR e))).
Proof.
  intro Hk. unfold add_edge. rewrite upd_site_split by exact Hk.
  assert (E1 : cl (firstn k g ++ (nth k g [] ++ [e]) :: skipn (S k) g) =
               firstn k (cl g) ++ (nth k g [] ++ e :: [lL; lR]) :: skipn (S k) (cl g)).
  { unfold cl. rewrite map_app, firstn_map, skipn_map. cbn [map]. rewrite <- app_assoc. reflexivity. }
  assert (E2 : cl g = firstn k (cl g) ++ (nth k g [] ++ [lL; lR]) :: skipn (S k) (cl g)).
  { rewrite <- nth_cl, <- skipn_nth_cons by (rewrite ?length_cl; exact Hk). symmetry. apply firstn_skipn. }
  rewrite E1. rewrite E2 at 3. unfold denote, rden. apply peq_perm.
  eapply perm_trans; [apply ending_perm; apply paths_insert_mid|].
  rewrite ending_app. apply Permutation_app_head.
  rewrite ending_through, firstn_length, length_cl, Nat.min_l by lia. apply Permutation_refl.
Qed.

Lemma into_app x l1 l2 : into x (l1 ++ l2) = into x l1 ++ into x l2.
Proof. apply filter_app. Qed.
Lemma into_nil_in x es : (forall e, In e es -> eR e <> x) -> into x es = [].
Proof. exact (sel_key_nil eR es x). Qed.
Lemma into_loops x : x <> IdL -> x <> IdR -> into x [lL; lR] = [].
Proof.
  intros H1 H2. apply into_nil_in. intros e [<-|[<-|[]]]; cbn [eR lL lR]; congruence.
Qed.
Lemma out_loops x : x <> IdL -> x <> IdR -> out x [lL; lR] = [].
Proof.
  intros H1 H2. apply out_nil_in. intros e [<-|[<-|[]]]; cbn [eL lL lR]; congruence.
Qed.
Lemma into_unique x es e : (length (into x es) <= 1)%nat -> In e es -> eR e = x -> into x es = [e].
Proof. intros Hl He Hx. apply filter_unique; [exact Hl|exact He|apply key_eqb_eq; exact Hx]. Qed.
Lemma out_unique x es e : (length (out x es) <= 1)%nat -> In e es -> eL e = x -> out x es = [e].
Proof. intros Hl He Hx. apply filter_unique; [exact Hl|exact He|apply key_eqb_eq; exact Hx]. Qed.
Lemma exited_true es x : exited es x = true <-> exists e, In e es /\ eL e = x.
Proof. exact (has_key_true eL es x). Qed.
Lemma exited_false es x : exited es x = false <-> forall e, In e es -> eL e <> x.
Proof. exact (has_key_false eL es x). Qed.

Lemma canonL_at t p : canonL (tsite t) t p = mkE (kleft p) (kleft (t :: p)) (top t) c1.
Proof. unfold canonL. rewrite Nat.eqb_refl. reflexivity. Qed.
Lemma canonL_after k t p : (tsite t < k)%nat ->
  canonL k t p = mkE (kleft (t :: p)) (kleft (t :: p)) (tstr t) c1.
Proof. intro H. unfold canonL. destruct (Nat.eqb_spec k (tsite t)); [lia|reflexivity]. Qed.
Lemma canonR_at t q : canonR (tsite t) t q = mkE (kright (t :: q)) (kright q) (top t) c1.
Proof. unfold canonR. rewrite Nat.eqb_refl. reflexivity. Qed.
Lemma canonR_before k t q : (k < tsite t)%nat ->
  canonR k t q = mkE (kright (t :: q)) (kright (t :: q)) (tstr t) c1.
Proof. intro H. unfold canonR. destruct (Nat.eqb_spec k (tsite t)); [lia|reflexivity]. Qed.

Lemma eR_canonL k t p : eR (canonL k t p) = kleft (t :: p).
Proof. unfold canonL. destruct (Nat.eqb k (tsite t)); reflexivity. Qed.
Lemma eL_canonR k t q : eL (canonR k t q) = kright (t :: q).
Proof. unfold canonR. destruct (Nat.eqb k (tsite t)); reflexivity. Qed.
Lemma eL_canonL k t p : exists p', eL (canonL k t p) = kleft p'.
Proof. unfold canonL. destruct (Nat.eqb k (tsite t)); eexists; reflexivity. Qed.
Lemma eR_canonR k t q : exists q', eR (canonR k t q) = kright q'.
Proof. unfold canonR. destruct (Nat.eqb k (tsite t)); eexists; reflexivity. Qed.
Lemma ew_canonL k t p : ew (canonL k t p) = c1.
Proof. unfold canonL. destruct (Nat.eqb k (tsite t)); reflexivity. Qed.
Lemma ew_canonR k t q : ew (canonR k t q) = c1.
Proof. unfold canonR. destruct (Nat.eqb k (tsite t)); reflexivity. Qed.

Lemma ok_into_left k e t p : edge_ok k e -> eR e = kleft (t :: p) -> e = canonL k t p /\ (tsite t <= k)%nat.
Proof.
  intros [(t' & p' & H1 & H2 & H3)|[(t' & q & H1 & H2 & H3)|(p' & q & H1 & H2)]] H.
  - rewrite H in H1. apply kleft_inj in H1. injection H1 as <- <-. auto.
  - exfalso. destruct (eR_canonR k t' q) as [q' Hq]. rewrite <- H2, H in Hq. exact (kleft_kright _ _ Hq).
  - exfalso. rewrite H in H2. exact (kleft_kright _ _ H2).
Qed.
Lemma ok_outof_right k e t q : edge_ok k e -> eL e = kright (t :: q) -> e = canonR k t q /\ (k <= tsite t)%nat.
Proof.
  intros [(t' & p & H1 & H2 & H3)|[(t' & q' & H1 & H2 & H3)|(p & q' & H1 & H2)]] H.
  - exfalso. destruct (eL_canonL k t' p) as [p' Hp]. rewrite <- H2, H in Hp. symmetry in Hp.
    exact (kleft_kright _ _ Hp).
  - rewrite H in H1. apply kright_inj in H1. injection H1 as <- <-. auto.
  - exfalso. rewrite H in H1. symmetry in H1. exact (kleft_kright _ _ H1).
Qed.
Lemma ok_ends k e : edge_ok k e -> eR e <> IdL /\ eL e <> IdR.
Proof.
  intros [(t & p & H1 & H2 & H3)|[(t & q & H1 & H2 & H3)|(p & q & H1 & H2)]].
  - split; [rewrite H1; apply kleft_cons_nIdL|].
    destruct (eL_canonL k t p) as [p' Hp]. rewrite H2, Hp. apply kleft_nIdR.
  - split; [|rewrite H1; apply kright_cons_nIdR].
    destruct (eR_canonR k t q) as [q' Hq]. rewrite H2, Hq. apply kright_nIdL.
  - rewrite H1, H2. split; [apply kright_nIdL|apply kleft_nIdR].
Qed.

Lemma mwf_noloop g : mwf g -> Forall noloop_site g.
Proof.
  intro H. apply Forall_forall. intros es He. apply (In_nth _ _ []) in He. destruct He as (k & _ & <-).
  intros e He. destruct (H k) as (H1 & _). exact (ok_ends k e (H1 e He)).
Qed.

Lemma close_mwf g : mwf g -> close g = cl g.
Proof. intro H. exact (close_noloop g (mwf_noloop g H)). Qed.

Lemma Lw_unentered g k x : (k <= length g)%nat -> x <> IdL -> x <> IdR ->
  entered (prevs g k) x = false -> Lw g k x = [].
Proof.
  intros Hk HL HR He. destruct k as [|k].
  - rewrite Lw_0. apply not_eq_sym, key_eqb_neq in HL. rewrite HL. reflexivity.
  - apply Lw_S_none; [lia|]. rewrite into_app, into_loops, app_nil_r by assumption.
    apply into_nil_in, entered_false. exact He.
Qed.
Lemma Rw_unexited g k x : x <> IdL -> x <> IdR -> exited (nth k g []) x = false -> Rw g k x = [].
Proof.
  intros HL HR He. destruct (Nat.lt_ge_cases k (length g)) as [Hk|Hk].
  - rewrite Rw_step, out_app, out_loops, app_nil_r by assumption.
    rewrite out_nil_in; [reflexivity|]. apply exited_false. exact He.
  - rewrite Rw_end by exact Hk. apply key_eqb_neq in HR. rewrite HR. reflexivity.
Qed.

Lemma Lw_dead g k t p : mwf g -> (k <= length g)%nat -> entered (prevs g k) (kleft (t :: p)) = false ->
  Lw g k (kleft (t :: p)) = [].
Proof. intros _ Hk. apply Lw_unentered; [exact Hk|apply kleft_cons_nIdL|apply kleft_nIdR]. Qed.

Lemma Rw_dead g k t q : mwf g -> exited (nth k g []) (kright (t :: q)) = false ->
  Rw g k (kright (t :: q)) = [].
Proof. intros _. apply Rw_unexited; [apply kright_nIdL|apply kright_cons_nIdR]. Qed.

Lemma lword_canonL k t p : (tsite t <= k)%nat -> exists p', eL (canonL k t p) = kleft p' /\
  lword (t :: p) (S k) = lword p' k ++ consop k (eop (canonL k t p)) [].
Proof.
  intros Hts. cbn [lword].
  destruct (Nat.eq_dec k (tsite t)) as [->|Hne]; [rewrite canonL_at; exists p|rewrite canonL_after by lia; exists (t :: p)];
    (split; [reflexivity|]); cbn [eop lword].
  - replace (S (tsite t) - tsite t - 1)%nat with 0%nat by lia. reflexivity.
  - replace (S k - tsite t - 1)%nat with (k - tsite t - 1 + 1)%nat by lia.
    rewrite wstring_app. replace (S (tsite t) + (k - tsite t - 1))%nat with k by lia.
    rewrite consop_app, <- app_assoc. reflexivity.
Qed.
Lemma rword_canonR k t q : (k <= tsite t)%nat -> exists q', eR (canonR k t q) = kright q' /\
  rword (t :: q) k = consop k (eop (canonR k t q)) (rword q' (S k)).
Proof.
  intros Hts. cbn [rword].
  destruct (Nat.eq_dec k (tsite t)) as [->|Hne]; [rewrite canonR_at; exists q|rewrite canonR_before by lia; exists (t :: q)];
    (split; [reflexivity|]); cbn [eop rword].
  - rewrite Nat.sub_diag. reflexivity.
  - replace (tsite t - k)%nat with (S (tsite t - S k)) by lia.
    cbn [wstring]. rewrite consop_app. reflexivity.
Qed.

Lemma Lw_live g : mwf g -> forall k, (k <= length g)%nat ->
  forall p, (p = [] \/ entered (prevs g k) (kleft p) = true) -> Lw g k (kleft p) = [(c1, lword p k)].
Proof.
  intro H. induction k as [|k IH]; intros Hk p Hp.
  - destruct Hp as [->|Hp]; [|discriminate Hp]. rewrite Lw_0, kleft_IdL. reflexivity.
  - assert (Hk' : (k < length g)%nat) by lia. specialize (IH (Nat.lt_le_incl _ _ Hk')).
    destruct (H k) as (H1 & H2 & _ & H4 & _).
    destruct p as [|t p].
    + rewrite kleft_IdL, (Lw_S_one g k IdL lL Hk').
      * change (eL lL) with (kleft []). rewrite (IH [] (or_introl eq_refl)). reflexivity.
      * rewrite into_app, into_nil_in; [reflexivity|].
        intros e He. exact (proj1 (ok_ends k e (H1 e He))).
    + destruct Hp as [Hp|Hp]; [discriminate Hp|]. cbn [prevs] in Hp.
      apply entered_true in Hp. destruct Hp as (e & He & Ee).
      destruct (ok_into_left k e t p (H1 e He) Ee) as [-> Hts].
      destruct (lword_canonL k t p Hts) as (p' & Ep & Ew).
      rewrite (Lw_S_one g k _ (canonL k t p) Hk'), Ep.
      * rewrite (IH p').
        { unfold pmul3, ext1. cbn [flat_map map app fst snd]. rewrite ew_canonL, Ew. reflexivity. }
        destruct p' as [|t' p'']; [left; reflexivity|right]. rewrite <- Ep. exact (H4 _ t' p'' He Ep).
      * rewrite into_app, into_loops, app_nil_r by (apply kleft_cons_nIdL || apply kleft_nIdR).
        apply into_unique; [apply H2|exact He|exact Ee].
Qed.

Lemma Rw_live g : mwf g -> forall k q,
  (q = [] \/ exited (nth k g []) (kright q) = true) -> Rw g k (kright q) = [(c1, rword q k)].
Proof.
  intros H k. remember (length g - k)%nat as n eqn:Hn. revert k Hn.
  induction n as [|n IH]; intros k Hn q Hq.
  - assert (Hk : (length g <= k)%nat) by lia. rewrite Rw_end by exact Hk.
    rewrite nth_overflow in Hq by exact Hk.
    destruct Hq as [->|Hq]; [|discriminate Hq]. rewrite kright_IdR. reflexivity.
  - assert (Hk : (k < length g)%nat) by lia.
    assert (IH' := IH (S k) ltac:(lia)). clear IH.
    destruct (H k) as (H1 & _ & H3 & _ & H5). rewrite Rw_step by exact Hk.
    destruct q as [|t q].
    + rewrite kright_IdR, out_app, out_nil_in.
      * cbn [app out filter eL lL lR key_eqb flat_map eR]. rewrite app_nil_r.
        change IdR with (kright []) at 1. rewrite (IH' [] (or_introl eq_refl)). reflexivity.
      * intros e He. exact (proj2 (ok_ends k e (H1 e He))).
    + destruct Hq as [Hq|Hq]; [discriminate Hq|].
      apply exited_true in Hq. destruct Hq as (e & He & Ee).
      destruct (ok_outof_right k e t q (H1 e He) Ee) as [-> Hts].
      destruct (rword_canonR k t q Hts) as (q' & Eq & Ew).
      rewrite out_app, out_loops, app_nil_r by (apply kright_nIdL || apply kright_cons_nIdR).
      rewrite (out_unique _ _ _ (H3 t q) He Ee). cbn [flat_map]. rewrite app_nil_r, Eq, (IH' q').
      * cbn [map]. unfold mstep. cbn [fst snd].
        rewrite ew_canonR, cmul_1_r, Ew. reflexivity.
      * destruct q' as [|t' q'']; [left; reflexivity|right]. rewrite <- Eq. exact (H5 _ t' q'' He Eq).
Qed.

Definition gle (g g' : graph) : Prop :=
  length g' = length g /\ forall k e, In e (nth k g []) -> In e (nth k g' []).
Lemma gle_refl g : gle g g.
Proof. split; auto. Qed.
Lemma gle_trans g1 g2 g3 : gle g1 g2 -> gle g2 g3 -> gle g1 g3.
Proof. intros [L1 H1] [L2 H2]. split; [congruence|]. intros k e He. apply H2, H1, He. Qed.
Lemma entered_gle g g' k x : gle g g' -> entered (nth k g []) x = true -> entered (nth k g' []) x = true.
Proof.
  intros [_ H] He. apply entered_true in He. destruct He as (e & He & E).
  apply entered_true. exists e. split; [apply H, He|exact E].
Qed.
Lemma entered_prevs_gle g g' k x : gle g g' -> entered (prevs g k) x = true -> entered (prevs g' k) x = true.
Proof. destruct k as [|k]; cbn [prevs]; [auto|apply entered_gle]. Qed.
Lemma exited_gle g g' k x : gle g g' -> exited (nth k g []) x = true -> exited (nth k g' []) x = true.
Proof.
  intros [_ H] He. apply exited_true in He. destruct He as (e & He & E).
  apply exited_true. exists e. split; [apply H, He|exact E].
Qed.

Lemma add_edge_gle g k e : (k < length g)%nat -> gle g (add_edge k e g).
Proof.
  intro H. split; [apply length_add_edge|]. intros k' e' He. rewrite nth_add_edge by exact H.
  destruct (Nat.eqb_spec k' k) as [->|_]; [|exact He]. apply in_or_app. left. exact He.
Qed.

Lemma site_ok_mono k prev prev' es next next' :
  (forall x, entered prev x = true -> entered prev' x = true) ->
  (forall x, exited next x = true -> exited next' x = true) ->
  site_ok k prev es next -> site_ok k prev' es next'.
Proof.
  intros Hp Hn (H1 & H2 & H3 & H4 & H5). repeat split; try assumption.
  - intros e t p He E. apply Hp. exact (H4 e t p He E).
  - intros e t q He E. apply Hn. exact (H5 e t q He E).
Qed.

Lemma site_ok_snoc k prev es next e : site_ok k prev es next -> edge_ok k e ->
  (forall t p, eR e = kleft (t :: p) -> into (kleft (t :: p)) es = []) ->
  (forall t q, eL e = kright (t :: q) -> out (kright (t :: q)) es = []) ->
  (forall t p, eL e = kleft (t :: p) -> entered prev (eL e) = true) ->
  (forall t q, eR e = kright (t :: q) -> exited next (eR e) = true) ->
  site_ok k prev (es ++ [e]) next.
Proof.
  intros (H1 & H2 & H3 & H4 & H5) Hok Hin Hout Hent Hex. repeat split.
  - intros e' He'. apply in_app_or in He'. destruct He' as [He'|[<-|[]]]; [apply H1, He'|exact Hok].
  - intros t p. apply filter_snoc_le1; [apply H2|]. intro E. apply key_eqb_eq in E. exact (Hin t p E).
  - intros t q. apply filter_snoc_le1; [apply H3|]. intro E. apply key_eqb_eq in E. exact (Hout t q E).
  - intros e' t p He' E. apply in_app_or in He'.
    destruct He' as [He'|[<-|[]]]; [exact (H4 e' t p He' E)|exact (Hent t p E)].
  - intros e' t q He' E. apply in_app_or in He'.
    destruct He' as [He'|[<-|[]]]; [exact (H5 e' t q He' E)|exact (Hex t q E)].
Qed.

(* the neighbouring sites see more states entered and left: only the site of the new edge is to be checked *)
Lemma mwf_add_edge g k e : mwf g -> (k < length g)%nat ->
  site_ok k (prevs g k) (nth k g [] ++ [e]) (nth (S k) g []) -> mwf (add_edge k e g).
Proof.
  intros H Hk Hs k'.
  assert (G := add_edge_gle g k e Hk).
  apply site_ok_mono with (prevs g k') (nth (S k') g []);
    [intro x; apply entered_prevs_gle, G|intro x; apply exited_gle, G|].
  rewrite (nth_add_edge g k e k' Hk). destruct (Nat.eqb_spec k' k) as [->|_]; [exact Hs|apply H].
Qed.

(* gle is part of it for the length (good_len) and because the left state entered after ins_left must still be
   entered after ins_right, when the connection is added (entered_prevs_gle in add_mterm_cl) *)
Definition good (g g' : graph) : Prop :=
  mwf g' /\ peq (denote (cl g')) (denote (cl g)) /\ gle g g'.
Lemma good_refl g : mwf g -> good g g.
Proof. intro H. split; [exact H|]. split; [apply peq_refl|apply gle_refl]. Qed.
Lemma good_trans g1 g2 g3 : good g1 g2 -> good g2 g3 -> good g1 g3.
Proof.
  intros (_ & P1 & G1) (M2 & P2 & G2). split; [exact M2|]. split.
  - eapply peq_trans; eassumption.
  - eapply gle_trans; eassumption.
Qed.
Lemma good_len g g' : good g g' -> length g' = length g.
Proof. intros (_ & _ & [L _]). exact L. Qed.

(* the new state is not left yet on the next site, so no complete path goes through the new edge *)
Lemma add_low g k t p : mwf g -> (k < length g)%nat -> (tsite t <= k)%nat ->
  ~ In (canonL k t p) (nth k g []) ->
  (forall t' p', eL (canonL k t p) = kleft (t' :: p') -> entered (prevs g k) (eL (canonL k t p)) = true) ->
  mwf (add_edge k (canonL k t p) g) /\
  peq (denote (cl (add_edge k (canonL k t p) g))) (denote (cl g)).
Proof.
  intros H Hk Hts Hn Hent.
  assert (Hne : forall e, In e (nth k g []) -> eR e <> kleft (t :: p)).
  { intros e He E. destruct (H k) as (H1 & _).
    destruct (ok_into_left k e t p (H1 e He) E) as [-> _]. exact (Hn He). }
  split.
  - apply mwf_add_edge, site_ok_snoc; try assumption.
    + apply H.
    + left. exists t, p. split; [apply eR_canonL|]. auto.
    + intros t' p' E. rewrite eR_canonL in E. rewrite <- E. apply into_nil_in. exact Hne.
    + intros t' q E. exfalso. destruct (eL_canonL k t p) as [p' Ep]. rewrite Ep in E.
      exact (kleft_kright _ _ E).
    + intros t' q E. exfalso. rewrite eR_canonL in E. exact (kleft_kright _ _ E).
  - eapply peq_trans; [apply through_edge; exact Hk|].
    rewrite eR_canonL, Rw_unexited, pmul3_nil_r, app_nil_r;
      [apply peq_refl|apply kleft_cons_nIdL|apply kleft_nIdR|].
    apply exited_false. intros e He E. destruct (H (S k)) as (_ & _ & _ & H4 & _).
    specialize (H4 e t p He E). cbn [prevs] in H4. rewrite E in H4.
    apply entered_true in H4. destruct H4 as (e' & He' & E'). exact (Hne e' He' E').
Qed.

(* mirror image: the new state is not entered yet on the site before *)
Lemma add_high g k t q : mwf g -> (k < length g)%nat -> (k <= tsite t)%nat ->
  ~ In (canonR k t q) (nth k g []) ->
  (forall t' q', eR (canonR k t q) = kright (t' :: q') -> exited (nth (S k) g []) (eR (canonR k t q)) = true) ->
  mwf (add_edge k (canonR k t q) g) /\
  peq (denote (cl (add_edge k (canonR k t q) g))) (denote (cl g)).
Proof.
  intros H Hk Hts Hn Hex.
  assert (Hne : forall e, In e (nth k g []) -> eL e <> kright (t :: q)).
  { intros e He E. destruct (H k) as (H1 & _).
    destruct (ok_outof_right k e t q (H1 e He) E) as [-> _]. exact (Hn He). }
  split.
  - apply mwf_add_edge, site_ok_snoc; try assumption.
    + apply H.
    + right. left. exists t, q. split; [apply eL_canonR|]. auto.
    + intros t' p E. exfalso. destruct (eR_canonR k t q) as [q' Eq]. rewrite Eq in E.
      symmetry in E. exact (kleft_kright _ _ E).
    + intros t' q' E. rewrite eL_canonR in E. rewrite <- E. apply out_nil_in. exact Hne.
    + intros t' p E. exfalso. rewrite eL_canonR in E. symmetry in E. exact (kleft_kright _ _ E).
  - eapply peq_trans; [apply through_edge; exact Hk|].
    rewrite eL_canonR, Lw_unentered, pmul3_nil_l, app_nil_r;
      [apply peq_refl|lia|apply kright_nIdL|apply kright_cons_nIdR|].
    destruct k as [|k]; [reflexivity|]. cbn [prevs].
    apply entered_false. intros e He E. destruct (H k) as (_ & _ & _ & _ & H5).
    specialize (H5 e t q He E). rewrite E in H5.
    apply exited_true in H5. destruct H5 as (e' & He' & E'). exact (Hne e' He' E').
Qed.

Lemma add_conn g k p q op w : mwf g -> (k < length g)%nat ->
  (p = [] \/ entered (prevs g k) (kleft p) = true) ->
  (q = [] \/ exited (nth (S k) g []) (kright q) = true) ->
  mwf (add_edge k (mkE (kleft p) (kright q) op w) g) /\
  peq (denote (cl (add_edge k (mkE (kleft p) (kright q) op w) g)))
      (denote (cl g) ++ [(w, lword p k ++ consop k op (rword q (S k)))]).
Proof.
  intros H Hk Hp Hq. split.
  - apply mwf_add_edge, site_ok_snoc; try assumption; cbn [eL eR].
    + apply H.
    + right. right. exists p, q. auto.
    + intros t p' E. exfalso. symmetry in E. exact (kleft_kright _ _ E).
    + intros t q' E. exfalso. exact (kleft_kright _ _ E).
    + intros t p' E. destruct Hp as [->|Hp]; [|exact Hp]. apply kleft_inj in E. discriminate E.
    + intros t q' E. destruct Hq as [->|Hq]; [|exact Hq]. apply kright_inj in E. discriminate E.
  - eapply peq_trans; [apply through_edge; exact Hk|]. cbn [eL eR].
    rewrite (Lw_live g H k (Nat.lt_le_incl _ _ Hk) p Hp).
    rewrite (Rw_live g H (S k) q Hq).
    unfold pmul3, ext1. cbn [flat_map map app fst snd ew eop].
    rewrite cmul_1_l, cmul_1_r. apply peq_refl.
Qed.

Lemma skip_tests_low g k t p : mwf g ->
  has_edge k (eL (canonL k t p)) (kleft (t :: p)) g = entered (nth k g []) (kleft (t :: p)) /\
  has_edge_op k (eL (canonL k t p)) (kleft (t :: p)) (eop (canonL k t p)) g =
    entered (nth k g []) (kleft (t :: p)).
Proof.
  intro H. destruct (entered (nth k g []) (kleft (t :: p))) eqn:E.
  - apply entered_true in E. destruct E as (e & He & E). destruct (H k) as (H1 & _).
    destruct (ok_into_left k e t p (H1 e He) E) as [-> _].
    split; [apply has_edge_true|apply has_edge_op_true]; exists (canonL k t p); auto.
  - rewrite entered_false in E. split; apply not_true_is_false; intro E'.
    + apply has_edge_true in E'. destruct E' as (e & He & _ & E2). exact (E e He E2).
    + apply has_edge_op_true in E'. destruct E' as (e & He & _ & E2 & _). exact (E e He E2).
Qed.
Lemma skip_tests_high g k t q : mwf g ->
  has_edge k (kright (t :: q)) (eR (canonR k t q)) g = exited (nth k g []) (kright (t :: q)) /\
  has_edge_op k (kright (t :: q)) (eR (canonR k t q)) (eop (canonR k t q)) g =
    exited (nth k g []) (kright (t :: q)).
Proof.
  intro H. destruct (exited (nth k g []) (kright (t :: q))) eqn:E.
  - apply exited_true in E. destruct E as (e & He & E). destruct (H k) as (H1 & _).
    destruct (ok_outof_right k e t q (H1 e He) E) as [-> _].
    split; [apply has_edge_true|apply has_edge_op_true]; exists (canonR k t q); auto.
  - rewrite exited_false in E. split; apply not_true_is_false; intro E'.
    + apply has_edge_true in E'. destruct E' as (e & He & E1 & _). exact (E e He E1).
    + apply has_edge_op_true in E'. destruct E' as (e & He & E1 & _). exact (E e He E1).
Qed.

Lemma insert_low g k t p p' : mwf g -> (k < length g)%nat -> (tsite t <= k)%nat ->
  eL (canonL k t p) = kleft p' -> (p' = [] \/ entered (prevs g k) (kleft p') = true) ->
  let g' := if entered (nth k g []) (kleft (t :: p)) then g else add_edge k (canonL k t p) g in
  good g g' /\ entered (nth k g' []) (kleft (t :: p)) = true.
Proof.
  intros H Hk Hts Ep Hp. destruct (entered (nth k g []) (kleft (t :: p))) eqn:E; cbv zeta.
  - split; [apply good_refl; exact H|exact E].
  - split.
    { destruct (add_low g k t p H Hk Hts) as [M P].
      - intro Hin. rewrite entered_false in E. exact (E _ Hin (eR_canonL k t p)).
      - intros t' p'' E'. rewrite Ep in E' |- *. destruct Hp as [->|Hp]; [|exact Hp].
        apply kleft_inj in E'. discriminate E'.
      - split; [exact M|]. split; [exact P|apply add_edge_gle; exact Hk]. }
    rewrite nth_add_edge_same, entered_app by exact Hk.
    cbn [entered existsb]. rewrite eR_canonL, key_eqb_refl. apply orb_true_r.
Qed.
Lemma insert_high g k t q q' : mwf g -> (k < length g)%nat -> (k <= tsite t)%nat ->
  eR (canonR k t q) = kright q' -> (q' = [] \/ exited (nth (S k) g []) (kright q') = true) ->
  let g' := if exited (nth k g []) (kright (t :: q)) then g else add_edge k (canonR k t q) g in
  good g g' /\ exited (nth k g' []) (kright (t :: q)) = true.
Proof.
  intros H Hk Hts Eq Hq. destruct (exited (nth k g []) (kright (t :: q))) eqn:E; cbv zeta.
  - split; [apply good_refl; exact H|exact E].
  - split.
    { destruct (add_high g k t q H Hk Hts) as [M P].
      - intro Hin. rewrite exited_false in E. exact (E _ Hin (eL_canonR k t q)).
      - intros t' q'' E'. rewrite Eq in E' |- *. destruct Hq as [->|Hq]; [|exact Hq].
        apply kright_inj in E'. discriminate E'.
      - split; [exact M|]. split; [exact P|apply add_edge_gle; exact Hk]. }
    rewrite nth_add_edge_same by exact Hk. unfold exited. rewrite existsb_app.
    cbn [existsb]. rewrite eL_canonR, key_eqb_refl. apply orb_true_r.
Qed.

Lemma lstring_steps t p n : forall k g, mwf g -> (tsite t < k)%nat -> (k + n <= length g)%nat ->
  entered (prevs g k) (kleft (t :: p)) = true ->
  good g (add_string k n (kleft (t :: p)) (tstr t) g) /\
  entered (prevs (add_string k n (kleft (t :: p)) (tstr t) g) (k + n)) (kleft (t :: p)) = true.
Proof.
  induction n as [|n IH]; intros k g H Hts Hk He; cbn [add_string].
  - rewrite Nat.add_0_r. split; [apply good_refl; exact H|exact He].
  - destruct (skip_tests_low g k t p H) as [E _]. rewrite (canonL_after k t p Hts) in E. cbn [eL] in E.
    rewrite E, <- (canonL_after k t p Hts). clear E.
    destruct (insert_low g k t p (t :: p) H) as [Gd He1];
      [lia|lia|rewrite canonL_after by exact Hts; reflexivity|right; exact He|].
    destruct (IH (S k) _ (proj1 Gd)) as [Gd' He']; [lia|rewrite (good_len _ _ Gd); lia|exact He1|].
    replace (k + S n)%nat with (S k + n)%nat by lia.
    split; [eapply good_trans; eassumption|exact He'].
Qed.

(* first site behind the last operator of the left prefix p *)
Definition plo (p : list triple) : nat := match p with [] => 0%nat | t :: _ => S (tsite t) end.

Lemma lstring_ok g p upto : mwf g -> (plo p <= upto <= length g)%nat ->
  (p = [] \/ entered (prevs g (plo p)) (kleft p) = true) ->
  good g (lstring p upto g) /\ (p = [] \/ entered (prevs (lstring p upto g) upto) (kleft p) = true).
Proof.
  intros H Hu Hp. destruct p as [|t p]; cbn [lstring plo] in *.
  - split; [apply good_refl; exact H|left; reflexivity].
  - destruct Hp as [Hp|He]; [discriminate Hp|].
    destruct (lstring_steps t p (upto - tsite t - 1) (S (tsite t)) g H ltac:(lia) ltac:(lia) He) as [Gd Hent].
    replace (S (tsite t) + (upto - tsite t - 1))%nat with upto in Hent by lia. auto.
Qed.

Lemma add_skip_low g t p : mwf g -> (tsite t < length g)%nat ->
  (p = [] \/ entered (prevs g (tsite t)) (kleft p) = true) ->
  let g' := add_skip (tsite t) (mkE (kleft p) (kleft (t :: p)) (top t) c1) g in
  good g g' /\ entered (nth (tsite t) g' []) (kleft (t :: p)) = true.
Proof.
  intros H Hk Hp. unfold add_skip. cbn [eL eR eop].
  destruct (skip_tests_low g (tsite t) t p H) as [_ E]. rewrite canonL_at in E. cbn [eL eop] in E.
  rewrite E, <- canonL_at.
  apply (insert_low g (tsite t) t p p H Hk (Nat.le_refl _)); [rewrite canonL_at; reflexivity|exact Hp].
Qed.

Lemma ins_left_ok rest : forall p g sw, mwf g -> (plo p <= sw <= length g)%nat ->
  (p = [] \/ entered (prevs g (plo p)) (kleft p) = true) -> asc (plo p) rest sw = true ->
  good g (fst (ins_left p rest sw g)) /\
  snd (ins_left p rest sw g) = kleft (rev rest ++ p) /\
  (rev rest ++ p = [] \/
   entered (prevs (fst (ins_left p rest sw g)) sw) (kleft (rev rest ++ p)) = true).
Proof.
  induction rest as [|t rest IH]; intros p g sw H Hsw Hp Hasc; cbn [ins_left].
  - cbn [fst snd rev app]. destruct (lstring_ok g p sw H Hsw Hp) as [Gd He]. auto.
  - cbn [asc] in Hasc. apply andb_true_iff in Hasc. destruct Hasc as [Hasc Hrest].
    assert (Ht : (plo p <= tsite t < sw)%nat) by lia. clear Hasc.
    destruct (lstring_ok g p (tsite t) H ltac:(lia) Hp) as [Gd1 He1].
    destruct (add_skip_low _ t p (proj1 Gd1) ltac:(rewrite (good_len _ _ Gd1); lia) He1) as [Gd2 He2].
    destruct (IH (t :: p) _ sw (proj1 Gd2)) as (Gd3 & Ek & He3);
      [rewrite (good_len _ _ Gd2), (good_len _ _ Gd1); cbn [plo]; lia|right; exact He2|exact Hrest|].
    cbn [rev]. rewrite <- app_assoc. split; [|split; assumption].
    eapply good_trans; [exact Gd1|]. eapply good_trans; eassumption.
Qed.

(* the mirror image is written out, not obtained by reversing the graph: the model's two sides are not mirror
   images of each other (add_string counts the sites up from behind the operator, add_string_r counts down with pred;
   the neighbour of site k is prevs g k on the left, with no site before site 0, and nth (S k) g [] on the right) *)
Lemma exited_lt g k x : exited (nth k g []) x = true -> (k < length g)%nat.
Proof.
  intro H. destruct (Nat.lt_ge_cases k (length g)) as [|Hk]; [assumption|].
  rewrite nth_overflow in H by exact Hk. discriminate H.
Qed.

Lemma rstring_steps t q n : forall j g, mwf g -> (j <= tsite t)%nat -> (n <= j)%nat ->
  exited (nth j g []) (kright (t :: q)) = true ->
  good g (add_string_r j n (kright (t :: q)) (tstr t) g) /\
  exited (nth (j - n) (add_string_r j n (kright (t :: q)) (tstr t) g) []) (kright (t :: q)) = true.
Proof.
  induction n as [|n IH]; intros j g H Hts Hn He; cbn [add_string_r].
  - rewrite Nat.sub_0_r. split; [apply good_refl; exact H|exact He].
  - destruct j as [|j]; [lia|]. cbn [pred]. assert (Hj := exited_lt _ _ _ He).
    destruct (skip_tests_high g j t q H) as [E _]. rewrite (canonR_before j t q Hts) in E. cbn [eR] in E.
    rewrite E, <- (canonR_before j t q Hts). clear E.
    destruct (insert_high g j t q (t :: q) H) as [Gd He1];
      [lia|lia|rewrite canonR_before by exact Hts; reflexivity|right; exact He|].
    destruct (IH j _ (proj1 Gd)) as [Gd' He']; [lia|lia|exact He1|].
    replace (S j - S n)%nat with (j - n)%nat by lia.
    split; [eapply good_trans; eassumption|exact He'].
Qed.

(* site of the innermost (leftmost) operator of the right state q, L if there is none *)
Definition qhi (q : list triple) (L : nat) : nat := match q with [] => L | t :: _ => tsite t end.

Lemma rstring_ok g q downto : mwf g -> (downto < qhi q (length g))%nat ->
  (q = [] \/ exited (nth (qhi q (length g)) g []) (kright q) = true) ->
  good g (rstring q downto g) /\
  (q = [] \/ exited (nth (S downto) (rstring q downto g) []) (kright q) = true).
Proof.
  intros H Hd Hq. destruct q as [|t q]; cbn [rstring qhi] in *.
  - split; [apply good_refl; exact H|left; reflexivity].
  - destruct Hq as [Hq|He]; [discriminate Hq|].
    destruct (rstring_steps t q (tsite t - downto - 1) (tsite t) g H ltac:(lia) ltac:(lia) He) as [Gd Hex].
    replace (tsite t - (tsite t - downto - 1))%nat with (S downto) in Hex by lia. auto.
Qed.

Lemma add_skip_high g t q : mwf g -> (tsite t < length g)%nat ->
  (q = [] \/ exited (nth (S (tsite t)) g []) (kright q) = true) ->
  let g' := add_skip (tsite t) (mkE (kright (t :: q)) (kright q) (top t) c1) g in
  good g g' /\ exited (nth (tsite t) g' []) (kright (t :: q)) = true.
Proof.
  intros H Hk Hq. unfold add_skip. cbn [eL eR eop].
  destruct (skip_tests_high g (tsite t) t q H) as [_ E]. rewrite canonR_at in E. cbn [eR eop] in E.
  rewrite E, <- canonR_at.
  apply (insert_high g (tsite t) t q q H Hk (Nat.le_refl _)); [rewrite canonR_at; reflexivity|exact Hq].
Qed.

Lemma ins_right_ok rest : forall q g sw, mwf g -> (sw < qhi q (length g))%nat ->
  (q = [] \/ exited (nth (qhi q (length g)) g []) (kright q) = true) ->
  desc (qhi q (length g)) rest sw = true ->
  good g (fst (ins_right q rest sw g)) /\
  snd (ins_right q rest sw g) = kright (rev rest ++ q) /\
  (rev rest ++ q = [] \/
   exited (nth (S sw) (fst (ins_right q rest sw g)) []) (kright (rev rest ++ q)) = true).
Proof.
  induction rest as [|t rest IH]; intros q g sw H Hsw Hq Hdesc; cbn [ins_right].
  - cbn [fst snd rev app]. destruct (rstring_ok g q sw H Hsw Hq) as [Gd He]. auto.
  - cbn [desc] in Hdesc. apply andb_true_iff in Hdesc. destruct Hdesc as [Hd Hrest].
    assert (Ht : (sw < tsite t < qhi q (length g))%nat) by lia. clear Hd.
    assert (Hl : (tsite t < length g)%nat).
    { destruct Hq as [->|Hq]; [exact (proj2 Ht)|]. apply exited_lt in Hq. lia. }
    destruct (rstring_ok g q (tsite t) H ltac:(lia) Hq) as [Gd1 He1].
    destruct (add_skip_high _ t q (proj1 Gd1) ltac:(rewrite (good_len _ _ Gd1); exact Hl) He1) as [Gd2 He2].
    destruct (IH (t :: q) _ sw (proj1 Gd2)) as (Gd3 & Ek & He3);
      [cbn [qhi]; lia|right; exact He2|exact Hrest|].
    cbn [rev]. rewrite <- app_assoc. split; [|split; assumption].
    eapply good_trans; [exact Gd1|]. eapply good_trans; eassumption.
Qed.

Lemma mterm_ok_iff L t : mterm_ok L t = true <->
  (mt_sw t < L)%nat /\ asc 0 (mt_left t) (mt_sw t) = true /\ desc L (mt_right t) (mt_sw t) = true.
Proof. unfold mterm_ok. rewrite !andb_true_iff, Nat.ltb_lt. tauto. Qed.

Lemma add_mterm_cl g t : mwf g -> mterm_ok (length g) t = true ->
  mwf (add_mterm g t) /\ length (add_mterm g t) = length g /\
  peq (denote (cl (add_mterm g t))) (nf_mterm t :: denote (cl g)).
Proof.
  intros H Hok. apply mterm_ok_iff in Hok. destruct Hok as (Hsw & Hasc & Hdesc).
  unfold add_mterm.
  destruct (ins_left_ok (mt_left t) [] g (mt_sw t) H ltac:(cbn [plo]; lia) (or_introl eq_refl) Hasc)
    as (Gd1 & Ek1 & He1).
  destruct (ins_left [] (mt_left t) (mt_sw t) g) as [g1 kl]. cbn [fst snd] in *.
  assert (L1 := good_len _ _ Gd1).
  destruct (ins_right_ok (mt_right t) [] g1 (mt_sw t) (proj1 Gd1)) as (Gd2 & Ek2 & He2);
    [cbn [qhi]; lia|left; reflexivity|cbn [qhi]; rewrite L1; exact Hdesc|].
  destruct (ins_right [] (mt_right t) (mt_sw t) g1) as [g2 kr]. cbn [fst snd] in *.
  assert (L2 := good_len _ _ Gd2).
  rewrite app_nil_r in *. subst kl kr.
  assert (He1' : rev (mt_left t) = [] \/ entered (prevs g2 (mt_sw t)) (kleft (rev (mt_left t))) = true).
  { destruct He1 as [E|E]; [left; exact E|right]. apply (entered_prevs_gle g1); [apply Gd2|exact E]. }
  destruct (add_conn g2 (mt_sw t) (rev (mt_left t)) (rev (mt_right t)) (mt_op t) (mt_w t) (proj1 Gd2)
              ltac:(lia) He1' He2) as [M P].
  split; [exact M|]. split; [rewrite length_add_edge; lia|].
  eapply peq_trans; [exact P|].
  eapply peq_trans; [apply peq_perm; apply Permutation_sym; apply Permutation_cons_append|].
  apply peq_cons. eapply peq_trans; [apply Gd2|apply Gd1].
Qed.

Lemma add_to_graph_multi g t : mwf g -> mterm_ok (length g) t = true ->
  mwf (add_mterm g t) /\
  peq (denote (close (add_mterm g t))) (nf_mterm t :: denote (close g)).
Proof.
  intros H Hok. destruct (add_mterm_cl g t H Hok) as (M & _ & P).
  split; [exact M|]. rewrite (close_mwf _ M), (close_mwf _ H). exact P.
Qed.

Lemma length_add_mterm g t : mwf g -> mterm_ok (length g) t = true -> length (add_mterm g t) = length g.
Proof. intros H Hok. apply (add_mterm_cl g t H Hok). Qed.

Lemma mwf_empty L : mwf (empty_graph L).
Proof.
  intro k. unfold empty_graph. rewrite !nth_repeat.
  assert (E : prevs (repeat [] L) k = []) by (destruct k; [reflexivity|apply nth_repeat]).
  rewrite E. unfold site_ok. cbn [In into outof filter length]. repeat split; try contradiction; lia.
Qed.

Lemma fold_mterms L mts : forall g, mwf g -> length g = L -> forallb (mterm_ok L) mts = true ->
  mwf (fold_left add_mterm mts g) /\
  peq (denote (close (fold_left add_mterm mts g))) (denote (close g) ++ map nf_mterm mts).
Proof.
  induction mts as [|t mts IH]; intros g H HL Hok; cbn [fold_left map].
  - split; [exact H|]. rewrite app_nil_r. apply peq_refl.
  - cbn [forallb] in Hok. apply andb_true_iff in Hok. destruct Hok as [Ht Hok]. rewrite <- HL in Ht.
    destruct (add_to_graph_multi g t H Ht) as [M P].
    destruct (IH (add_mterm g t) M ltac:(rewrite length_add_mterm; assumption) Hok) as [M' P'].
    split; [exact M'|]. eapply peq_trans; [exact P'|].
    eapply peq_trans; [apply peq_app; [exact P|apply peq_refl]|].
    apply peq_perm. cbn [app]. apply Permutation_middle.
Qed.

Lemma fold_as_mterm {T} (add : graph -> T -> graph) (f : T -> mterm) : (forall g t, add g t = add_mterm g (f t)) ->
  forall ts g, fold_left add ts g = fold_left add_mterm (map f ts) g.
Proof. intros H ts. induction ts as [|t ts IH]; intro g; cbn [fold_left map]; [reflexivity|]. rewrite H. apply IH. Qed.

Lemma cterm_ok_mterm L t : cterm_ok L t = true -> mterm_ok L (mterm_of_cterm t) = true.
Proof.
  unfold cterm_ok, mterm_ok, mterm_of_cterm. cbn [mt_sw mt_left mt_right asc desc tsite fst]. lia.
Qed.
Lemma oterm_ok_mterm L t : oterm_ok L t = true -> mterm_ok L (mterm_of_oterm t) = true.
Proof.
  unfold oterm_ok, mterm_ok, mterm_of_oterm. cbn [mt_sw mt_left mt_right asc desc]. lia.
Qed.

Lemma from_terms_m_all L ots cts mts :
  forallb (oterm_ok L) ots = true -> forallb (cterm_ok L) cts = true -> forallb (mterm_ok L) mts = true ->
  mwf (fold_left add_mterm mts (fold_left add_cterm cts (fold_left add_oterm ots (empty_graph L)))) /\
  peq (denote (from_terms_m L ots cts mts)) (map nf_oterm ots ++ map nf_cterm cts ++ map nf_mterm mts).
Proof.
  intros Ho Hc Hm. unfold from_terms_m.
  rewrite (fold_as_mterm _ _ add_oterm_as_mterm), (fold_as_mterm _ _ add_cterm_as_mterm), <- !fold_left_app.
  destruct (fold_mterms L (map mterm_of_oterm ots ++ map mterm_of_cterm cts ++ mts) (empty_graph L))
    as [M P].
  - apply mwf_empty.
  - apply repeat_length.
  - rewrite !forallb_app. rewrite (forallb_map _ _ _ _ (oterm_ok_mterm L) Ho).
    rewrite (forallb_map _ _ _ _ (cterm_ok_mterm L) Hc), Hm. reflexivity.
  - split; [exact M|]. eapply peq_trans; [exact P|]. rewrite denote_empty. cbn [app].
    rewrite !map_app, !map_map.
    assert (E : map nf_cterm cts = map (fun t => nf_mterm (mterm_of_cterm t)) cts)
      by (apply map_ext; exact nf_cterm_as_mterm).
    rewrite E. apply peq_refl.
Qed.

Lemma from_terms_m_denote L ots cts mts :
  forallb (oterm_ok L) ots = true -> forallb (cterm_ok L) cts = true -> forallb (mterm_ok L) mts = true ->
  peq (denote (from_terms_m L ots cts mts)) (map nf_oterm ots ++ map nf_cterm cts ++ map nf_mterm mts).
Proof. intros Ho Hc Hm. apply (from_terms_m_all L ots cts mts Ho Hc Hm). Qed.

Lemma from_terms_m_nil L ots cts : from_terms_m L ots cts [] = from_terms L ots cts.
Proof. reflexivity. Qed.

Lemma multi_key_names :
  (forall p p', kleft p = kleft p' -> p = p') /\ (forall q q', kright q = kright q' -> q = q') /\
  (forall p q, kleft p <> kright q) /\ kleft [] = IdL /\ kright [] = IdR /\
  (forall i a s, kleft [(i, a, s)] = Lbl i a s).
Proof.
  split; [intros p p'; apply kleft_inj|]. split; [intros q q'; apply kright_inj|].
  split; [apply kleft_kright|]. split; [apply kleft_IdL|]. split; [apply kright_IdR|].
  intros i a s. apply (kleft_single (i, a, s)).
Qed.

Lemma multi_special_cases :
  (forall g t, add_cterm g t = add_mterm g (mterm_of_cterm t)) /\
  (forall g t, add_oterm g t = add_mterm g (mterm_of_oterm t)) /\
  (forall t, nf_cterm t = nf_mterm (mterm_of_cterm t)) /\
  (forall t, nf_oterm t = nf_mterm (mterm_of_oterm t)) /\
  (forall L t, cterm_ok L t = true -> mterm_ok L (mterm_of_cterm t) = true) /\
  (forall L t, oterm_ok L t = true -> mterm_ok L (mterm_of_oterm t) = true).
Proof.
  split; [exact add_cterm_as_mterm|]. split; [exact add_oterm_as_mterm|].
  split; [exact nf_cterm_as_mterm|]. split; [exact nf_oterm_as_mterm|].
  split; [exact cterm_ok_mterm|exact oterm_ok_mterm].
Qed.

(* examples: A0 s9 B2 C3 D5  +  A0 s9 B2 s2 C4 D5 (shared left states, shared right state of D5),
   a two-site term entered as multi term, a term without left part; L = 6 *)
Definition ex_mts : list mterm :=
  [ split_term [(0%nat, 5); (2%nat, 6); (3%nat, 7); (5%nat, 8)] [9; 0; 0] 3 (3, 1);
    split_term [(0%nat, 5); (2%nat, 6); (4%nat, 7); (5%nat, 8)] [9; 2; 0] 3 (1, 0);
    mkMT [(0%nat, 5, 9)] [] 2 6 (2, 0);
    mkMT [] [(3%nat, 4, 1)] 1 5 (0, 1) ].

Example ex_split_term :
  split_term [(0%nat, 5); (2%nat, 6); (4%nat, 7); (5%nat, 8)] [9; 2; 0] 3 (1, 0) =
    mkMT [(0%nat, 5, 9); (2%nat, 6, 2)] [(5%nat, 8, 0); (4%nat, 7, 2)] 3 2 (1, 0) /\
  nf_mterm (split_term [(0%nat, 5); (2%nat, 6); (4%nat, 7); (5%nat, 8)] [9; 2; 0] 3 (1, 0)) =
    ((1, 0), term_word [(0%nat, 5); (2%nat, 6); (4%nat, 7); (5%nat, 8)] [9; 2; 0]) /\
  nf_mterm (split_term [(0%nat, 5); (2%nat, 6); (3%nat, 7); (5%nat, 8)] [9; 0; 0] 3 (3, 1)) =
    ((3, 1), term_word [(0%nat, 5); (2%nat, 6); (3%nat, 7); (5%nat, 8)] [9; 0; 0]).
Proof. vm_compute. repeat split; reflexivity. Qed.

Example ex_multi_ok : forallb (mterm_ok 6) ex_mts = true.
Proof. vm_compute. reflexivity. Qed.

Example ex_multi_mwf : mwf (fold_left add_mterm ex_mts (empty_graph 6)).
Proof.
  apply (fold_mterms 6 ex_mts (empty_graph 6)); [apply mwf_empty|apply repeat_length|exact ex_multi_ok].
Qed.

Example ex_from_terms_m :
  let g := from_terms_m 6 [mkOT 1 4 (7, 0)] [mkCT 0 5 9 3 7 (1, 1)] ex_mts in
  std_form g = true /\ map (@length edge) g = [3; 5; 7; 6; 4; 3]%nat /\
  normalize (denote g) =
    [((2, 0), [(0%nat, 5); (1%nat, 9); (2%nat, 6)]);
     ((1, 0), [(0%nat, 5); (1%nat, 9); (2%nat, 6); (3%nat, 2); (4%nat, 7); (5%nat, 8)]);
     ((3, 1), [(0%nat, 5); (1%nat, 9); (2%nat, 6); (3%nat, 7); (5%nat, 8)]);
     ((1, 1), [(0%nat, 5); (1%nat, 9); (2%nat, 9); (3%nat, 7)]);
     ((7, 0), [(1%nat, 4)]); ((0, 1), [(1%nat, 5); (2%nat, 1); (3%nat, 4)])] /\
  peqb (denote g) (map nf_oterm [mkOT 1 4 (7, 0)] ++ map nf_cterm [mkCT 0 5 9 3 7 (1, 1)] ++
                   map nf_mterm ex_mts) = true.
Proof. vm_compute. repeat split; reflexivity. Qed.

Print Assumptions add_to_graph_multi.
Print Assumptions from_terms_m_all.
Print Assumptions multi_key_names.
