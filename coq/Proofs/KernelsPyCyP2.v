(* Block merge of iadd_prefactor_other (Model/KernelsPyCy2.v).  One iteration is the same merge_step in both loops, so with fuel for
   the measure (Na-i)+(Nb-j) both return the rows and tags of one merge_run (merge_runs); what the merge does on lexsorted operands
   is an induction over the run.  The F-key is the mixed-radix value of a row, hence injective and ordered like lexsort on in-range
   rows. *)
From TenpyV Require Import Base.Prelude Base.Lists Model.KernelsPyCy Model.KernelsPyCy2 Proofs.KernelsPyCyP.
Open Scope Z_scope.

Lemma seq_head i N : (i < N)%nat -> seq i (N - i) = i :: seq (S i) (N - S i).
Proof. intros H. replace (N - i)%nat with (S (N - S i)) by lia. reflexivity. Qed.

Lemma Forall2_map_same {A B C} (R : B -> C -> Prop) (f : A -> B) (g : A -> C) l :
  Forall (fun x => R (f x) (g x)) l -> Forall2 R (map f l) (map g l).
Proof. induction 1; constructor; assumption. Qed.

Lemma copy_row_id rank row : length row = rank -> copy_row rank row = row.
Proof. intros <-. unfold copy_row, nthZ. apply map_nth_seq. Qed.

(* set_row at `length tbl` appends (model convention), so merge_runs does not use the size of the table *)
Lemma set_row_app (done rest : list (list Z)) row :
  set_row (done ++ rest) (length done) row = (done ++ [row]) ++ tl rest.
Proof.
  unfold set_row. rewrite <- app_assoc. destruct rest as [|r rest]; cbn [tl app]; [|apply write_app].
  rewrite app_nil_r, firstn_all, skipn_all2 by lia. reflexivity.
Qed.

Inductive merge_step (ak bk : list Z) (Na Nb i j : nat) : nat -> nat -> which -> Prop :=
| step_both : (i < Na)%nat -> (j < Nb)%nat -> nthZ ak i = nthZ bk j ->
    merge_step ak bk Na Nb i j (S i) (S j) (Both i j)
| step_b : (j < Nb)%nat -> ((i < Na)%nat -> nthZ bk j < nthZ ak i) ->
    merge_step ak bk Na Nb i j i (S j) (OnlyB j)
| step_a : (i < Na)%nat -> ((j < Nb)%nat -> nthZ ak i < nthZ bk j) ->
    merge_step ak bk Na Nb i j (S i) j (OnlyA i).

Definition row_of (aq bq : list (list Z)) (t : which) : list Z :=
  match t with Both i _ | OnlyA i => rowZ aq i | OnlyB j => rowZ bq j end.

Lemma merge_unfold_step ak bk aq bq i j :
  (i <? length aq)%nat || (j <? length bq)%nat = true ->
  exists i' j' t, merge_step ak bk (length aq) (length bq) i j i' j' t
    /\ (forall f qd dt, merge_py (S f) ak bk aq bq i j qd dt
                        = merge_py f ak bk aq bq i' j' (qd ++ [row_of aq bq t]) (dt ++ [t]))
    /\ (forall f rank tbl n dt, merge_cy (S f) rank ak bk aq bq i j tbl n dt
          = merge_cy f rank ak bk aq bq i' j' (set_row tbl n (copy_row rank (row_of aq bq t))) (S n) (dt ++ [t])).
Proof.
  intros E0. cbn [merge_py merge_cy]. rewrite E0.
  destruct ((i <? length aq)%nat && (j <? length bq)%nat && (nthZ ak i =? nthZ bk j)) eqn:E1.
  { exists (S i), (S j), (Both i j). split; [constructor; lia|split; reflexivity]. }
  destruct ((length aq <=? i)%nat || ((j <? length bq)%nat && (nthZ ak i >? nthZ bk j))) eqn:E2.
  { exists i, (S j), (OnlyB j). split; [constructor; lia|split; reflexivity]. }
  destruct ((length bq <=? j)%nat || (nthZ ak i <? nthZ bk j)) eqn:E3; [|exfalso; lia].
  exists (S i), j, (OnlyA i). split; [constructor; lia|split; reflexivity].
Qed.

Lemma merge_py_done ak bk aq bq i j f qd dt :
  (i <? length aq)%nat || (j <? length bq)%nat = false -> merge_py f ak bk aq bq i j qd dt = Some (qd, dt).
Proof. intros E0. destruct f; cbn [merge_py]; rewrite E0; reflexivity. Qed.

Lemma merge_cy_done ak bk aq bq i j f rank tbl n dt :
  (i <? length aq)%nat || (j <? length bq)%nat = false ->
  merge_cy f rank ak bk aq bq i j tbl n dt = Some (firstn n tbl, dt).
Proof. intros E0. destruct f; cbn [merge_cy]; rewrite E0; reflexivity. Qed.

Lemma merge_step_measure ak bk Na Nb i j i' j' t : merge_step ak bk Na Nb i j i' j' t ->
  (S (Na - i' + (Nb - j')) <= Na - i + (Nb - j))%nat.
Proof. intros St. destruct St; lia. Qed.

Lemma merge_step_indices ak bk Na Nb i j i' j' t w : merge_step ak bk Na Nb i j i' j' t ->
  a_indices w = seq i' (Na - i') -> b_indices w = seq j' (Nb - j') ->
  a_indices (t :: w) = seq i (Na - i) /\ b_indices (t :: w) = seq j (Nb - j).
Proof.
  unfold a_indices, b_indices. intros St Ha Hb. destruct St; cbn [flat_map app]; rewrite Ha, Hb.
  - rewrite (seq_head i Na), (seq_head j Nb) by assumption. split; reflexivity.
  - rewrite (seq_head j Nb) by assumption. split; reflexivity.
  - rewrite (seq_head i Na) by assumption. split; reflexivity.
Qed.

Lemma rowZ_Forall (P : list Z -> Prop) q i : Forall P q -> (i < length q)%nat -> P (rowZ q i).
Proof. intros H Hi. rewrite Forall_forall in H. apply H, nth_In, Hi. Qed.

Lemma merge_step_Forall (P : list Z -> Prop) ak bk aq bq i j i' j' t :
  Forall P aq -> Forall P bq -> merge_step ak bk (length aq) (length bq) i j i' j' t -> P (row_of aq bq t).
Proof. intros Ha Hb St. destruct St; cbn [row_of]; apply rowZ_Forall; assumption. Qed.

(* the tags of a whole run of the loop from (i, j) *)
Inductive merge_run (ak bk : list Z) (Na Nb : nat) : nat -> nat -> list which -> Prop :=
| run_done i j : (Na <= i)%nat -> (Nb <= j)%nat -> merge_run ak bk Na Nb i j []
| run_step i j i' j' t w : merge_step ak bk Na Nb i j i' j' t -> merge_run ak bk Na Nb i' j' w ->
    merge_run ak bk Na Nb i j (t :: w).

Lemma merge_runs ak bk aq bq : forall fuel i j,
  (length aq - i + (length bq - j) <= fuel)%nat ->
  exists w, merge_run ak bk (length aq) (length bq) i j w
    /\ (forall qd dt, merge_py fuel ak bk aq bq i j qd dt = Some (qd ++ map (row_of aq bq) w, dt ++ w))
    /\ (forall rank, Forall (fun r => length r = rank) aq -> Forall (fun r => length r = rank) bq ->
        forall done rest dt, merge_cy fuel rank ak bk aq bq i j (done ++ rest) (length done) dt
                             = Some (done ++ map (row_of aq bq) w, dt ++ w)).
Proof.
  induction fuel as [|f IH]; intros i j Hf;
    (destruct ((i <? length aq)%nat || (j <? length bq)%nat) eqn:E0;
      [|exists []; split; [constructor; lia|]; split; intros;
        [rewrite merge_py_done by exact E0|rewrite merge_cy_done, firstn_app_len by exact E0]; rewrite !app_nil_r; reflexivity]).
  - exfalso. lia.
  - destruct (merge_unfold_step ak bk aq bq i j E0) as (i' & j' & t & St & Epy & Ecy).
    destruct (IH i' j') as (w & R & Hpy & Hcy); [apply merge_step_measure in St; lia|].
    exists (t :: w). split; [exact (run_step _ _ _ _ _ _ _ _ _ _ St R)|]. split.
    + intros qd dt. rewrite Epy, Hpy, <- !app_assoc. reflexivity.
    + intros rank Ha Hb done rest dt. rewrite Ecy, copy_row_id by exact (merge_step_Forall _ _ _ _ _ _ _ _ _ _ Ha Hb St).
      rewrite set_row_app, <- (last_length done (row_of aq bq t)), (Hcy rank Ha Hb), <- !app_assoc. reflexivity.
Qed.

Lemma iadd_merge_eq junk rank stride aq bq :
  Forall (fun r => length r = rank) aq -> Forall (fun r => length r = rank) bq ->
  iadd_merge_cy junk rank stride aq bq = iadd_merge_py stride aq bq.
Proof.
  intros Ha Hb. unfold iadd_merge_cy, iadd_merge_py. destruct (same_qdata aq bq); [reflexivity|].
  destruct (merge_runs (fkeys stride aq) (fkeys stride bq) aq bq (length aq + length bq) 0 0) as (w & _ & Hpy & Hcy); [lia|].
  rewrite Hpy. exact (Hcy rank Ha Hb [] _ []).
Qed.

Lemma iadd_merge_total stride aq bq : iadd_merge_py stride aq bq <> None.
Proof.
  unfold iadd_merge_py. destruct (same_qdata aq bq); [discriminate|].
  destruct (merge_runs (fkeys stride aq) (fkeys stride bq) aq bq (length aq + length bq) 0 0) as (w & _ & Hpy & _); [lia|].
  rewrite Hpy. discriminate.
Qed.

Lemma fkey_nil_l stride : fkey stride [] = 0.
Proof. reflexivity. Qed.

Lemma fkey_cons s st x r : fkey (s :: st) (x :: r) = x * s + fkey st r.
Proof. reflexivity. Qed.

Lemma fkey_scale : forall shape s row,
  fkey (fstr_from s shape) row = s * fkey (fstr_from 1 shape) row.
Proof.
  induction shape as [|n t IH]; intros s [|x r]; cbn [fstr_from]; try (unfold fkey; cbn [row_map2 sumZ]; lia).
  rewrite !fkey_cons, (IH (s * n)), (IH (1 * n)). lia.
Qed.

Lemma fkey_step n t x r : fkey (fstrides (n :: t)) (x :: r) = x + n * fkey (fstrides t) r.
Proof.
  unfold fstrides. cbn [fstr_from]. rewrite fkey_cons, (fkey_scale t (1 * n)). lia.
Qed.

Lemma fkey_nonneg : forall shape row, in_bounds shape row -> 0 <= fkey (fstrides shape) row.
Proof.
  induction shape as [|n t IH]; intros [|x r] H; cbn [in_bounds] in H; try contradiction.
  - unfold fkey; cbn; lia.
  - destruct H as [Hx Hr]. rewrite fkey_step. specialize (IH r Hr). nia.
Qed.

Lemma fkey_inj : forall shape r1 r2, in_bounds shape r1 -> in_bounds shape r2 ->
  fkey (fstrides shape) r1 = fkey (fstrides shape) r2 -> r1 = r2.
Proof.
  induction shape as [|n t IH]; intros [|x r1] [|y r2] H1 H2 E; cbn [in_bounds] in H1, H2; try contradiction.
  - reflexivity.
  - destruct H1 as [Hx H1], H2 as [Hy H2]. rewrite !fkey_step in E.
    assert (Ek : fkey (fstrides t) r1 = fkey (fstrides t) r2) by nia.
    rewrite (IH r1 r2 H1 H2 Ek). f_equal. nia.
Qed.

Lemma fkey_lt_iff : forall shape r1 r2, in_bounds shape r1 -> in_bounds shape r2 ->
  (fkey (fstrides shape) r1 < fkey (fstrides shape) r2 <-> lexlt r1 r2).
Proof.
  induction shape as [|n t IH]; intros [|x r1] [|y r2] H1 H2; cbn [in_bounds] in H1, H2; try contradiction.
  - cbn [lexlt]. unfold fkey; cbn. lia.
  - destruct H1 as [Hx H1], H2 as [Hy H2]. rewrite !fkey_step. cbn [lexlt].
    specialize (IH r1 r2 H1 H2). split.
    + intros Hlt.
      destruct (Z.lt_trichotomy (fkey (fstrides t) r1) (fkey (fstrides t) r2)) as [L|[E|G]].
      * left. apply IH. exact L.
      * right. split; [exact (fkey_inj t r1 r2 H1 H2 E)|nia].
      * exfalso. nia.
    + intros [L|[E L]].
      * apply IH in L. nia.
      * subst r2. lia.
Qed.

Lemma lexsorted_keys shape : forall q, Forall (in_bounds shape) q ->
  (lexsorted q <-> strictly_inc (fkeys (fstrides shape) q)).
Proof.
  induction q as [|r1 q IH]; intros HF; [reflexivity|].
  destruct q as [|r2 q]; [reflexivity|].
  inversion HF as [|? ? H1 HF']; subst. inversion HF' as [|? ? H2 _]; subst.
  split; intros [L Hs]; (split; [apply (fkey_lt_iff shape); assumption|apply (IH HF'); exact Hs]).
Qed.

Lemma strictly_inc_tl x l : strictly_inc (x :: l) -> strictly_inc l.
Proof. destruct l; [intros; exact I|intros [_ H]; exact H]. Qed.

Lemma strictly_inc_ss l : strictly_inc l -> StronglySorted Z.lt l.
Proof.
  intros H. apply Sorted_StronglySorted; [exact Z.lt_trans|].
  induction l as [|x [|y l] IH]; [constructor|repeat constructor|]. constructor; [apply IH|constructor]; apply H.
Qed.

Lemma strictly_inc_adj l i : strictly_inc l -> (S i < length l)%nat -> nthZ l i < nthZ l (S i).
Proof. intros H Hi. apply (ss_nth Z.lt l 0 (strictly_inc_ss l H)); [lia|exact Hi]. Qed.

Lemma strictly_inc_NoDup l : strictly_inc l -> NoDup l.
Proof. intros H. apply (ss_nodup Z.lt); [intros x; lia|apply strictly_inc_ss, H]. Qed.

Lemma keys_NoDup stride q : strictly_inc (fkeys stride q) -> NoDup q.
Proof. intros H. exact (NoDup_map_inv _ _ (strictly_inc_NoDup _ H)). Qed.

Section MergeSpec.
  Variables (key : list Z -> Z) (P : list Z -> Prop) (aq bq : list (list Z)).
  Hypothesis key_inj : forall r1 r2, P r1 -> P r2 -> key r1 = key r2 -> r1 = r2.
  Hypothesis Pa : Forall P aq.
  Hypothesis Pb : Forall P bq.
  Hypothesis Hsa : strictly_inc (map key aq).
  Hypothesis Hsb : strictly_inc (map key bq).

  Lemma key_nth q i : (i < length q)%nat -> nthZ (map key q) i = key (rowZ q i).
  Proof. exact (nth_map_default key q i [] 0). Qed.

  Lemma merge_step_row i j i' j' t : merge_step (map key aq) (map key bq) (length aq) (length bq) i j i' j' t ->
    row_ok aq bq (row_of aq bq t) t /\ P (row_of aq bq t)
    /\ key (row_of aq bq t) = key_of (map key aq) (map key bq) t.
  Proof.
    intros St. destruct St as [Hi Hj Ek|Hj _|Hi _]; cbn [row_of row_ok key_of]; rewrite ?key_nth in * by assumption.
    - pose proof (rowZ_Forall P aq i Pa Hi) as Ia. pose proof (rowZ_Forall P bq j Pb Hj) as Ib.
      repeat split; [exact (key_inj _ _ Ia Ib Ek)|exact Ia].
    - repeat split. exact (rowZ_Forall P bq j Pb Hj).
    - repeat split. exact (rowZ_Forall P aq i Pa Hi).
  Qed.

  Lemma merge_step_keys i j i' j' t k0 :
    merge_step (map key aq) (map key bq) (length aq) (length bq) i j i' j' t ->
    ((i < length aq)%nat -> k0 < nthZ (map key aq) i) -> ((j < length bq)%nat -> k0 < nthZ (map key bq) j) ->
    k0 < key_of (map key aq) (map key bq) t
    /\ ((i' < length aq)%nat -> key_of (map key aq) (map key bq) t < nthZ (map key aq) i')
    /\ ((j' < length bq)%nat -> key_of (map key aq) (map key bq) t < nthZ (map key bq) j').
  Proof.
    intros St Ha Hb.
    pose proof (strictly_inc_adj _ i Hsa) as Xa. pose proof (strictly_inc_adj _ j Hsb) as Xb.
    rewrite map_length in Xa, Xb. destruct St; cbn [key_of]; lia.
  Qed.

  (* k0: a strict lower bound of the keys still to come, so that the output keys are known to increase *)
  Lemma merge_run_spec i j w : merge_run (map key aq) (map key bq) (length aq) (length bq) i j w -> forall k0,
    ((i < length aq)%nat -> k0 < nthZ (map key aq) i) -> ((j < length bq)%nat -> k0 < nthZ (map key bq) j) ->
    a_indices w = seq i (length aq - i) /\ b_indices w = seq j (length bq - j)
    /\ Forall2 (row_ok aq bq) (map (row_of aq bq) w) w /\ Forall P (map (row_of aq bq) w)
    /\ strictly_inc (k0 :: map key (map (row_of aq bq) w)).
  Proof.
    induction 1 as [i j Hi Hj|i j i' j' t w St _ IH]; intros k0 Hka Hkb.
    - replace (length aq - i)%nat with 0%nat by lia. replace (length bq - j)%nat with 0%nat by lia. repeat split; constructor.
    - destruct (merge_step_keys _ _ _ _ _ k0 St Hka Hkb) as (Hk & Hka' & Hkb').
      destruct (merge_step_row _ _ _ _ _ St) as (Hok & HP & Ekey).
      destruct (IH _ Hka' Hkb') as (Hai & Hbi & Hrows & HPq & Hinc).
      destruct (merge_step_indices _ _ _ _ _ _ _ _ _ w St Hai Hbi) as [Ha Hb].
      split; [exact Ha|]. split; [exact Hb|]. split; [constructor; assumption|]. split; [constructor; assumption|].
      cbn [map]. rewrite Ekey. exact (conj Hk Hinc).
  Qed.
End MergeSpec.

Lemma In_seq_flat_a w i : In i (a_indices w) ->
  exists t, In t w /\ (match t with Both i' _ => i' = i | OnlyA i' => i' = i | OnlyB _ => False end).
Proof.
  unfold a_indices. rewrite in_flat_map. intros (t & Ht & Hi). exists t. split; [exact Ht|].
  destruct t; cbn in Hi; intuition.
Qed.

Lemma llz_eqb_true a b : llz_eqb a b = true -> a = b.
Proof. unfold llz_eqb. destruct (list_eq_dec _ a b); [auto|discriminate]. Qed.

Lemma indices_both l : a_indices (map (fun i => Both i i) l) = l /\ b_indices (map (fun i => Both i i) l) = l.
Proof.
  unfold a_indices, b_indices. induction l as [|i l [IHa IHb]]; cbn [map flat_map app]; [split; reflexivity|].
  rewrite IHa, IHb. split; reflexivity.
Qed.

Lemma iadd_merge_spec shape aq bq :
  Forall (in_bounds shape) aq -> Forall (in_bounds shape) bq -> lexsorted aq -> lexsorted bq ->
  exists q w, iadd_merge_py (fstrides shape) aq bq = Some (q, w)
    /\ a_indices w = seq 0 (length aq) /\ b_indices w = seq 0 (length bq)
    /\ Forall2 (row_ok aq bq) q w
    /\ Forall (in_bounds shape) q /\ lexsorted q /\ NoDup q.
Proof.
  intros Ha Hb Sa Sb. unfold iadd_merge_py.
  pose proof (proj1 (lexsorted_keys shape aq Ha) Sa) as Ka. pose proof (proj1 (lexsorted_keys shape bq Hb) Sb) as Kb.
  destruct (same_qdata aq bq) eqn:Esame.
  - apply andb_prop in Esame. destruct Esame as [_ E]. apply llz_eqb_true in E. subst bq.
    exists aq, (map (fun i => Both i i) (seq 0 (length aq))). split; [reflexivity|].
    destruct (indices_both (seq 0 (length aq))) as [-> ->].
    pose proof (Forall2_map_same (row_ok aq aq) (fun i => nth i aq []) (fun i => Both i i) (seq 0 (length aq))) as H.
    rewrite map_nth_seq in H.
    repeat split; try assumption; [|exact (keys_NoDup _ aq Ka)].
    apply H, Forall_forall. intros i _. split; reflexivity.
  - set (key := fkey (fstrides shape)).
    (* the first k0: one below both first keys.  nthZ of an empty table is 0, which does no harm: the two premises on k0 are
       guarded by 0 < length *)
    destruct (merge_runs (map key aq) (map key bq) aq bq (length aq + length bq) 0 0) as (w & R & Hpy & _); [lia|].
    destruct (merge_run_spec key _ aq bq (fkey_inj shape) Ha Hb Ka Kb 0 0 w R (Z.min (nthZ (map key aq) 0) (nthZ (map key bq) 0) - 1))
      as (Hai & Hbi & Hrows & Hq & Hinc); try lia.
    rewrite Nat.sub_0_r in Hai, Hbi. apply strictly_inc_tl in Hinc. set (q := map (row_of aq bq) w) in *.
    exists q, w. split; [apply Hpy|]. repeat split; try assumption.
    + apply (lexsorted_keys shape q Hq), Hinc.
    + exact (keys_NoDup _ q Hinc).
Qed.

Lemma iadd_merge_unsorted_dup :
  exists shape aq bq q w, Forall (in_bounds shape) aq /\ Forall (in_bounds shape) bq /\ lexsorted bq
    /\ iadd_merge_py (fstrides shape) aq bq = Some (q, w) /\ ~ NoDup q.
Proof.
  exists [2; 2], [[0; 1]; [1; 0]], [[1; 0]], [[1; 0]; [0; 1]; [1; 0]], [OnlyB 0%nat; OnlyA 0%nat; OnlyA 1%nat].
  split; [repeat constructor; cbn; lia|]. split; [repeat constructor; cbn; lia|].
  split; [exact I|]. split; [vm_compute; reflexivity|].
  intros ND. inversion ND as [|? ? Hn _]; subst. apply Hn. cbn. auto.
Qed.
