(* Every configuration of the regenerated table Gen/G_sites.v passes the checks of Model/SiteTab.v, by computation +
   forallb_forall (finite domain: the bound "In c all_configs" is in the statements); and the entrywise Prop-level reading
   of the boolean checks. *)
From TenpyV Require Import Base.Prelude Base.Lists Model.SiteTab Gen.G_sites.
From Coq Require Import String.
Open Scope Z_scope.

Lemma perm_in : forall c, In c all_configs -> check_perm all_configs c = true.
Proof. apply (proj1 (forallb_forall (check_perm all_configs) all_configs)). vm_compute. reflexivity. Qed.
Lemma charges_in : forall c, In c all_configs -> check_charges c = true.
Proof. apply (proj1 (forallb_forall check_charges all_configs)). vm_compute. reflexivity. Qed.
Lemma jw_in : forall c, In c all_configs -> check_jw c = true.
Proof. apply (proj1 (forallb_forall check_jw all_configs)). vm_compute. reflexivity. Qed.
Lemma coverage :
  6 <= count_class all_configs "SpinHalfSite" /\ 24 <= count_class all_configs "SpinSite" /\
  9 <= count_class all_configs "FermionSite" /\ 18 <= count_class all_configs "SpinHalfFermionSite" /\
  18 <= count_class all_configs "SpinHalfHoleSite" /\ 32 <= count_class all_configs "BosonSite" /\
  8 <= count_class all_configs "ClockSite".
Proof. vm_compute. repeat split; discriminate. Qed.

Lemma entry_eqb_iff x y : entry_eqb x y = true <-> x = y.
Proof.
  destruct x as [[[a b] c] d], y as [[[a' b'] c'] d']. unfold entry_eqb, e_r, e_c, e_a, e_b. cbn [fst snd].
  rewrite !andb_true_iff, !Z.eqb_eq. split; [intros [[[-> ->] ->] ->]; reflexivity | intros [= -> -> -> ->]; auto].
Qed.

Lemma ents_eqb_eq l1 l2 : ents_eqb l1 l2 = true -> l1 = l2.
Proof. exact (proj1 (forall2b_eq_spec entry_eqb entry_eqb_iff l1 l2)). Qed.

Lemma same_operator all c o : check_perm all c = true -> In o (c_ops c) ->
  exists c0 o0, find_ref all (c_key c) = Some c0 /\ find_op (c_ops c0) (o_name o) = Some o0 /\
                o_kind o = o_kind o0 /\ sort_ents (map (map_perm (c_perm c)) (o_ent o)) = o_ent o0.
Proof.
  unfold check_perm. intros H Ho. destruct (find_ref all (c_key c)) as [c0|]; [|discriminate].
  (* of the seven tests of check_perm only the third: op_matches_ref on every operator *)
  rewrite !andb_true_iff in H. destruct H as [[[[[[_ _] Hm] _] _] _] _].
  pose proof (proj1 (forallb_forall _ _) Hm o Ho) as Ho0. unfold op_matches_ref in Ho0.
  destruct (find_op (c_ops c0) (o_name o)) as [o0|] eqn:Ef; [|discriminate].
  apply andb_prop in Ho0. destruct Ho0 as [Hk He].
  exists c0, o0. split; [reflexivity|]. split; [exact Ef|]. split; [apply Z.eqb_eq; exact Hk | apply ents_eqb_eq; exact He].
Qed.

Lemma charge_ok_spec m x : charge_ok m x = true -> (m = 1 -> x = 0) /\ (m <> 1 -> x mod m = 0).
Proof. unfold charge_ok. destruct (m =? 1) eqn:E; intros H; split; intros; lia. Qed.

Lemma charges_ok3_nth ms : forall qr qc qt, charges_ok3 ms qr qc qt = true ->
  forall n, (n < List.length ms)%nat -> charge_ok (nth n ms 1) (nth n qr 0 - nth n qc 0 - nth n qt 0) = true.
Proof.
  induction ms as [|m ms IH]; intros qr qc qt H n Hn; [cbn in Hn; lia|].
  destruct qr as [|a qr], qc as [|b qc], qt as [|t qt]; cbn [charges_ok3] in H; try discriminate.
  apply andb_prop in H. destruct H as [H1 H2].
  destruct n as [|n]; cbn [nth]; [exact H1|]. apply IH; [exact H2 | cbn [List.length] in Hn; lia].
Qed.

(* every non-zero entry (r, c) of every operator:  charge(r) - charge(c) = qtotal(op)  (mod the charge's modulus) *)
Lemma charges_consistent c o e n : check_charges c = true -> In o (c_ops c) -> In e (o_ent o) -> (n < List.length (c_mod c))%nat ->
  let x := nth n (nthL (c_charges c) (e_r e)) 0 - nth n (nthL (c_charges c) (e_c e)) 0 - nth n (o_qtotal o) 0 in
  let m := nth n (c_mod c) 1 in
  (m = 1 -> x = 0) /\ (m <> 1 -> x mod m = 0).
Proof.
  intros H Ho He Hn. apply charge_ok_spec. apply charges_ok3_nth; [|exact Hn].
  exact (proj1 (forallb_forall _ _) (proj1 (forallb_forall _ _) H o Ho) e He).
Qed.

(* operators flagged need_JW are sign operators or anticommute with JW = diag((-1)^JW_exponent); all others commute *)
Lemma jw_flags c o e : check_jw c = true -> In o (c_ops c) -> In e (o_ent o) ->
  (mem_str (o_name o) (c_needjw c) = false -> nthZ (c_jwexp c) (e_r e) = nthZ (c_jwexp c) (e_c e)) /\
  (mem_str (o_name o) (c_needjw c) = true -> is_diag o = false ->
     nthZ (c_jwexp c) (e_r e) <> nthZ (c_jwexp c) (e_c e)).
Proof.
  intros H Ho He. apply andb_prop in H. destruct H as [_ H].
  pose proof (proj1 (forallb_forall _ _) H o Ho) as H1. unfold op_jw_ok in H1.
  split.
  - intros Hm. rewrite Hm in H1. pose proof (proj1 (forallb_forall _ _) H1 e He) as H2. cbn beta in H2. lia.
  - intros Hm Hd. rewrite Hm, Hd in H1. cbn [andb orb] in H1.
    pose proof (proj1 (forallb_forall _ _) H1 e He) as H2. cbn beta in H2. lia.
Qed.
