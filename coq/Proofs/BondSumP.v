(* Proofs about Model/BondSum.v: the bond operators computed by calc_H_bond sum up to (twice, because
   weights are doubled) the operator given by the onsite and nearest-neighbour coupling terms. *)
From TenpyV Require Import Base.Prelude Base.Lists Model.Automaton Proofs.AutomatonP Model.BondSum.
Open Scope Z_scope.

Lemma upd_bond_length j f h : length (upd_bond j f h) = length h.
Proof.
  revert j; induction h as [|b h IH]; intros [|j]; cbn [upd_bond length]; auto.
Qed.

Lemma add_bond_length j m h : length (add_bond j m h) = length h.
Proof. apply upd_bond_length. Qed.

Lemma add_bond_nth0 j m h : j <> 0%nat -> nth 0 (add_bond j m h) [] = nth 0 h [].
Proof.
  intros Hj. destruct h as [|b h]; destruct j as [|j]; try reflexivity. congruence.
Qed.

Lemma embed_add_bond e m : forall h j k, (j < length h)%nat ->
  Permutation (embed_from e k (add_bond j m h)) (embed_from e k h ++ [e (k + j)%nat m]).
Proof.
  induction h as [|b h IH]; intros j k Hj; cbn [length] in Hj; [lia|].
  destruct j as [|j]; unfold add_bond; cbn [upd_bond embed_from].
  - rewrite map_app. cbn [map]. replace (k + 0)%nat with k by lia.
    rewrite <- !app_assoc. apply Permutation_app_head. apply Permutation_app_comm.
  - fold (add_bond j m h). rewrite <- app_assoc. apply Permutation_app_head.
    replace (k + S j)%nat with (S k + j)%nat by lia. apply IH. lia.
Qed.

Lemma embed_from_empty e L : forall k, embed_from e k (repeat [] L) = [].
Proof. induction L as [|L IH]; intros k; cbn [repeat embed_from map app]; auto. Qed.

(* H_bond is the empty list of bonds after a sequence of additions (bond, local monomial): what a term
   adds where (cadds, oadds) is separated from what an addition does to the length, to bond 0 and to the sum *)
Definition put (h : hbond) (a : nat * lmono) : hbond := add_bond (fst a) (snd a) h.
Definition cadds (L : nat) (t : cterm) : list (nat * lmono) :=
  [((ct_j t mod L)%nat, (cmul c2 (ct_w t), ct_a t, ct_b t))].
Definition oadds (finite : bool) (L : nat) (t : oterm) : list (nat * lmono) :=
  (if ceqb (fst (dist2 finite L (ot_i t))) c0 then []
   else [(ot_i t, (cmul (fst (dist2 finite L (ot_i t))) (ot_w t), 0, ot_op t))]) ++
  (if ceqb (snd (dist2 finite L (ot_i t))) c0 then []
   else [((S (ot_i t) mod L)%nat, (cmul (snd (dist2 finite L (ot_i t))) (ot_w t), ot_op t, 0))]).

Lemma onsite_step_put f L h t : onsite_step f L h t = fold_left put (oadds f L t) h.
Proof. unfold onsite_step, oadds. destruct (ceqb (fst _) c0), (ceqb (snd _) c0); reflexivity. Qed.

Lemma fold_steps {T} (step : hbond -> T -> hbond) (adds : T -> list (nat * lmono)) :
  (forall h t, step h t = fold_left put (adds t) h) ->
  forall ts h, fold_left step ts h = fold_left put (flat_map adds ts) h.
Proof.
  intros H ts. induction ts as [|t ts IH]; intro h; cbn [fold_left flat_map]; [reflexivity|].
  rewrite fold_left_app, <- H. apply IH.
Qed.

Lemma h_bond_put f L ots cts :
  h_bond f L ots cts = fold_left put (flat_map (cadds L) cts ++ flat_map (oadds f L) ots) (repeat [] L).
Proof.
  unfold h_bond, add_to_nn_bond, to_nn_bond. rewrite fold_left_app.
  rewrite <- (fold_steps (nn_step L) (cadds L)) by reflexivity. apply fold_steps, onsite_step_put.
Qed.

Lemma put_length l : forall h, length (fold_left put l h) = length h.
Proof.
  induction l as [|a l IH]; intro h; cbn [fold_left]; [reflexivity|]. rewrite IH. apply add_bond_length.
Qed.

Lemma put_nth0 l : Forall (fun a => fst a <> 0%nat) l ->
  forall h, nth 0 (fold_left put l h) [] = nth 0 h [].
Proof.
  induction 1 as [|a l Ha _ IH]; intro h; cbn [fold_left]; [reflexivity|].
  rewrite IH. apply add_bond_nth0. exact Ha.
Qed.

Lemma embed_put e L l : Forall (fun a => (fst a < L)%nat) l -> forall h, length h = L ->
  Permutation (embed_from e 0 (fold_left put l h)) (embed_from e 0 h ++ map (uncurry e) l).
Proof.
  induction 1 as [|[j m] l Ha _ IH]; intros h Hh; cbn [fold_left map uncurry].
  - rewrite app_nil_r. apply Permutation_refl.
  - eapply Permutation_trans; [apply IH; unfold put; rewrite add_bond_length; exact Hh|].
    change (?x :: map ?f l) with ([x] ++ map f l). rewrite app_assoc. apply Permutation_app_tail.
    apply (embed_add_bond e m h j 0%nat). cbn [fst] in Ha. lia.
Qed.

Definition ccontrib (e : nat -> lmono -> mono) (L : nat) (t : cterm) : poly :=
  map (uncurry e) (cadds L t).
Definition ocontrib (e : nat -> lmono -> mono) (finite : bool) (L : nat) (t : oterm) : poly :=
  map (uncurry e) (oadds finite L t).

Lemma adds_lt f L ots cts : L <> 0%nat -> forallb (oterm_ok L) ots = true ->
  Forall (fun a => (fst a < L)%nat) (flat_map (cadds L) cts ++ flat_map (oadds f L) ots).
Proof.
  intros HL Hok. apply Forall_app. split; apply Forall_flat_map, Forall_forall; intros t Ht.
  - constructor; [|constructor]. apply Nat.mod_upper_bound. exact HL.
  - rewrite forallb_forall in Hok. specialize (Hok t Ht). unfold oterm_ok in Hok.
    pose proof (Nat.mod_upper_bound (S (ot_i t)) L HL). unfold oadds.
    destruct (ceqb (fst _) c0), (ceqb (snd _) c0); repeat constructor; cbn [fst]; lia.
Qed.

Lemma h_bond_length f L ots cts : length (h_bond f L ots cts) = L.
Proof. rewrite h_bond_put, put_length. apply repeat_length. Qed.

Lemma embed_h_bond e f L ots cts : L <> 0%nat -> forallb (oterm_ok L) ots = true ->
  Permutation (embed_from e 0 (h_bond f L ots cts))
              (flat_map (ccontrib e L) cts ++ flat_map (ocontrib e f L) ots).
Proof.
  intros HL Hok. rewrite h_bond_put.
  eapply Permutation_trans; [apply (embed_put e L); [apply adds_lt; assumption|apply repeat_length]|].
  rewrite embed_from_empty, map_app, !map_flat_map. apply Permutation_refl.
Qed.

Lemma embed_left j w op : embed_bond j (w, 0, op) = (w, consop j op []).
Proof. unfold embed_bond. cbn [fst snd]. rewrite consop_0. reflexivity. Qed.

Lemma embed_right j w op : embed_bond (S j) (w, op, 0) = (w, consop j op []).
Proof.
  unfold embed_bond. cbn [fst snd]. rewrite consop_0. replace (S j - 1)%nat with j by lia. reflexivity.
Qed.

Lemma embed_inf_left L j w op : embed_bond_inf L j (w, 0, op) = (w, consop j op []).
Proof.
  unfold embed_bond_inf. destruct (Nat.eqb j 0) eqn:E.
  - apply Nat.eqb_eq in E. subst j. cbn [fst snd]. rewrite consop_0. reflexivity.
  - apply embed_left.
Qed.

Lemma embed_inf_right L j w op : (j < L)%nat ->
  embed_bond_inf L (S j mod L)%nat (w, op, 0) = (w, consop j op []).
Proof.
  intros Hj. destruct (Nat.eq_dec (S j) L) as [E|E].
  - rewrite E, Nat.mod_same by lia. unfold embed_bond_inf. cbn [Nat.eqb fst snd].
    rewrite consop_0. replace (L - 1)%nat with j by lia. reflexivity.
  - rewrite Nat.mod_small by lia. unfold embed_bond_inf. cbn [Nat.eqb]. apply embed_right.
Qed.

Lemma ceqb_c0 : ceqb c0 c0 = true. Proof. reflexivity. Qed.
Lemma ceqb_c1 : ceqb c1 c0 = false. Proof. reflexivity. Qed.
Lemma ceqb_c2 : ceqb c2 c0 = false. Proof. reflexivity. Qed.

(* two halves, in the shape ocontrib produces *)
Lemma half_half (w : C) (u : word) : peq [(cmul c1 w, u); (cmul c1 w, u)] [(cmul c2 w, u)].
Proof.
  intros v. cbn [coef]. destruct (word_eqb u v); [|reflexivity]. unfold c2. csolve.
Qed.

(* the boundary sites go completely to the one bond they have, a bulk site half to the left and half to the right
   bond; nothing goes to bond 0 *)
Lemma oadds_fin L t : (2 <= L)%nat -> (ot_i t < L)%nat ->
  Forall (fun a => fst a <> 0%nat) (oadds true L t) /\
  peq (ocontrib embed_bond true L t) (pscale c2 [nf_oterm t]).
Proof.
  intros HL Ht. destruct t as [j op w]. cbn [ot_i ot_op ot_w] in *.
  unfold ocontrib, oadds, dist2. cbn [ot_i ot_op ot_w andb].
  destruct (Nat.eqb j 0) eqn:E0.
  - apply Nat.eqb_eq in E0. subst j. cbn [fst snd]. rewrite ceqb_c0, ceqb_c2. cbn [app map uncurry].
    rewrite Nat.mod_small by lia. rewrite embed_right.
    split; [repeat constructor; discriminate|apply peq_refl].
  - apply Nat.eqb_neq in E0. destruct (Nat.eqb j (L - 1)) eqn:E1.
    + cbn [fst snd]. rewrite ceqb_c0, ceqb_c2. cbn [app map uncurry]. rewrite embed_left.
      split; [repeat constructor; exact E0|apply peq_refl].
    + apply Nat.eqb_neq in E1. cbn [fst snd]. rewrite ceqb_c1. cbn [app map uncurry].
      rewrite Nat.mod_small by lia. rewrite embed_left, embed_right.
      split; [repeat constructor; cbn [fst]; lia|apply half_half].
Qed.

Lemma ocontrib_inf L t : (ot_i t < L)%nat ->
  peq (ocontrib (embed_bond_inf L) false L t) (pscale c2 [nf_oterm t]).
Proof.
  intros Ht. destruct t as [j op w]. cbn [ot_i ot_op ot_w] in *.
  unfold ocontrib, oadds, dist2. cbn [ot_i ot_op ot_w andb fst snd]. rewrite ceqb_c1. cbn [app map uncurry].
  rewrite embed_inf_left, embed_inf_right by exact Ht. apply half_half.
Qed.

Lemma nf_nn_cterm t : ct_j t = S (ct_i t) -> nf_nn t = nf_cterm t.
Proof.
  intros E. unfold nf_nn, nf_cterm. rewrite E.
  replace (S (ct_i t) - ct_i t - 1)%nat with 0%nat by lia. reflexivity.
Qed.

Lemma cadds_fin L t : nn_ok L t = true ->
  Forall (fun a => fst a <> 0%nat) (cadds L t) /\ ccontrib embed_bond L t = pscale c2 [nf_cterm t].
Proof.
  unfold nn_ok. intros H. apply andb_true_iff in H. destruct H as [E Hj].
  apply Nat.eqb_eq in E. rewrite <- (nf_nn_cterm t E).
  unfold ccontrib, cadds, nf_nn. rewrite Nat.mod_small by lia. split; [repeat constructor; cbn [fst]; lia|].
  unfold embed_bond. cbn [fst snd pscale map uncurry].
  rewrite E. replace (S (ct_i t) - 1)%nat with (ct_i t) by lia. reflexivity.
Qed.

Lemma ccontrib_inf L t : nn_ok_inf L t = true ->
  ccontrib (embed_bond_inf L) L t = pscale c2 [nf_nn_inf L t].
Proof.
  unfold nn_ok_inf. intros H. apply andb_true_iff in H. destruct H as [E Hi].
  apply Nat.eqb_eq in E. unfold ccontrib, cadds, nf_nn_inf. cbn [map uncurry].
  destruct (Nat.eqb (ct_j t) L) eqn:EL.
  - apply Nat.eqb_eq in EL. rewrite EL, Nat.mod_same by lia. unfold embed_bond_inf.
    cbn [Nat.eqb fst snd pscale map]. replace (L - 1)%nat with (ct_i t) by lia. reflexivity.
  - apply Nat.eqb_neq in EL. rewrite Nat.mod_small by lia. unfold embed_bond_inf.
    rewrite E. cbn [Nat.eqb]. unfold embed_bond, nf_nn. cbn [fst snd pscale map].
    rewrite E. replace (S (ct_i t) - 1)%nat with (ct_i t) by lia. reflexivity.
Qed.

Lemma flat_map_scale {T} a (c : T -> poly) (nf : T -> mono) (ok : T -> bool) :
  (forall t, ok t = true -> peq (c t) (pscale a [nf t])) ->
  forall ts, forallb ok ts = true -> peq (flat_map c ts) (pscale a (map nf ts)).
Proof.
  intros H. induction ts as [|t ts IH]; intros Hok; cbn [flat_map map pscale]; [apply peq_refl|].
  cbn [forallb] in Hok. apply andb_true_iff in Hok. destruct Hok as [Ht Hok].
  apply (peq_app _ [_]); [apply H; exact Ht|apply IH; exact Hok].
Qed.

Lemma bond_sum_gen e f L (ok : cterm -> bool) (nf : cterm -> mono) ots cts : L <> 0%nat ->
  (forall t, oterm_ok L t = true -> peq (ocontrib e f L t) (pscale c2 [nf_oterm t])) ->
  (forall t, ok t = true -> peq (ccontrib e L t) (pscale c2 [nf t])) ->
  forallb (oterm_ok L) ots = true -> forallb ok cts = true ->
  peq (embed_from e 0 (h_bond f L ots cts)) (pscale c2 (map nf_oterm ots ++ map nf cts)).
Proof.
  intros HL Ho Hc Hots Hcts.
  eapply peq_trans; [apply peq_perm, embed_h_bond; [exact HL|exact Hots]|].
  eapply peq_trans; [apply peq_app_comm|]. unfold pscale. rewrite map_app.
  apply peq_app; [exact (flat_map_scale c2 _ nf_oterm _ Ho ots Hots)|exact (flat_map_scale c2 _ nf _ Hc cts Hcts)].
Qed.

(* the right-hand side is the normal form of AutomatonTermsP.from_terms_denote: H_bond and the MPO graph stand for
   the same operator.  The condition on cts is nn_ok L (below: nn_ok_inf L) of Model/BondSum.v written out *)
Theorem bond_sum_terms L ots cts : (2 <= L)%nat ->
  forallb (oterm_ok L) ots = true ->
  forallb (fun t => Nat.eqb (ct_j t) (S (ct_i t)) && (ct_j t <? L)%nat) cts = true ->
  peq (bond_sum L ots cts) (pscale (2, 0) (map nf_oterm ots ++ map nf_cterm cts)).
Proof.
  intros HL Ho Hc. apply (bond_sum_gen embed_bond true L (nn_ok L)); [lia| | |exact Ho|exact Hc].
  - intros t Ht. unfold oterm_ok in Ht. apply oadds_fin; [exact HL|lia].
  - intros t Ht. rewrite (proj2 (cadds_fin L t Ht)). apply peq_refl.
Qed.

Corollary bond_sum_terms_nn L ots cts : (2 <= L)%nat ->
  forallb (oterm_ok L) ots = true ->
  forallb (fun t => Nat.eqb (ct_j t) (S (ct_i t)) && (ct_j t <? L)%nat) cts = true ->
  peq (bond_sum L ots cts) (pscale (2, 0) (map nf_oterm ots ++ map nf_nn cts)).
Proof.
  intros HL Ho Hc. replace (map nf_nn cts) with (map nf_cterm cts).
  - apply bond_sum_terms; assumption.
  - apply map_ext_in. intros t Ht. symmetry. apply nf_nn_cterm.
    rewrite forallb_forall in Hc. specialize (Hc t Ht). apply andb_true_iff in Hc.
    destruct Hc as [E _]. apply Nat.eqb_eq in E. exact E.
Qed.

Theorem bond0_empty L ots cts : (2 <= L)%nat ->
  forallb (oterm_ok L) ots = true ->
  forallb (fun t => Nat.eqb (ct_j t) (S (ct_i t)) && (ct_j t <? L)%nat) cts = true ->
  length (h_bond true L ots cts) = L /\ nth 0 (h_bond true L ots cts) [] = [].
Proof.
  intros HL Ho Hc. split; [apply h_bond_length|]. rewrite h_bond_put, put_nth0; [destruct L; reflexivity|].
  rewrite forallb_forall in Ho, Hc. apply Forall_app. split; apply Forall_flat_map, Forall_forall; intros t Ht.
  - apply (cadds_fin L t (Hc t Ht)).
  - specialize (Ho t Ht). unfold oterm_ok in Ho. apply oadds_fin; [exact HL|lia].
Qed.

(* the model-side meaning of the assertion `H_bond[0] is None` in calc_H_bond *)
Corollary calc_H_bond_fin_some L ots cts : (2 <= L)%nat ->
  forallb (oterm_ok L) ots = true ->
  forallb (fun t => Nat.eqb (ct_j t) (S (ct_i t)) && (ct_j t <? L)%nat) cts = true ->
  calc_H_bond_fin L ots cts = Some (h_bond true L ots cts).
Proof.
  intros HL Ho Hc. unfold calc_H_bond_fin.
  assert (Hnn : forallb (fun t => Nat.eqb (ct_j t) (S (ct_i t))) cts = true).
  { apply forallb_forall. intros t Ht. rewrite forallb_forall in Hc. specialize (Hc t Ht).
    apply andb_true_iff in Hc. tauto. }
  rewrite Hnn. destruct (bond0_empty L ots cts HL Ho Hc) as [_ H0]. rewrite H0. reflexivity.
Qed.

Theorem bond_sum_inf_terms L ots cts : (2 <= L)%nat ->
  forallb (oterm_ok L) ots = true ->
  forallb (fun t => Nat.eqb (ct_j t) (S (ct_i t)) && (ct_i t <? L)%nat) cts = true ->
  peq (bond_sum_inf L ots cts) (pscale (2, 0) (map nf_oterm ots ++ map (nf_nn_inf L) cts)).
Proof.
  intros HL Ho Hc.
  apply (bond_sum_gen (embed_bond_inf L) false L (nn_ok_inf L)); [lia| | |exact Ho|exact Hc].
  - intros t Ht. unfold oterm_ok in Ht. apply ocontrib_inf. lia.
  - intros t Ht. rewrite (ccontrib_inf L t Ht). apply peq_refl.
Qed.

Definition ex_ots : list oterm :=
  [mkOT 0 3 (1, 0); mkOT 3 4 (0, 2); mkOT 2 5 (2, 1); mkOT 2 3 (1, 1); mkOT 1 5 (-1, 0)].
Definition ex_cts : list cterm :=
  [mkCT 0 1 0 1 2 (3, 0); mkCT 2 6 0 3 7 (1, -1); mkCT 1 1 0 2 2 (0, 1)].
Definition ex_cts_inf : list cterm := ex_cts ++ [mkCT 3 6 0 4 7 (5, 0)].

Example bond_sum_terms_ex :
  (2 <= 4)%nat /\ forallb (oterm_ok 4) ex_ots = true /\
  forallb (fun t => Nat.eqb (ct_j t) (S (ct_i t)) && (ct_j t <? 4)%nat) ex_cts = true /\
  normalize (bond_sum 4 ex_ots ex_cts)
  = normalize (pscale (2, 0) (map nf_oterm ex_ots ++ map nf_cterm ex_cts)) /\
  normalize (bond_sum 4 ex_ots ex_cts)
  = [((6, 0), [(0%nat, 1); (1%nat, 2)]); ((2, 0), [(0%nat, 3)]); ((0, 2), [(1%nat, 1); (2%nat, 2)]);
     ((-2, 0), [(1%nat, 5)]); ((2, 2), [(2%nat, 3)]); ((4, 2), [(2%nat, 5)]);
     ((2, -2), [(2%nat, 6); (3%nat, 7)]); ((0, 4), [(3%nat, 4)])].
Proof. vm_compute. repeat split; try reflexivity. lia. Qed.

Example bond0_empty_ex :
  length (h_bond true 4 ex_ots ex_cts) = 4%nat /\ nth 0 (h_bond true 4 ex_ots ex_cts) [] = [] /\
  nth 1 (h_bond true 4 ex_ots ex_cts) [] = [((6, 0), 1, 2); ((2, 0), 3, 0); ((-1, 0), 0, 5)] /\
  calc_H_bond_fin 4 ex_ots ex_cts = Some (h_bond true 4 ex_ots ex_cts).
Proof. vm_compute. repeat split; reflexivity. Qed.

Example bond_sum_inf_terms_ex :
  forallb (oterm_ok 4) ex_ots = true /\
  forallb (fun t => Nat.eqb (ct_j t) (S (ct_i t)) && (ct_i t <? 4)%nat) ex_cts_inf = true /\
  normalize (bond_sum_inf 4 ex_ots ex_cts_inf)
  = normalize (pscale (2, 0) (map nf_oterm ex_ots ++ map (nf_nn_inf 4) ex_cts_inf)) /\
  nth 0 (h_bond false 4 ex_ots ex_cts_inf) [] = [((10, 0), 6, 7); ((1, 0), 0, 3); ((0, 2), 4, 0)] /\
  coef (bond_sum_inf 4 ex_ots ex_cts_inf) [(0%nat, 7); (3%nat, 6)] = (10, 0).
Proof. vm_compute. repeat split; reflexivity. Qed.

Print Assumptions bond_sum_terms.
Print Assumptions bond_sum_terms_nn.
Print Assumptions bond0_empty.
Print Assumptions calc_H_bond_fin_some.
Print Assumptions bond_sum_inf_terms.
