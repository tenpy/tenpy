(* Model/Krylov.v (property C16): the cache after k iterations is the interval seq (k - min k nc) (min k nc); the
   three-term indices, the Gram-Schmidt steps, the result terms and the rebuild loop are arithmetic on it. *)
From TenpyV Require Import Base.Prelude Base.Lists Model.Truncate Proofs.TruncateP Model.Krylov.

Lemma removelast_seq a m : removelast (seq a m) = seq a (m - 1).
Proof.
  destruct m as [|m]; [reflexivity|]. rewrite seq_S, removelast_last. f_equal. lia.
Qed.

Lemma map_sub_perm N m : (m <= N)%nat ->
  Permutation (map (fun k => (N - k)%nat) (seq 1 m)) (seq (N - m) m).
Proof.
  induction m as [|m IH]; intros H; [constructor|].
  rewrite seq_S, map_app. cbn [map].
  replace (seq (N - S m) (S m)) with ((N - S m)%nat :: seq (N - m) m)
    by (cbn [seq]; f_equal; f_equal; lia).
  eapply perm_trans; [apply Permutation_app_comm|]. cbn [app Nat.add].
  apply perm_skip. apply IH. lia.
Qed.

Lemma cache_after_seq nc k : (1 <= nc)%nat ->
  cache_after nc k = seq (k - min k nc) (min k nc).
Proof.
  intros Hnc. induction k as [|k IH]; [reflexivity|].
  cbn [cache_after]. rewrite IH. unfold to_cache. set (m := min k nc).
  replace [k] with [(k - m + m)%nat] by (f_equal; lia). rewrite <- seq_S, seq_length.
  destruct (Nat.ltb_spec nc (S m)) as [H|H].
  - cbn [seq tl]. replace (min (S k) nc) with m by lia. f_equal; lia.
  - replace (min (S k) nc) with (S m) by lia. f_equal; lia.
Qed.

Lemma cache_after_length nc k : (1 <= nc)%nat -> length (cache_after nc k) = min k nc.
Proof. intros H. rewrite cache_after_seq by exact H. apply seq_length. Qed.

Lemma from_end_seq a m j : (1 <= j <= m)%nat -> from_end (seq a m) j = (a + m - j)%nat.
Proof.
  intros H. unfold from_end. rewrite seq_length. rewrite seq_nth by lia. lia.
Qed.

Lemma three_term nc k : (2 <= nc)%nat ->
  from_end (cache_after nc (S k)) 1 = k /\
  ((1 <= k)%nat -> from_end (cache_after nc (S k)) 2 = (k - 1)%nat).
Proof.
  intros Hnc. rewrite cache_after_seq by lia. split.
  - rewrite from_end_seq by lia. lia.
  - intros Hk. rewrite from_end_seq by lia. lia.
Qed.

Lemma rebuild_ortho_eq nc re n : forall k c, rebuild_ortho nc re k n c = build_ortho nc re k n c.
Proof. induction n as [|n IH]; intros k c; cbn [rebuild_ortho build_ortho]; [reflexivity|f_equal; apply IH]. Qed.

Lemma build_ortho_prefix nc re n m : forall k c,
  build_ortho nc re k n c = firstn n (build_ortho nc re k (n + m) c).
Proof.
  induction n as [|n IH]; intros k c; [reflexivity|].
  cbn [build_ortho Nat.add firstn]. f_equal. apply IH.
Qed.

Lemma build_ortho_closed nc re n : forall k,
  build_ortho nc re k n (cache_after nc k) =
  map (fun k => ortho_events re (cache_after nc (S k)) k) (seq k n).
Proof.
  induction n as [|n IH]; intros k; [reflexivity|].
  cbn [build_ortho seq map]. change (to_cache nc (cache_after nc k) k) with (cache_after nc (S k)).
  f_equal. apply IH.
Qed.

Lemma build_ortho_nth nc re N k : (k < N)%nat ->
  nth k (build_ortho nc re 0 N []) [] = ortho_events re (cache_after nc (S k)) k.
Proof.
  intros Hk. change (@nil nat) with (cache_after nc 0). rewrite build_ortho_closed.
  rewrite nth_map_seq by exact Hk. reflexivity.
Qed.

Lemma ortho_events_noreortho nc k : (2 <= nc)%nat ->
  ortho_events false (cache_after nc (S k)) k =
  (3, S k, k, 0)%nat :: match k with O => [] | S k' => [(3, S k, k', 1)%nat] end.
Proof.
  intros Hnc. unfold ortho_events. destruct (three_term nc k Hnc) as [H1 H2]. rewrite H1.
  destruct k as [|k']; [reflexivity|]. rewrite H2 by lia. repeat f_equal. lia.
Qed.

Lemma ortho_events_reortho nc k : (1 <= nc)%nat ->
  ortho_events true (cache_after nc (S k)) k =
  (3, S k, k, 0)%nat :: map (fun v => (3, S k, v, 2)%nat) (seq (S k - nc) (k - (S k - nc))).
Proof.
  intros Hnc. unfold ortho_events. rewrite cache_after_seq by exact Hnc.
  rewrite from_end_seq by lia. rewrite removelast_seq.
  replace (S k - Nat.min (S k) nc + Nat.min (S k) nc - 1)%nat with k by lia.
  replace (S k - Nat.min (S k) nc)%nat with (S k - nc)%nat by lia.
  replace (Nat.min (S k) nc - 1)%nat with (k - (S k - nc))%nat by lia. reflexivity.
Qed.

(* where the bounds in the definitions of Model/Krylov.v come from: _calc_result_full has
   `for k in range(1, min(len_cache + 1, N))` adding vf[N - k] * _cache[-k], whence min (S (length c)) N - 1 in
   cached_terms; it calls _rebuild_krylov_for_result_full(psif, N - len_cache - 1), the number of rebuilt terms in
   result_terms and result_events *)
Lemma cached_terms_closed nc N : (1 <= nc)%nat ->
  cached_terms N (cache_after nc N) =
  map (fun k => (N - k, N - k)%nat) (seq 1 (min (S (min N nc)) N - 1)).
Proof.
  intros Hnc. unfold cached_terms. rewrite cache_after_length by exact Hnc.
  apply map_ext_in. intros k Hk. apply in_seq in Hk.
  rewrite cache_after_seq by exact Hnc. rewrite from_end_seq by lia. f_equal. lia.
Qed.

Lemma result_indices nc N : (1 <= nc)%nat -> (2 <= N)%nat ->
  Permutation (result_terms nc N) (map (fun k => (k, k)) (seq 0 N)).
Proof.
  intros Hnc HN. unfold result_terms. rewrite cached_terms_closed by exact Hnc.
  rewrite cache_after_length by exact Hnc.
  set (m := (min (S (min N nc)) N - 1)%nat). set (r := (N - min N nc - 1)%nat).
  (* m terms come from the cache, Krylov indices N-m .. N-1 in reverse order; r terms are rebuilt, indices 1 .. r;
     index 0 is the start vector *)
  assert (Hm : (m <= N)%nat) by (unfold m; lia).
  assert (Hr : (N - m = 1 + r)%nat) by (unfold m, r; lia).
  assert (Hs : (r + m = N - 1)%nat) by (unfold m, r; lia).
  replace (seq 0 N) with (0%nat :: seq 1 r ++ seq (1 + r) m).
  2:{ rewrite <- seq_app. rewrite Hs. replace N with (S (N - 1)) at 2 by lia. reflexivity. }
  cbn [map]. apply perm_skip. rewrite map_app.
  eapply perm_trans; [apply Permutation_app_comm|].
  apply Permutation_app.
  - unfold rebuilt_terms. rewrite <- seq_shift, map_map. apply Permutation_refl.
  - rewrite <- Hr.
    change (map (fun k => (N - k, N - k)%nat) (seq 1 m))
      with (map (fun k => (fun j => (j, j)) ((fun k => N - k)%nat k)) (seq 1 m)).
    rewrite <- (map_map (fun k => (N - k)%nat) (fun j => (j, j))).
    apply Permutation_map. apply map_sub_perm. exact Hm.
Qed.

Lemma keys_along_model w zs :
  keys_along w zs (argsort_model w zs) = map fst (sorted_pairs (map (wkey w) zs)).
Proof.
  unfold keys_along, argsort_model. rewrite map_map. apply map_ext_in.
  intros vi Hvi. destruct (sorted_pairs_nth _ _ Hvi) as [Hl Hn].
  rewrite <- Hn. unfold nthZ. rewrite map_length in Hl.
  rewrite (nth_indep _ 0%Z (wkey w (0, 0)%Z)) by (rewrite map_length; exact Hl).
  rewrite map_nth. reflexivity.
Qed.

Lemma arnoldi_order w zs :
  Permutation (argsort_model w zs) (seq 0 (length zs)) /\
  StronglySorted Z.le (keys_along w zs (argsort_model w zs)).
Proof.
  split.
  - unfold argsort_model. rewrite <- (map_length (wkey w) zs). apply piv_perm.
  - rewrite keys_along_model. apply sorted_map_fst. unfold sorted_pairs. apply isort_sorted.
Qed.

Open Scope Z_scope.
Fixpoint rq_num (d x : list Z) : Z :=
  match d, x with di :: d', xi :: x' => di * xi * xi + rq_num d' x' | _, _ => 0 end.
Fixpoint rq_den (d x : list Z) : Z :=
  match d, x with _ :: d', xi :: x' => xi * xi + rq_den d' x' | _, _ => 0 end.

Lemma ritz_bound_diag lam d x : Forall (fun di => lam <= di) d -> lam * rq_den d x <= rq_num d x.
Proof.
  intros H. revert x. induction H as [|di d Hd _ IH]; intros x; [cbn; lia|].
  destruct x as [|xi x]; cbn [rq_num rq_den]; [lia|].
  specialize (IH x). assert (0 <= xi * xi) by nia. nia.
Qed.
