(* Model/TauAcct.v: the regenerated table tebd_tau IS the documented one (reflexivity), so evolved_time = sum of the
   real N dt - i sum of the imaginary N dt. *)
From TenpyV Require Import Base.Prelude Gen.G_tau Model.TauAcct.
From Coq Require Import String.
Open Scope Z_scope.

Lemma tau_table_documented : tebd_tau = documented_tau.
Proof. reflexivity. Qed.

Lemma step_time_documented t ty dt n : known_type (ty, dt, n) = true ->
  step_time documented_tau t (ty, dt, n) =
  Some (fst t + (if String.eqb ty "real" then n * dt else 0), snd t - (if String.eqb ty "imag" then n * dt else 0)).
Proof.
  unfold known_type. intros H. apply orb_true_iff in H.
  destruct H as [H|H]; apply String.eqb_eq in H; subst ty; cbn; f_equal; f_equal; lia.
Qed.

Lemma run_time_documented h : forall t, forallb known_type h = true ->
  run_time documented_tau t h = Some (fst t + steps_of "real" h, snd t - steps_of "imag" h).
Proof.
  induction h as [|[[ty dt] n] r IH]; intros t Hk.
  - destruct t as [a b]. cbn. f_equal. f_equal; lia.
  - cbn [forallb] in Hk. apply andb_true_iff in Hk. destruct Hk as [Hc Hr].
    cbn [run_time]. rewrite (step_time_documented t ty dt n Hc), (IH _ Hr).
    unfold steps_of. cbn [map sumZ fst snd]. f_equal. f_equal; lia.
Qed.

Lemma run_time_unknown ty dt n r t : String.eqb ty "real" = false -> String.eqb ty "imag" = false ->
  run_time tebd_tau t ((ty, dt, n) :: r) = None.
Proof.
  intros Hr Hi. rewrite tau_table_documented. cbn [run_time step_time]. unfold documented_tau. cbn [lookup_tau].
  rewrite Hr, Hi. reflexivity.
Qed.
