(* Which cut truncate takes.  Every mask of Model/Truncate.v is the table of a set of cut positions of
   Model/TruncPriority.v, and _combine_constraints on tables is `stage` on sets; so final_good is the table of A_final
   and the cut is its least element.  A constraint that can be met together with what was accepted before it holds at
   every finally accepted cut (honoured): the bounds on the result of truncate are this at the cut taken. *)
From TenpyV Require Import Base.Prelude Base.Lists Base.PyLib Model.Truncate Model.TruncPriority Proofs.TruncateP.
Open Scope Z_scope.

Lemma nth_skipn {A} (d : A) (l : list A) c k : nth k (skipn c l) d = nth (c + k) l d.
Proof. revert l; induction c as [|c IH]; intros l; [reflexivity|]. destruct l as [|x t]; [destruct k; reflexivity|]. cbn [skipn Nat.add nth]. apply IH. Qed.

Lemma stage_spec n A G :
  (forall c, stage n A G c = true -> A c = true) /\
  ((exists c, (c < n)%nat /\ A c = true /\ G c = true) -> forall c, stage n A G c = (A c && G c)) /\
  ((forall c, (c < n)%nat -> A c = true -> G c = false) -> forall c, stage n A G c = A c).
Proof.
  unfold stage. destruct (existsb (fun c => A c && G c) (seq 0 n)) eqn:E.
  - apply existsb_exists in E. destruct E as [k [Hin Hk]]. apply in_seq in Hin.
    apply andb_prop in Hk. split; [|split].
    + intros c H. apply andb_prop in H. tauto.
    + reflexivity.
    + intros H. rewrite (H k) in Hk by (lia || tauto). destruct Hk; discriminate.
  - split; [tauto|]. split; [|reflexivity].
    intros [c [Hc [HA HG]]]. exfalso. apply not_true_iff_false in E. apply E, existsb_exists.
    exists c. split; [apply in_seq; lia|]. rewrite HA, HG. reflexivity.
Qed.

Lemma stage_both n A G c : (c < n)%nat -> A c = true -> G c = true -> stage n A G c = true.
Proof. intros Hc HA HG. rewrite (proj1 (proj2 (stage_spec n A G))) by (exists c; auto). rewrite HA, HG. reflexivity. Qed.

Lemma stage_any n A G : (exists c, (c < n)%nat /\ A c = true) -> exists c, (c < n)%nat /\ stage n A G c = true.
Proof.
  intros (c & Hc & HA). destruct (G c) eqn:HG; [exists c; auto using stage_both|].
  unfold stage. destruct (existsb _ _) eqn:E; [|exists c; auto].
  apply existsb_exists in E. destruct E as (k & Hk & E). apply in_seq in Hk. exists k. split; [lia|exact E].
Qed.

Lemma fold_stage_sub n l : forall A c, fold_left (stage n) l A c = true -> A c = true.
Proof. induction l as [|G l IH]; intros A c H; [exact H|]. apply (proj1 (stage_spec n A G)), IH, H. Qed.

Lemma fold_stage_any n l : forall A, (exists c, (c < n)%nat /\ A c = true) ->
  exists c, (c < n)%nat /\ fold_left (stage n) l A c = true.
Proof. induction l as [|G l IH]; intros A H; [exact H|]. apply IH, stage_any, H. Qed.

Lemma honoured n A G post c : (exists k, (k < n)%nat /\ A k = true /\ G k = true) ->
  fold_left (stage n) post (stage n A G) c = true -> G c = true.
Proof.
  intros Hs H. apply fold_stage_sub in H. rewrite (proj1 (proj2 (stage_spec n A G)) Hs) in H.
  apply andb_prop in H. apply H.
Qed.

Definition tab (n : nat) (A : nat -> bool) : list bool := map A (seq 0 n).

Lemma nth_tab n A c : nth c (tab n A) false = (c <? n)%nat && A c.
Proof.
  destruct (Nat.ltb_spec c n) as [L|L]; cbn [andb]; [apply nth_map_seq, L|].
  apply nth_overflow. unfold tab. rewrite map_length, seq_length. exact L.
Qed.

Lemma andl_tab n A G : andl (tab n A) (tab n G) = tab n (fun c => A c && G c).
Proof. unfold tab. induction (seq 0 n) as [|c l IH]; cbn [map andl]; [reflexivity|]. rewrite IH. reflexivity. Qed.

Lemma anyb_tab n A : anyb (tab n A) = existsb A (seq 0 n).
Proof. unfold anyb, tab. induction (seq 0 n) as [|c l IH]; cbn [map existsb]; [reflexivity|]. rewrite IH. reflexivity. Qed.

Lemma combine_tab n A G : combine_constraints (tab n A) (tab n G) = tab n (stage n A G).
Proof. unfold combine_constraints, stage. rewrite andl_tab, anyb_tab. destruct (existsb _ _); reflexivity. Qed.

Lemma opt_apply_tab {T} n (o : option T) f Gf A : (forall a, f a = tab n (Gf a)) ->
  opt_apply o f (tab n A) = tab n (fold_left (stage n) (opt_set o Gf) A).
Proof. intros H. destruct o as [a|]; cbn [opt_apply opt_set fold_left]; [rewrite H; apply combine_tab|reflexivity]. Qed.

Lemma meets_tab n A G : anyb (andl (tab n A) (tab n G)) = true -> exists k, (k < n)%nat /\ A k = true /\ G k = true.
Proof.
  rewrite andl_tab, anyb_tab, existsb_exists. intros (k & Hk & E). apply in_seq in Hk. apply andb_prop in E.
  exists k. split; [lia|exact E].
Qed.

(* first_true is np.argmax of a boolean table *)
Lemma first_true_seq A n : forall s, (exists c, (s <= c < s + n)%nat /\ A c = true) ->
  (s + first_true (map A (seq s n)) < s + n)%nat /\ A (s + first_true (map A (seq s n)))%nat = true /\
  forall k, (s <= k)%nat -> A k = true -> (s + first_true (map A (seq s n)) <= k)%nat.
Proof.
  induction n as [|n IH]; intros s (c & Hc & HA); [lia|]. cbn [seq map first_true]. destruct (A s) eqn:E.
  - rewrite Nat.add_0_r. split; [lia|]. split; [exact E|]. intros k Hk _. exact Hk.
  - destruct (IH (S s)) as (H1 & H2 & H3).
    { exists c. split; [|exact HA]. assert (c <> s) by congruence. lia. }
    rewrite Nat.add_succ_r. split; [lia|]. split; [exact H2|]. intros k Hk HAk.
    assert (k <> s) by congruence. apply H3; [lia|exact HAk].
Qed.

Lemma good_svd_min_tab ss m : good_svd_min ss m = tab (length ss) (G_svd_min ss m).
Proof. unfold good_svd_min. rewrite <- (map_nth_seq 0 ss) at 1. rewrite map_map. reflexivity. Qed.

Lemma cumsum_sq_tab l : forall acc,
  cumsum_sq acc l = map (fun c => acc + sumZ (map sq (firstn (S c) l))) (seq 0 (length l)).
Proof.
  induction l as [|x t IH]; intros acc; cbn [cumsum_sq length seq map]; [reflexivity|].
  f_equal; [cbn [firstn map sumZ]; unfold sq; lia|].
  rewrite IH, <- seq_shift, map_map. apply map_ext. intros c. cbn [firstn map sumZ]. unfold sq. lia.
Qed.

Lemma good_trunc_cut_tab ss t : good_trunc_cut ss t = tab (length ss) (G_trunc_cut ss t).
Proof. unfold good_trunc_cut. rewrite cumsum_sq_tab, map_map. reflexivity. Qed.

Lemma chi_max_accepts n m k : 1 <= m -> (k < n)%nat -> (G_chi_max n m k = true <-> Z.of_nat (n - k) <= m).
Proof. intros Hm Hk. unfold G_chi_max, slice_start. destruct (- m <? 0) eqn:E; lia. Qed.
Lemma chi_min_accepts n m k : 2 <= m -> (k < n)%nat -> (G_chi_min n m k = true <-> m <= Z.of_nat (n - k)).
Proof. intros Hm Hk. unfold G_chi_min, slice_start. destruct (- m + 1 <? 0) eqn:E; lia. Qed.

Lemma svd_min_accepts ss m k : StronglySorted Z.le ss -> (k < length ss)%nat ->
  (G_svd_min ss m k = true <-> forall v, In v (skipn k ss) -> m <= v).
Proof.
  intros Hs Hk. unfold G_svd_min, nthZ. rewrite Z.leb_le. split.
  - intros Hm v Hv. destruct (In_nth _ _ 0 Hv) as [j [Hj <-]].
    rewrite skipn_length in Hj. rewrite nth_skipn. destruct j as [|j]; [rewrite Nat.add_0_r; exact Hm|].
    assert (H := ss_nth Z.le ss 0 Hs k (k + S j)%nat). lia.
  - intros H. apply H. replace k with (k + 0)%nat at 1 by lia.
    rewrite <- nth_skipn. apply nth_In. rewrite skipn_length. lia.
Qed.
Lemma trunc_cut_accepts ss t k : (k < length ss)%nat ->
  (G_trunc_cut ss t k = true <-> t < sumZ (map sq (firstn k ss)) + sq (nthZ ss k)).
Proof.
  intros Hk. unfold G_trunc_cut, nthZ. rewrite (firstn_S_nth 0) by exact Hk.
  rewrite map_app, sumZ_app. cbn [map sumZ]. lia.
Qed.

Section Cut.
  Variable ss : list Z.
  Variable o : opts.
  Let n := length ss.
  Let c1 := opt_set (chi_max o) (G_chi_max n).
  Let c2 := match chi_min o with Some m => if 1 <? m then [G_chi_min n m] else [] | None => [] end.
  Let c3 := opt_set (deg_tol o) (G_deg ss).
  Let c4 := opt_set (svd_min o) (G_svd_min ss).
  Let c5 := opt_set (trunc_cut2 o) (G_trunc_cut ss).
  Let A1 := fold_left (stage n) c1 (A_all n).
  Let A2 := fold_left (stage n) c2 A1.
  Let A3 := fold_left (stage n) c3 A2.
  Let A4 := fold_left (stage n) c4 A3.

  Lemma A_final_from :
    A_final ss o = fold_left (stage n) (c1 ++ c2 ++ c3 ++ c4 ++ c5) (A_all n) /\
    A_final ss o = fold_left (stage n) (c2 ++ c3 ++ c4 ++ c5) A1 /\
    A_final ss o = fold_left (stage n) (c3 ++ c4 ++ c5) A2 /\
    A_final ss o = fold_left (stage n) (c4 ++ c5) A3 /\
    A_final ss o = fold_left (stage n) c5 A4.
  Proof. unfold A_final, constraints. rewrite !fold_left_app. auto. Qed.

  (* G_chi_max, G_chi_min, G_deg are the very functions good_chi_max, good_chi_min, good_deg map over seq 0 n, so these
     three masks are tables by conversion; good_svd_min and good_trunc_cut map over ss and over cumsum_sq *)
  Lemma st0_tab : st0 ss = tab n (A_all n).
  Proof.
    unfold st0. rewrite <- (map_nth_seq 0 ss) at 1. rewrite map_map. apply map_ext_in.
    intros c Hc. apply in_seq in Hc. symmetry. apply Nat.ltb_lt. lia.
  Qed.
  Lemma st1_tab : st1 ss o = tab n A1.
  Proof. unfold st1. rewrite st0_tab. apply opt_apply_tab. reflexivity. Qed.
  Lemma st2_tab : st2 ss o = tab n A2.
  Proof.
    unfold st2, A2, c2. rewrite st1_tab. destruct (chi_min o) as [m|]; [|reflexivity].
    destruct (1 <? m); [apply combine_tab|reflexivity].
  Qed.
  Lemma st3_tab : st3 ss o = tab n A3.
  Proof. unfold st3. rewrite st2_tab. apply opt_apply_tab. reflexivity. Qed.
  Lemma st4_tab : st4 ss o = tab n A4.
  Proof. unfold st4. rewrite st3_tab. apply opt_apply_tab, good_svd_min_tab. Qed.
  Lemma final_good_tab : final_good ss o = tab n (A_final ss o).
  Proof.
    destruct A_final_from as (_ & _ & _ & _ & E). change (final_good ss o) with (st5 ss o). unfold st5. rewrite st4_tab, E.
    apply opt_apply_tab, good_trunc_cut_tab.
  Qed.

  Lemma A_final_lt c : A_final ss o c = true -> (c < n)%nat.
  Proof. intros H. apply fold_stage_sub in H. apply Nat.ltb_lt, H. Qed.

  Lemma final_good_iff c : nth c (final_good ss o) false = A_final ss o c.
  Proof.
    rewrite final_good_tab, nth_tab. destruct (A_final ss o c) eqn:E; [|apply andb_false_r].
    rewrite (proj2 (Nat.ltb_lt c n) (A_final_lt c E)). reflexivity.
  Qed.

  Lemma deg_honoured p q c : deg_tol o = Some (p, q) -> anyb (andl (st2 ss o) (good_deg ss p q)) = true ->
    A_final ss o c = true -> G_deg ss (p, q) c = true.
  Proof.
    intros Hd Hsat Hc. destruct A_final_from as (_ & _ & E & _). rewrite E in Hc. unfold c3 in Hc. rewrite Hd in Hc.
    rewrite st2_tab in Hsat. exact (honoured n A2 _ _ c (meets_tab n A2 (G_deg ss (p, q)) Hsat) Hc).
  Qed.

  Lemma svd_min_honoured m c : svd_min o = Some m -> anyb (andl (st3 ss o) (good_svd_min ss m)) = true ->
    A_final ss o c = true -> G_svd_min ss m c = true.
  Proof.
    intros Hm Hsat Hc. destruct A_final_from as (_ & _ & _ & E & _). rewrite E in Hc. unfold c4 in Hc. rewrite Hm in Hc.
    rewrite st3_tab, good_svd_min_tab in Hsat. exact (honoured n A3 _ _ c (meets_tab n A3 _ Hsat) Hc).
  Qed.

  (* the cut keeping exactly m values is accepted by chi_max and by chi_min *)
  Lemma chi_min_honoured m c : chi_min o = Some m -> m <= Z.of_nat n ->
    (chi_max o = None \/ exists M, chi_max o = Some M /\ m <= M) ->
    A_final ss o c = true -> m <= Z.of_nat (n - c).
  Proof.
    intros Hm Hn HM Hc. assert (Hlt := A_final_lt c Hc).
    destruct (Z.ltb_spec 1 m) as [Hgt|]; [|lia].
    destruct A_final_from as (_ & E & _). rewrite E in Hc. unfold c2 in Hc. rewrite Hm, (proj2 (Z.ltb_lt 1 m) Hgt) in Hc.
    apply (honoured n A1) in Hc; [apply chi_min_accepts in Hc; lia|].
    exists (n - Z.to_nat m)%nat. split; [lia|]. split; [|apply chi_min_accepts; lia].
    unfold A1, c1. destruct HM as [->|[M [-> HM]]]; cbn [opt_set fold_left]; [apply Nat.ltb_lt; lia|].
    apply stage_both; [lia|apply Nat.ltb_lt; lia|apply chi_max_accepts; lia].
  Qed.

  Hypothesis nonempty : ss <> [].

  Lemma cuts_nonempty : (0 < n)%nat.
  Proof. unfold n. destruct ss; [congruence|cbn [length]; lia]. Qed.

  (* the cut keeping one value satisfies chi_max *)
  Lemma chi_max_honoured m c : chi_max o = Some m -> 1 <= m -> A_final ss o c = true -> Z.of_nat (n - c) <= m.
  Proof.
    intros Hm H1 Hc. assert (Hlt := A_final_lt c Hc). assert (Hn := cuts_nonempty).
    destruct A_final_from as (E & _). rewrite E in Hc. unfold c1 in Hc. rewrite Hm in Hc.
    apply (honoured n (A_all n)) in Hc; [apply chi_max_accepts in Hc; lia|].
    exists (n - 1)%nat. split; [lia|]. split; [apply Nat.ltb_lt; lia|apply chi_max_accepts; lia].
  Qed.

  Lemma cut_is_min :
    (cut ss o < n)%nat /\ A_final ss o (cut ss o) = true /\
    forall k, A_final ss o k = true -> (cut ss o <= k)%nat.
  Proof.
    unfold cut. change (st5 ss o) with (final_good ss o). rewrite final_good_tab.
    destruct (first_true_seq (A_final ss o) n 0) as (H1 & H2 & H3); [|split; [exact H1|]; split; [exact H2|]].
    - destruct (fold_stage_any n (constraints ss o) (A_all n)) as (c & Hc & HA); [|exists c; split; [lia|exact HA]].
      exists 0%nat. split; [exact cuts_nonempty|apply Nat.ltb_lt, cuts_nonempty].
    - intros k. apply H3. lia.
  Qed.
End Cut.

Section Bounds.
  Variable xs : list Z.
  Variable o : opts.
  Hypothesis nonempty : xs <> [].
  Let ss := map fst (sorted_pairs xs).

  Lemma cut_accepted : (cut ss o < length ss)%nat /\ A_final ss o (cut ss o) = true.
  Proof. destruct (cut_is_min ss o (spectrum_nonempty xs nonempty)) as (H1 & H2 & _). auto. Qed.

  Lemma kept_length : length (r_kept (truncate xs o)) = (length ss - cut ss o)%nat.
  Proof. apply skipn_length. Qed.

  Lemma keeps_one : (1 <= length (r_kept (truncate xs o)))%nat.
  Proof. rewrite kept_length. assert (H := proj1 cut_accepted). lia. Qed.

  Lemma chi_max_bound m : chi_max o = Some m -> 1 <= m -> Z.of_nat (length (r_kept (truncate xs o))) <= m.
  Proof.
    intros Hm H1. rewrite kept_length.
    exact (chi_max_honoured ss o (spectrum_nonempty xs nonempty) m _ Hm H1 (proj2 cut_accepted)).
  Qed.

  Lemma chi_min_bound m : chi_min o = Some m -> m <= Z.of_nat (length xs) ->
    (chi_max o = None \/ exists M, chi_max o = Some M /\ m <= M) ->
    m <= Z.of_nat (length (r_kept (truncate xs o))).
  Proof.
    intros Hm Hn HM. rewrite kept_length. rewrite <- (spectrum_len xs) in Hn.
    exact (chi_min_honoured ss o m _ Hm Hn HM (proj2 cut_accepted)).
  Qed.

  Lemma deg_bound p q : deg_tol o = Some (p, q) -> anyb (andl (st2 ss o) (good_deg ss p q)) = true ->
    cut ss o = 0%nat \/ deg_ok p q (nthZ ss (cut ss o - 1)) (nthZ ss (cut ss o)) = true.
  Proof.
    intros Hd Hsat. assert (H := deg_honoured ss o p q _ Hd Hsat (proj2 cut_accepted)).
    destruct (cut ss o) as [|c]; [left; reflexivity|right]. rewrite Nat.sub_1_r. exact H.
  Qed.

  Lemma svd_min_bound m : svd_min o = Some m -> anyb (andl (st3 ss o) (good_svd_min ss m)) = true ->
    forall v, In v (r_kept (truncate xs o)) -> m <= v.
  Proof.
    intros Hm Hsat. destruct cut_accepted as [Hc Hin].
    exact (proj1 (svd_min_accepts ss m _ (spectrum_sorted xs) Hc) (svd_min_honoured ss o m _ Hm Hsat Hin)).
  Qed.

  (* A threshold below the total weight is met by the last cut, so the one stage is A_all /\ G_trunc_cut and the cut is
     the least position where the discarded weight would exceed it; otherwise every cut discards at most the total. *)
  Lemma trunc_cut_only t : constraints ss o = [G_trunc_cut ss t] -> 0 <= t ->
    r_eps (truncate xs o) <= t /\
    (t < sumZ (map sq xs) -> t < r_eps (truncate xs o) + sq (nthZ ss (cut ss o))).
  Proof.
    intros Hcs Ht. destruct (Z.lt_ge_cases t (sumZ (map sq xs))) as [Hlt|Hge].
    2:{ split; [|lia]. assert (H := total_split xs o). assert (H0 : 0 <= r_norm2 (truncate xs o)); [|lia].
        rewrite norm_sorted. apply sumZ_nonneg, Forall_forall. intros x Hx. apply in_map_iff in Hx.
        destruct Hx as (y & <- & _). apply Z.square_nonneg. }
    rewrite (eps_sorted xs o). fold ss. destruct (cut_is_min ss o (spectrum_nonempty xs nonempty)) as (Hc & Hin & Hmin).
    set (n := length ss) in *.
    assert (E : forall k, A_final ss o k = A_all n k && G_trunc_cut ss t k).
    { unfold A_final. rewrite Hcs. apply (stage_spec n). exists (n - 1)%nat. split; [lia|]. split; [apply Nat.ltb_lt; lia|].
      unfold G_trunc_cut. replace (S (n - 1)) with (length ss) by (subst n; lia).
      rewrite firstn_all, (sumZ_perm (map sq ss) _ (Permutation_map sq (spectrum_perm xs))). apply Z.ltb_lt, Hlt. }
    rewrite E in Hin. apply andb_prop in Hin. split; [|intros _; apply trunc_cut_accepts; [exact Hc|apply Hin]].
    destruct (cut ss o) as [|c']; [cbn [firstn map sumZ]; lia|].
    specialize (Hmin c'). rewrite E in Hmin. unfold A_all, G_trunc_cut in Hmin.
    destruct (Z.ltb_spec t (sumZ (map sq (firstn (S c') ss)))) as [Hg|Hg]; [|exact Hg].
    rewrite (proj2 (Nat.ltb_lt c' n)) in Hmin by lia. specialize (Hmin eq_refl). lia.
  Qed.
End Bounds.
