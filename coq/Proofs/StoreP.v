(* `keeps h h' W R` says what a transformer of Model/Store.v keeps of the heap it starts from; the frame properties all
   rest on one case analysis over the eleven operations, `exec_keeps`. *)
From TenpyV Require Import Base.Prelude Base.Lists Model.Store.
Open Scope nat_scope.

Lemma upd_length {A} (l : list A) : forall i v, length (upd l i v) = length l.
Proof. induction l as [|x t IH]; intros [|i] v; cbn [upd length]; auto. Qed.

Lemma nth_upd_other {A} (l : list A) : forall i j v d, j <> i -> nth j (upd l i v) d = nth j l d.
Proof.
  induction l as [|x t IH]; intros i j v d Hne.
  - destruct i; reflexivity.
  - destruct i as [|i]; destruct j as [|j]; cbn [upd nth]; try reflexivity; try lia.
    apply IH. lia.
Qed.

Lemma nth_upd_same {A} (l : list A) : forall i v d, i < length l -> nth i (upd l i v) d = v.
Proof.
  induction l as [|x t IH]; intros i v d Hi; cbn [length] in Hi; [lia|].
  destruct i as [|i]; cbn [upd nth]; [reflexivity|]. apply IH. lia.
Qed.

Lemma Forall_upd {A} (P : A -> Prop) (l : list A) : forall i v, Forall P l -> P v -> Forall P (upd l i v).
Proof.
  induction l as [|x t IH]; intros [|i] v Hl Hv; cbn [upd]; try constructor; inversion Hl; subst; auto.
Qed.

Definition extends {A} (d : A) (E : list nat) (l l' : list A) : Prop :=
  length l <= length l' /\ forall i, i < length l -> ~ In i E -> nth i l' d = nth i l d.

Lemma extends_refl {A} (d : A) E l : extends d E l l.
Proof. split; [lia|reflexivity]. Qed.

Lemma extends_trans {A} (d : A) E E' l1 l2 l3 :
  extends d E l1 l2 -> extends d E' l2 l3 -> (forall i, In i E' -> In i E \/ length l1 <= i) ->
  extends d E l1 l3.
Proof.
  intros [L1 H1] [L2 H2] HE. split; [lia|]. intros i Hi Hn.
  rewrite H2; [apply H1; assumption|lia|]. intros Hin. destruct (HE i Hin); [contradiction|lia].
Qed.

Lemma extends_app {A} (d : A) E l t : extends d E l (l ++ t).
Proof. split; [rewrite app_length; lia|]. intros i Hi _. apply app_nth1, Hi. Qed.

Lemma extends_upd {A} (d : A) E l i v : extends d (i :: E) l (upd l i v).
Proof.
  split; [rewrite upd_length; lia|]. intros j _ Hn. apply nth_upd_other. intros ->. apply Hn. left. reflexivity.
Qed.

Lemma write_all_length ids f : forall bs, length (write_all ids f bs) = length bs.
Proof. induction ids as [|i t IH]; intros bs; cbn [write_all]; [reflexivity|]. rewrite IH, upd_length. reflexivity. Qed.

Lemma write_all_other ids f : forall bs j, ~ In j ids -> nth j (write_all ids f bs) [] = nth j bs [].
Proof.
  induction ids as [|i t IH]; intros bs j Hj; cbn [write_all]; [reflexivity|].
  rewrite IH by (intros H; apply Hj; right; exact H).
  apply nth_upd_other. intros ->. apply Hj. left. reflexivity.
Qed.

Lemma write_zip_length ids : forall vals g bs, length (write_zip ids vals g bs) = length bs.
Proof.
  induction ids as [|i t IH]; intros [|v vt] g bs; cbn [write_zip]; try reflexivity.
  rewrite IH, upd_length. reflexivity.
Qed.

Lemma write_zip_other ids : forall vals g bs j, ~ In j ids -> nth j (write_zip ids vals g bs) [] = nth j bs [].
Proof.
  induction ids as [|i t IH]; intros [|v vt] g bs j Hj; cbn [write_zip]; try reflexivity.
  rewrite IH by (intros H; apply Hj; right; exact H).
  apply nth_upd_other. intros ->. apply Hj. left. reflexivity.
Qed.

Lemma extends_write_all ids f bs : extends [] ids bs (write_all ids f bs).
Proof. split; [rewrite write_all_length; lia|]. intros i _ Hn. apply write_all_other, Hn. Qed.

Lemma extends_write_zip ids vals g bs : extends [] ids bs (write_zip ids vals g bs).
Proof. split; [rewrite write_zip_length; lia|]. intros i _ Hn. apply write_zip_other, Hn. Qed.

Lemma fresh_ge_In n m i : In i (fresh_ids n m) -> n <= i.
Proof. intros Hi. apply in_seq in Hi. lia. Qed.

Lemma fresh_ge n m k : k <= n -> Forall (fun j => k <= j) (fresh_ids n m).
Proof. intros H. apply Forall_forall. intros j Hj. apply fresh_ge_In in Hj. lia. Qed.

Lemma fresh_lt n m k : n + m <= k -> Forall (fun i => i < k) (fresh_ids n m).
Proof. intros Hk. apply Forall_forall. intros i Hi. apply in_seq in Hi. lia. Qed.

Definition keeps (h h' : heap) (W R : list nat) : Prop :=
  extends [] W (bufs h) (bufs h') /\ extends [] [] (tabs h) (tabs h') /\
  extends dleg [] (legs h) (legs h') /\ extends darr R (objs h) (objs h').

Lemma keeps_fields h h' W R :
  extends [] W (bufs h) (bufs h') -> extends [] [] (tabs h) (tabs h') ->
  extends dleg [] (legs h) (legs h') -> extends darr R (objs h) (objs h') -> keeps h h' W R.
Proof. intros B T L O. exact (conj B (conj T (conj L O))). Qed.

Lemma keeps_refl h W R : keeps h h W R.
Proof. apply keeps_fields; apply extends_refl. Qed.

Lemma keeps_trans h1 h2 h3 W R W' R' : keeps h1 h2 W R -> keeps h2 h3 W' R' ->
  (forall i, In i W' -> In i W \/ length (bufs h1) <= i) ->
  (forall x, In x R' -> In x R \/ length (objs h1) <= x) -> keeps h1 h3 W R.
Proof.
  intros (B1 & T1 & L1 & O1) (B2 & T2 & L2 & O2) HW HR. apply keeps_fields.
  - exact (extends_trans _ _ _ _ _ _ B1 B2 HW).
  - apply (extends_trans _ _ _ _ _ _ T1 T2). intros i [].
  - apply (extends_trans _ _ _ _ _ _ L1 L2). intros i [].
  - exact (extends_trans _ _ _ _ _ _ O1 O2 HR).
Qed.

Lemma keeps_then h1 h2 h3 W R : keeps h1 h2 W R -> keeps h2 h3 [] [] -> keeps h1 h3 W R.
Proof. intros K1 K2. apply (keeps_trans _ _ _ _ _ _ _ K1 K2); intros i []. Qed.

Lemma keeps_obj h h' W R x : keeps h h' W R -> x < length (objs h) -> ~ In x R -> obj h' x = obj h x.
Proof. intros (_ & _ & _ & _ & Ho). exact (Ho x). Qed.

Lemma keeps_leg h h' W R i : keeps h h' W R -> i < length (legs h) -> nth i (legs h') dleg = nth i (legs h) dleg.
Proof. intros (_ & _ & (_ & Hl) & _) Hi. apply Hl; [exact Hi|intros []]. Qed.

Lemma keeps_bufs_le h h' W R : keeps h h' W R -> length (bufs h) <= length (bufs h').
Proof. intros ((L & _) & _). exact L. Qed.

Lemma keeps_legs_le h h' W R : keeps h h' W R -> length (legs h) <= length (legs h').
Proof. intros (_ & _ & (L & _) & _). exact L. Qed.

Lemma keeps_objs_le h h' W R : keeps h h' W R -> length (objs h) <= length (objs h').
Proof. intros (_ & _ & _ & L & _). exact L. Qed.

Lemma keeps_live h h' W R x : keeps h h' W R -> live h x -> live h' x.
Proof. intros K. pose proof (keeps_objs_le _ _ _ _ K). unfold live. lia. Qed.

Lemma wf_obj h x : wf h -> x < length (objs h) -> wf_arr h (obj h x).
Proof. intros Hwf Hx. unfold wf in Hwf. rewrite Forall_forall in Hwf. apply Hwf. unfold obj. apply nth_In, Hx. Qed.

Lemma denote_arr_eq h a b t l lb q : map (buf h) (blk a) = b -> nth (tab a) (tabs h) [] = t ->
  map (fun i => nth i (legs h) dleg) (lg a) = l -> lab a = lb -> qt a = q -> denote_arr h a = (b, t, l, lb, q).
Proof. intros <- <- <- <- <-. reflexivity. Qed.

Lemma denote_keeps h h' W R x :
  keeps h h' W R -> wf h -> x < length (objs h) -> ~ In x R ->
  (forall i, In i (blk (obj h x)) -> ~ In i W) -> denote h' x = denote h x.
Proof.
  intros Hk Hwf Hx HR Hdis. unfold denote. rewrite (keeps_obj _ _ _ _ x Hk Hx HR).
  destruct Hk as ((_ & Hb) & (_ & Ht) & (_ & Hl) & _). destruct (wf_obj h x Hwf Hx) as (Wb & Wt & Wl).
  rewrite Forall_forall in Wb, Wl. apply denote_arr_eq; try reflexivity.
  - apply map_ext_in. intros i Hi. apply Hb; [apply Wb, Hi|apply Hdis, Hi].
  - apply Ht; [exact Wt|intros []].
  - apply map_ext_in. intros i Hi. apply Hl; [apply Wl, Hi|intros []].
Qed.

Lemma keeps_nil_denote h h' : wf h -> keeps h h' [] [] -> forall x, x < length (objs h) -> denote h' x = denote h x.
Proof. intros Hwf Hk x Hx. apply (denote_keeps h h' [] []); [exact Hk|exact Hwf|exact Hx|intros []|intros i _ []]. Qed.

Lemma keeps_add_obj h a W R : keeps h (add_obj h a) W R.
Proof. apply keeps_fields; cbn [add_obj bufs tabs legs objs]; auto using extends_refl, extends_app. Qed.

(* ahead of exec_keeps: its tensordot case runs two such steps *)
Lemma keeps_exec_rebind h r f gt perm : keeps h (fst (exec h (OMapRebind r f gt perm))) [] [r].
Proof.
  cbn [exec rebind fst]. apply keeps_fields; cbn [set_obj bufs tabs legs objs];
    auto using extends_refl, extends_app, extends_upd.
Qed.

Lemma extends_then_fresh E (bs bs1 bs2 : list (list Z)) n m :
  extends [] E bs bs1 -> length bs <= n -> extends [] (fresh_ids n m) bs1 bs2 -> extends [] E bs bs2.
Proof.
  intros H1 Hn H2. apply (extends_trans _ _ _ _ _ _ H1 H2). intros i Hi. right. apply fresh_ge_In in Hi. lia.
Qed.

Lemma exec_tensordot h a b pa pb F :
  exec h (OTensordot a b pa pb F) =
  let xa := length (objs h) in
  let h3 := run h [OCopy false a; OMapRebind xa (fun v => v) (fun t => t) pa] in
  let h6 := run h3 [OCopy false b; OMapRebind (S xa) (fun v => v) (fun t => t) pb] in
  let '(rb, rt) := F (denote h6 xa) (denote h6 (S xa)) in
  (add_obj (mkHeap (bufs h6 ++ rb) (tabs h6 ++ [rt]) (legs h6) (objs h6))
           (mkArr (fresh_ids (length (bufs h6)) (length rb)) (length (tabs h6)) [] [] []), S (S xa)).
Proof. cbv beta iota zeta delta [run exec rebind fst snd]. reflexivity. Qed.

(* _tensordot_transpose_axes, `a = a.copy(deep=False); a.itranspose(perm)`: the only record that is replaced did not exist in h *)
Lemma keeps_transposed_copy h x a perm : x = length (objs h) ->
  keeps h (run h [OCopy false a; OMapRebind x (fun v => v) (fun t => t) perm]) [] [] /\
  length (objs (run h [OCopy false a; OMapRebind x (fun v => v) (fun t => t) perm])) = S x.
Proof.
  intros ->. split.
  - apply (keeps_trans _ _ _ _ _ _ _ (keeps_add_obj h (obj h a) [] []) (keeps_exec_rebind _ _ _ _ _)); [intros i []|].
    intros x [<-|[]]. right. lia.
  - cbn [run exec rebind fst objs set_obj add_obj]. rewrite upd_length, app_length. cbn [length]. lia.
Qed.

Lemma keeps_alloc h nb t a W R : keeps h (add_obj (mkHeap (bufs h ++ nb) (tabs h ++ [t]) (legs h) (objs h)) a) W R.
Proof. apply keeps_fields; cbn [add_obj bufs tabs legs objs]; auto using extends_refl, extends_app. Qed.

Definition written (h : heap) (o : op) : list nat :=
  match inplace_receiver o with Some r => if writes_buffers o then blk (obj h r) else [] | None => [] end.
Definition rebound (o : op) : list nat :=
  match inplace_receiver o with Some r => if writes_buffers o then [] else [r] | None => [] end.

Lemma exec_keeps h o : keeps h (fst (exec h o)) (written h o) (rebound o).
Proof.
  destruct o as [nb lgs|deep r|r f|r b g|r f gt perm|r gt perm|r f gt newlegs|r f|r f|a b g|a b pa pb F];
    cbn [written rebound inplace_receiver writes_buffers];
    (* every operation but tensordot builds its heap field by field *)
    [> try destruct deep; cbn [exec deep_copy rebind fst]; apply keeps_fields;
       cbn [add_obj set_obj bufs tabs legs objs blk];
       auto using extends_refl, extends_app, extends_write_all, extends_write_zip, extends_upd .. |].
  - (* left of OUnary: the buffers of the copy, written in place *)
    eapply extends_then_fresh; [| |apply extends_write_all]; [apply extends_app|apply le_n].
  - (* left of OAdd: the same *)
    eapply extends_then_fresh; [| |apply extends_write_zip]; [apply extends_app|apply le_n].
  - (* OTensordot: two transposed shallow copies, then the result is allocated *)
    rewrite exec_tensordot. cbv zeta.
    destruct (keeps_transposed_copy h _ a pa eq_refl) as [K3 L3].
    destruct (keeps_transposed_copy _ _ b pb (eq_sym L3)) as [K6 _].
    destruct (F _ _) as [rb rt]. cbn [fst].
    exact (keeps_then _ _ _ _ _ (keeps_then _ _ _ _ _ K3 K6) (keeps_alloc _ rb rt _ [] [])).
Qed.

Lemma objs_mono h o : length (objs h) <= length (objs (fst (exec h o))).
Proof. exact (keeps_objs_le _ _ _ _ (exec_keeps h o)). Qed.

Lemma legs_mono h o : length (legs h) <= length (legs (fst (exec h o))).
Proof. exact (keeps_legs_le _ _ _ _ (exec_keeps h o)). Qed.

Lemma legs_immutable h o i : i < length (legs h) ->
  nth i (legs (fst (exec h o))) dleg = nth i (legs h) dleg.
Proof. apply (keeps_leg _ _ _ _ i (exec_keeps h o)). Qed.

Lemma shares_buffer_true h x y :
  shares_buffer h x y = true <-> exists i, In i (blk (obj h x)) /\ In i (blk (obj h y)).
Proof.
  unfold shares_buffer. rewrite existsb_exists. split; intros [i [Hi H]]; exists i; (split; [exact Hi|apply existsb_eqb_In, H]).
Qed.

Lemma shares_buffer_false h x y :
  (forall i, In i (blk (obj h x)) -> ~ In i (blk (obj h y))) -> shares_buffer h x y = false.
Proof.
  intros Hd. apply not_true_is_false. intros H. apply shares_buffer_true in H. destruct H as [i [Hi Hj]].
  exact (Hd i Hi Hj).
Qed.

Lemma outside_may_change_elim h o x : x < length (objs h) -> ~ In x (may_change h o) ->
  ~ In x (rebound o) /\ forall i, In i (blk (obj h x)) -> ~ In i (written h o).
Proof.
  unfold may_change, rebound, written. intros Hx Hn.
  destruct (inplace_receiver o) as [r|]; [|split; [intros []|intros i _ []]].
  destruct (writes_buffers o); [|split; [exact Hn|intros i _ []]].
  split; [intros []|]. intros i Hi Hir. apply Hn, filter_In. split; [apply in_seq; lia|].
  apply orb_true_iff. right. apply shares_buffer_true. exists i. split; assumption.
Qed.

Lemma outside_may_change_intro h o r x : inplace_receiver o = Some r ->
  x <> r -> shares_buffer h x r = false -> ~ In x (may_change h o).
Proof.
  intros Hrec Hne Hsh. unfold may_change. rewrite Hrec.
  destruct (writes_buffers o).
  - intros Hin. apply filter_In in Hin. destruct Hin as [_ Hin].
    apply Nat.eqb_neq in Hne. rewrite Hne, Hsh in Hin. discriminate.
  - intros [Hin|[]]. congruence.
Qed.

Lemma frame_may_change h o x :
  wf h -> x < length (objs h) -> ~ In x (may_change h o) ->
  denote (fst (exec h o)) x = denote h x.
Proof.
  intros Hwf Hx Hnot. destruct (outside_may_change_elim h o x Hx Hnot) as [HR HW].
  exact (denote_keeps _ _ _ _ x (exec_keeps h o) Hwf Hx HR HW).
Qed.

Lemma frame_pure h o x : wf h -> inplace_receiver o = None -> x < length (objs h) ->
  denote (fst (exec h o)) x = denote h x.
Proof.
  intros Hwf Hrec Hx. apply frame_may_change; [exact Hwf|exact Hx|]. unfold may_change. rewrite Hrec. intros [].
Qed.

Lemma inplace_frame h o r x : wf h -> inplace_receiver o = Some r -> x < length (objs h) ->
  x <> r -> shares_buffer h x r = false -> denote (fst (exec h o)) x = denote h x.
Proof.
  intros Hwf Hrec Hx Hne Hsh. apply frame_may_change; [exact Hwf|exact Hx|].
  exact (outside_may_change_intro h o r x Hrec Hne Hsh).
Qed.

Lemma frame_rebinding h o r x : wf h -> inplace_receiver o = Some r -> writes_buffers o = false ->
  x < length (objs h) -> x <> r -> denote (fst (exec h o)) x = denote h x.
Proof.
  intros Hwf Hrec Hw Hx Hne. apply frame_may_change; [exact Hwf|exact Hx|].
  unfold may_change. rewrite Hrec, Hw. intros [E|[]]. congruence.
Qed.

Lemma inplace_result h o r : inplace_receiver o = Some r -> snd (exec h o) = r.
Proof. destruct o; cbn [inplace_receiver]; intros H; try discriminate H; injection H as <-; reflexivity. Qed.

Lemma exec_obj_other h o x : x < length (objs h) ->
  (forall r, inplace_receiver o = Some r -> writes_buffers o = true \/ x <> r) ->
  obj (fst (exec h o)) x = obj h x.
Proof.
  intros Hx Hrec. apply (keeps_obj _ _ _ _ x (exec_keeps h o) Hx). unfold rebound.
  destruct (inplace_receiver o) as [r|]; [|intros []].
  destruct (Hrec r eq_refl) as [-> |Hne]; [intros []|].
  destruct (writes_buffers o); [intros []|intros [<-|[]]; congruence].
Qed.

Lemma obj_add_new h a n : n = length (objs h) -> obj (add_obj h a) n = a.
Proof. intros ->. apply nth_middle. Qed.

Lemma obj_set_same h r a : live h r -> obj (set_obj h r a) r = a.
Proof. apply nth_upd_same. Qed.

Lemma deep_copy_same_value h r : denote (fst (exec h (OCopy true r))) (length (objs h)) = denote h r.
Proof.
  cbn [exec deep_copy fst]. unfold denote at 1. rewrite obj_add_new by reflexivity.
  apply denote_arr_eq; cbn [blk tab lg lab qt bufs tabs legs add_obj]; try reflexivity.
  - apply (map_nth_app_seq [] (bufs h) (map (buf h) (blk (obj h r)))).
  - apply nth_middle.
Qed.

Lemma meta_observed h r gt perm : live h r -> perm_ok h r perm ->
  denote (fst (exec h (OMeta r gt perm))) r =
  (let '(b, t, l, lb, q) := denote h r in
   (b, gt t, map (fun k => nth k l dleg) perm, map (fun k => nth k lb 0) perm, q)).
Proof.
  intros Hr Hp. cbn [exec fst]. unfold denote at 1. rewrite obj_set_same by exact Hr.
  apply denote_arr_eq; cbn [blk tab lg lab qt tabs legs set_obj]; try reflexivity.
  - f_equal. apply nth_middle.
  - rewrite map_map. apply map_ext_in. intros k Hk. unfold perm_ok in Hp. rewrite Forall_forall in Hp.
    rewrite (nth_map_default _ _ k 0 dleg) by (apply Hp, Hk). reflexivity.
Qed.

Lemma write_all_self ids f : forall bs, NoDup ids -> Forall (fun i => i < length bs) ids ->
  map (fun i => nth i (write_all ids f bs) []) ids = map (fun i => f (nth i bs [])) ids.
Proof.
  induction ids as [|i t IH]; intros bs Hnd Hlt; cbn [write_all map]; [reflexivity|].
  inversion Hnd as [|i' t' Hni Hnt]; subst. inversion Hlt as [|i' t' Hi Ht]; subst.
  f_equal.
  - rewrite write_all_other by exact Hni. apply nth_upd_same, Hi.
  - rewrite IH; [|exact Hnt|rewrite upd_length; exact Ht].
    apply map_ext_in. intros j Hj. f_equal. apply nth_upd_other. intros ->. exact (Hni Hj).
Qed.

Lemma mapwrite_observed h r f : wf h -> live h r -> NoDup (blk (obj h r)) ->
  denote (fst (exec h (OMapWrite r f))) r =
  (let '(b, t, l, lb, q) := denote h r in (map f b, t, l, lb, q)).
Proof.
  intros Hwf Hr Hnd. pose proof (wf_obj h r Hwf Hr) as [Wb _].
  cbn [exec fst]. apply denote_arr_eq; try reflexivity.
  unfold buf. cbn [bufs]. rewrite map_map. apply write_all_self; [exact Hnd|exact Wb].
Qed.
