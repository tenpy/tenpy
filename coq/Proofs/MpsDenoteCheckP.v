(* The concrete structure of Model/MpsDenoteCheck.v (dyadic tensors, diagonal powers of two), the one executed against the
   implementation, satisfies by Leibniz equality the consequences that T07_convert_preserves_denotation draws from the
   abstract laws. *)
From TenpyV Require Import Base.Prelude Model.MpsForm Model.MpsDenote Model.MpsDenoteCheck.
Open Scope Z_scope.

Definition zipw {A} (F : Z -> A -> A) (d : list Z) (l : list A) : list A := map (fun ex => F (fst ex) (snd ex)) (combine d l).

(* the XD * XT and XT * XD branches of xmul, and the exponents of xsv, under names.  rowR d is zipw dy_shift d and scaleL d is
   zipw (fun e => map (map (dy_shift e))) d by unfolding, so the laws of Section ZipLaws apply *)
Definition rowR (d : list Z) (v : list dy) : list dy := map (fun ex => dy_shift (fst ex) (snd ex)) (combine d v).
Definition scaleL (d : list Z) (t : tens) : tens := map (fun er => map (map (dy_shift (fst er))) (snd er)) (combine d t).
Definition scaleR (d : list Z) (t : tens) : tens := map (map (rowR d)) t.
Definition pw (ks : list Z) (e : Z) : list Z := map (fun k => k * e) ks.

Lemma xmul_DT d t : xmul (XD d) (XT t) = XT (scaleL d t).
Proof. reflexivity. Qed.
Lemma xmul_TD d t : xmul (XT t) (XD d) = XT (scaleR d t).
Proof. reflexivity. Qed.

Lemma dy_shift_shift e1 e2 x : dy_shift e1 (dy_shift e2 x) = dy_shift (e2 + e1) x.
Proof. unfold dy_shift. cbn [fst snd]. f_equal. lia. Qed.
Lemma dy_shift_0 x : dy_shift 0 x = x.
Proof. destruct x as [m k]. unfold dy_shift. cbn [fst snd]. f_equal. lia. Qed.
Lemma dy_shift_comm e1 e2 x : dy_shift e1 (dy_shift e2 x) = dy_shift e2 (dy_shift e1 x).
Proof. unfold dy_shift. cbn [fst snd]. f_equal. lia. Qed.

Section ZipLaws.
  Context {A : Type} (F : Z -> A -> A).

  Lemma zipw_add : (forall e1 e2 x, F e1 (F e2 x) = F (e2 + e1) x) ->
    forall ks e1 e2 l, zipw F (pw ks e1) (zipw F (pw ks e2) l) = zipw F (pw ks (e2 + e1)) l.
  Proof.
    intros HF. induction ks as [|k ks IH]; intros e1 e2 [|x l]; try reflexivity.
    unfold zipw, pw in *. cbn [map combine fst snd]. rewrite HF, IH. do 2 f_equal. lia.
  Qed.

  Lemma zipw_0 : (forall x, F 0 x = x) -> forall ks l, (length l <= length ks)%nat -> zipw F (pw ks 0) l = l.
  Proof.
    intros HF. induction ks as [|k ks IH]; intros [|x l] H; try reflexivity; cbn [length] in H; [lia|].
    unfold zipw, pw in *. cbn [map combine fst snd]. rewrite Z.mul_0_r, HF, IH by lia. reflexivity.
  Qed.

  Lemma zipw_map (G : A -> A) : (forall a x, F a (G x) = G (F a x)) -> forall d l, zipw F d (map G l) = map G (zipw F d l).
  Proof.
    intros HF. induction d as [|a d IH]; intros [|x l]; try reflexivity.
    unfold zipw in *. cbn [map combine fst snd]. rewrite HF, IH. reflexivity.
  Qed.
End ZipLaws.

Lemma map2_map2 {A} (f g h : A -> A) : (forall x, f (g x) = h x) -> forall r : list (list A), map (map f) (map (map g) r) = map (map h) r.
Proof. intros H r. rewrite map_map. apply map_ext. intros v. rewrite map_map. apply map_ext. exact H. Qed.

Lemma scaleL_scaleL ks e1 e2 t : scaleL (pw ks e1) (scaleL (pw ks e2) t) = scaleL (pw ks (e2 + e1)) t.
Proof. apply (zipw_add (fun e => map (map (dy_shift e)))). intros a b r. apply map2_map2. apply dy_shift_shift. Qed.

Lemma scaleR_scaleR ks e1 e2 t : scaleR (pw ks e1) (scaleR (pw ks e2) t) = scaleR (pw ks (e2 + e1)) t.
Proof. apply map2_map2. intros v. apply (zipw_add dy_shift dy_shift_shift). Qed.

Lemma scaleL_scaleR_comm d d' t : scaleL d (scaleR d' t) = scaleR d' (scaleL d t).
Proof.
  apply (zipw_map (fun e => map (map (dy_shift e)))). intros a r. rewrite !map_map. apply map_ext. intros v.
  symmetry. apply (zipw_map dy_shift). intros b x. apply dy_shift_comm.
Qed.

Lemma scaleL_0 ks t : (length t <= length ks)%nat -> scaleL (pw ks 0) t = t.
Proof.
  apply (zipw_0 (fun e => map (map (dy_shift e)))). intros r.
  rewrite <- (map_id r) at 2. apply map_ext. intros v. rewrite <- (map_id v) at 2. apply map_ext, dy_shift_0.
Qed.

Definition fits_cols (n : nat) (t : tens) : Prop := Forall (Forall (fun v : list dy => (length v <= n)%nat)) t.

Lemma scaleR_0 ks t : fits_cols (length ks) t -> scaleR (pw ks 0) t = t.
Proof.
  unfold scaleR, fits_cols. intros H. induction H as [|row t Hrow _ IH]; [reflexivity|].
  cbn [map]. f_equal; [|exact IH].
  induction Hrow as [|v row Hv _ IHr]; [reflexivity|]. cbn [map]. f_equal; [exact (zipw_0 dy_shift dy_shift_0 ks v Hv)|exact IHr].
Qed.

(* the exponents k_j of bond b: s_j = 4^(k_j) *)
Definition ksof (svlog : list (list Z)) (b : Z) : list Z := nth (Z.to_nat b) svlog [].

Lemma vget_B_instance svlog bl br l a pd cl cr t g :
  vget_B xm xmul (xsv svlog) bl br (mkSite (Some l) a pd cl cr, XT t) (full g) =
  Some (XT (scaleR (pw (ksof svlog br) (snd g - snd l)) (scaleL (pw (ksof svlog bl) (fst g - fst l)) t))).
Proof. destruct l as [l1 l2]. reflexivity. Qed.

Theorem valued_instance_invariant :
  forall (svlog : list (list Z)) (bl br : Z) (l a : form) (pd cl cr : Z) (t : tens) (f : form),
  exists s' : vsite xm,
    vconv xm xmul (xsv svlog) bl br (mkSite (Some l) a pd cl cr, XT t) f = Some s' /\
    lab (fst s') = Some f /\
    (forall g : form,
       vget_B xm xmul (xsv svlog) bl br s' (full g) =
       vget_B xm xmul (xsv svlog) bl br (mkSite (Some l) a pd cl cr, XT t) (full g)) /\
    ((length t <= length (ksof svlog bl))%nat -> fits_cols (length (ksof svlog br)) t ->
     exists s'' : vsite xm, vconv xm xmul (xsv svlog) bl br s' l = Some s'' /\ snd s'' = XT t /\ lab (fst s'') = Some l).
Proof.
  intros svlog bl br l a pd cl cr t f.
  unfold vconv at 1. rewrite vget_B_instance.
  destruct l as [l1 l2] eqn:El. cbn [get_B_act full lab fst snd scale1]. rewrite <- El.
  eexists. split; [reflexivity|]. cbn [fst snd lab]. split; [reflexivity|]. split.
  - intros g. rewrite !vget_B_instance. f_equal. f_equal.
    rewrite scaleL_scaleR_comm, scaleL_scaleL, scaleR_scaleR.
    subst l. cbn [fst snd].
    replace (fst f - l1 + (fst g - fst f)) with (fst g - l1) by lia.
    replace (snd f - l2 + (snd g - snd f)) with (snd g - l2) by lia. reflexivity.
  - intros HL HR. unfold vconv. rewrite vget_B_instance.
    destruct f as [f1 f2]. cbn [get_B_act full lab fst snd scale1 act pdim chiL chiR].
    eexists. split; [reflexivity|]. cbn [fst snd lab]. split; [|reflexivity].
    f_equal.
    rewrite scaleL_scaleR_comm, scaleL_scaleL, scaleR_scaleR.
    subst l. cbn [fst snd].
    replace (f1 - l1 + (l1 - f1)) with 0 by lia. replace (f2 - l2 + (l2 - f2)) with 0 by lia.
    rewrite scaleL_0 by exact HL. apply scaleR_0. exact HR.
Qed.
