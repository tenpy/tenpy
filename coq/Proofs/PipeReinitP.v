(* C17: re-initialising a LegPipe from the saved fields reproduces it. *)
From TenpyV Require Import Base.Prelude Model.Leg Model.Pipe Model.PipeReinit.
Open Scope Z_scope.

Lemma pipe_rows_sorted_attr ci legs qconj srt :
  pipe_rows ci legs qconj (srt || Nat.eqb (length ci) 0) = pipe_rows ci legs qconj srt.
Proof. unfold pipe_rows. destruct srt, (Nat.eqb (length ci) 0); reflexivity. Qed.

Lemma pipe_init_sorted_attr ci legs qconj srt bun :
  pipe_init ci legs qconj (srt || Nat.eqb (length ci) 0) bun = pipe_init ci legs qconj srt bun.
Proof. unfold pipe_init. rewrite pipe_rows_sorted_attr. reflexivity. Qed.

Lemma single_grid legs : single_block legs = true -> exists q, grid (map nblocks legs) = [q].
Proof.
  induction legs as [|l t IH]; intros H; cbn [map grid]; [eexists; reflexivity|].
  cbn [single_block forallb] in H. apply andb_prop in H. destruct H as [H1 H2]. apply Nat.eqb_eq in H1.
  destruct (IH H2) as (q & E). rewrite H1, E. cbn [seq flat_map map app]. eexists; reflexivity.
Qed.

Lemma single_rows ci legs qconj : single_block legs = true -> exists r, rows0 ci legs qconj = [r].
Proof. intros H. destruct (single_grid legs H) as (q & E). unfold rows0. rewrite E. cbn [map]. eexists; reflexivity. Qed.

Lemma single_init ci legs qconj srt bun srt' bun' : single_block legs = true ->
  pipe_init ci legs qconj srt bun = pipe_init ci legs qconj srt' bun'.
Proof.
  intros H. destruct (single_rows ci legs qconj H) as (r & E).
  assert (R : forall s, pipe_rows ci legs qconj s = [r]).
  { intros s. unfold pipe_rows. rewrite E. destruct (s && negb (Nat.eqb (length ci) 0)); reflexivity. }
  unfold pipe_init. rewrite !R. cbn [group_rows]. reflexivity.
Qed.

Lemma pipe_reinit a :
  let o := pipe_construct a in
  let o' := pipe_load (pipe_save a) in
  o' = o /\
  (p_legs (po_pipe o') = a_legs a /\ p_qconj (po_pipe o') = a_qconj a /\
   po_charges o' = po_charges o /\ po_slices o' = po_slices o /\ po_qmap o' = po_qmap o /\
   po_qmap_slices o' = po_qmap_slices o /\ po_sorted o' = po_sorted o /\ po_bunched o' = po_bunched o) /\
  pipe_save (mkPipeArgs (s_chinfo (pipe_save a)) (s_legs (pipe_save a)) (s_qconj (pipe_save a))
                        (s_sorted (pipe_save a)) (s_bunched (pipe_save a))) = pipe_save a.
Proof.
  destruct a as [ci legs qconj srt bun]. cbv zeta.
  unfold pipe_load, pipe_save, pipe_construct, attr_sorted, attr_bunched.
  cbn [s_chinfo s_legs s_qconj s_sorted s_bunched a_chinfo a_legs a_qconj a_sort a_bunch].
  destruct (single_block legs) eqn:S1.
  - rewrite (single_init ci legs qconj true true srt bun S1). repeat split; reflexivity.
  - rewrite pipe_init_sorted_attr, <- orb_assoc, orb_diag. repeat split; reflexivity.
Qed.

Lemma pipe_swap_equal s : s_sorted s = s_bunched s -> pipe_load_swapped s = pipe_load s.
Proof. intros H. unfold pipe_load_swapped, pipe_load. rewrite H. reflexivity. Qed.

Lemma pipe_reinit_swap_differs : exists a,
  let s := pipe_save a in
  s_sorted s = true /\ s_bunched s = false /\
  po_charges (pipe_load_swapped s) <> po_charges (pipe_load s) /\
  po_slices (pipe_load_swapped s) <> po_slices (pipe_load s) /\
  po_qmap (pipe_load_swapped s) <> po_qmap (pipe_load s) /\
  po_qmap_slices (pipe_load_swapped s) <> po_qmap_slices (pipe_load s) /\
  pipe_load s = pipe_construct a.
Proof.
  exists reinit_ex. cbv zeta. split; [reflexivity|]. split; [reflexivity|].
  split; [intros H; vm_compute in H; discriminate H|].
  split; [intros H; vm_compute in H; discriminate H|].
  split; [intros H; vm_compute in H; discriminate H|].
  split; [intros H; vm_compute in H; discriminate H|].
  apply pipe_reinit.
Qed.
