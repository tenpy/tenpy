(* Every transformer of Model/Store.v preserves well-formedness of the heap, hence the frame property holds along every
   finite applicable history; the histories the harness replays are applicable. *)
From TenpyV Require Import Base.Prelude Model.Store Proofs.StoreP.
Open Scope nat_scope.

Lemma perm_lg_lt (l : list nat) perm k :
  Forall (fun i => i < k) l -> Forall (fun j => j < length l) perm ->
  Forall (fun i => i < k) (map (fun j => nth j l 0) perm).
Proof.
  intros Hl Hp. rewrite Forall_forall in *. intros i Hi. apply in_map_iff in Hi.
  destruct Hi as [j [<- Hj]]. apply Hl, nth_In, Hp, Hj.
Qed.

Lemma id_perm_ok h x : perm_ok h x (id_perm (obj h x)).
Proof. unfold perm_ok, id_perm. apply Forall_forall. intros k Hk. apply in_seq in Hk. lia. Qed.

Lemma wf_cells h bs ts ls : wf h ->
  length (bufs h) <= length bs -> length (tabs h) <= length ts -> length (legs h) <= length ls ->
  wf (mkHeap bs ts ls (objs h)).
Proof.
  intros Hwf Lb Lt Ll. eapply Forall_impl; [|exact Hwf]. intros a (Wb & Wt & Wl). repeat split; cbn [bufs tabs legs].
  - eapply Forall_impl; [|exact Wb]. cbn beta. intros; lia.
  - lia.
  - eapply Forall_impl; [|exact Wl]. cbn beta. intros; lia.
Qed.

Lemma wf_add_obj h a : wf h -> wf_arr h a -> wf (add_obj h a).
Proof. intros Hwf Ha. apply Forall_app. split; [exact Hwf|]. constructor; [exact Ha|constructor]. Qed.

Lemma wf_set_obj h x a : wf h -> wf_arr h a -> wf (set_obj h x a).
Proof. apply Forall_upd. Qed.

Lemma wf_arr_fresh bs nb ts t ls os l lb q : Forall (fun i => i < length ls) l ->
  wf_arr (mkHeap (bs ++ nb) (ts ++ [t]) ls os) (mkArr (fresh_ids (length bs) (length nb)) (length ts) l lb q).
Proof.
  intros Hl. unfold wf_arr. cbn [bufs tabs legs blk tab lg]. rewrite !app_length. cbn [length].
  repeat split; [apply fresh_lt; lia|lia|exact Hl].
Qed.

Lemma wf_deep_copy h r : wf h -> live h r -> wf (fst (exec h (OCopy true r))).
Proof.
  intros Hwf Hr. destruct (wf_obj h r Hwf Hr) as (Wb & Wt & Wl). cbn [exec deep_copy fst]. apply wf_add_obj.
  - apply wf_cells; [exact Hwf|rewrite app_length; lia ..|lia].
  - apply wf_arr_fresh, Wl.
Qed.

Lemma wf_exec_rebind h x f gt perm : wf h -> live h x -> perm_ok h x perm ->
  wf (fst (exec h (OMapRebind x f gt perm))).
Proof.
  intros Hwf Hx Hp. destruct (wf_obj h x Hwf Hx) as (Wb & Wt & Wl). cbn [exec rebind fst]. apply wf_set_obj.
  - apply wf_cells; [exact Hwf|rewrite app_length; lia ..|lia].
  - apply wf_arr_fresh, perm_lg_lt; assumption.
Qed.

Lemma live_add_obj h a : live (add_obj h a) (length (objs h)).
Proof. unfold live. cbn [add_obj objs]. rewrite app_length. cbn [length]. lia. Qed.

Lemma wf_transposed_copy h a perm : wf h -> live h a -> perm_ok h a perm ->
  wf (run h [OCopy false a; OMapRebind (length (objs h)) (fun v => v) (fun t => t) perm]).
Proof.
  intros Hwf Ha Hp. apply wf_exec_rebind.
  - apply wf_add_obj; [exact Hwf|apply wf_obj; assumption].
  - exact (live_add_obj h _).
  - unfold perm_ok. cbn [exec fst]. rewrite obj_add_new by reflexivity. exact Hp.
Qed.

Lemma wf_exec h o : wf h -> op_ok h o -> wf (fst (exec h o)).
Proof.
  intros Hwf Hok.
  destruct o as [nb lgs|deep r|r f|r b g|r f gt perm|r gt perm|r f gt newlegs|r f|r f|a b g|a b pa pb F];
    cbn [op_ok] in Hok.
  - (* ONew *)
    apply (wf_add_obj (mkHeap (bufs h ++ repeat [1%Z] nb) (tabs h ++ [[]]) (legs h) (objs h))).
    + apply wf_cells; [exact Hwf|rewrite app_length; lia ..|lia].
    + unfold wf_arr. cbn [bufs tabs legs blk tab lg]. rewrite !app_length, repeat_length. cbn [length].
      repeat split; [apply fresh_lt; lia|lia|exact Hok].
  - (* OCopy *)
    destruct deep; [apply wf_deep_copy; assumption|].
    apply wf_add_obj; [exact Hwf|apply wf_obj; assumption].
  - (* OMapWrite *)
    apply wf_cells; [exact Hwf|rewrite write_all_length; lia|lia ..].
  - (* OBinWrite *)
    apply wf_cells; [exact Hwf|rewrite write_zip_length; lia|lia ..].
  - (* OMapRebind *)
    apply wf_exec_rebind; [exact Hwf|apply Hok ..].
  - (* OMeta *)
    destruct Hok as [Hr Hp]. destruct (wf_obj h r Hwf Hr) as (Wb & Wt & Wl). cbn [exec fst]. apply wf_set_obj.
    + apply wf_cells; [exact Hwf|lia|rewrite app_length; lia|lia].
    + unfold wf_arr. cbn [bufs tabs legs blk tab lg]. rewrite !app_length. cbn [length].
      repeat split; [exact Wb|lia|apply perm_lg_lt; assumption].
  - (* OProject *)
    cbn [exec fst]. apply wf_set_obj.
    + apply wf_cells; [exact Hwf|rewrite app_length; lia ..].
    + apply wf_arr_fresh, fresh_lt. rewrite app_length. apply le_n.
  - (* OUnary: a deep copy, then a loop over its buffers *)
    apply (wf_cells (fst (exec h (OCopy true r)))); [apply wf_deep_copy; assumption|rewrite write_all_length| |];
      apply le_n.
  - (* OScaleAxis *)
    destruct (wf_obj h r Hwf Hok) as (Wb & Wt & Wl). cbn [exec rebind fst]. apply wf_add_obj.
    + apply wf_cells; [exact Hwf|rewrite app_length; lia ..|lia].
    + apply wf_arr_fresh, perm_lg_lt; [exact Wl|apply id_perm_ok].
  - (* OAdd *)
    apply (wf_cells (fst (exec h (OCopy true a)))); [apply wf_deep_copy; tauto|rewrite write_zip_length| |];
      apply le_n.
  - (* OTensordot *)
    destruct Hok as (Ha & Hb & Hpa & Hpb). rewrite exec_tensordot. cbv zeta.
    pose proof (wf_transposed_copy h a pa Hwf Ha Hpa) as W3.
    destruct (keeps_transposed_copy h _ a pa eq_refl) as [K3 L3]. rewrite <- L3.
    assert (Hpb3 : perm_ok _ b pb) by (unfold perm_ok; rewrite (keeps_obj _ _ _ _ b K3 Hb (in_nil (a:=b))); exact Hpb).
    pose proof (wf_transposed_copy _ b pb W3 (keeps_live _ _ _ _ b K3 Hb) Hpb3) as W6.
    destruct (F _ _) as [rb rt]. cbn [fst]. apply wf_add_obj.
    + apply wf_cells; [exact W6|rewrite app_length; lia ..|lia].
    + apply wf_arr_fresh. constructor.
Qed.

Lemma run_app h pre : forall post, run h (pre ++ post) = run (run h pre) post.
Proof. revert h. induction pre as [|o t IH]; intros h post; cbn [run app]; [reflexivity|apply IH]. Qed.

Lemma ops_ok_app pre : forall h post, ops_ok h (pre ++ post) -> ops_ok h pre /\ ops_ok (run h pre) post.
Proof.
  induction pre as [|o t IH]; intros h post Hok; cbn [run app ops_ok] in *; [split; [exact I|exact Hok]|].
  destruct Hok as [Ho Ht]. destruct (IH _ _ Ht) as [H1 H2]. repeat split; assumption.
Qed.

Lemma wf_run os : forall h, wf h -> ops_ok h os -> wf (run h os).
Proof.
  induction os as [|o t IH]; intros h Hwf Hok; cbn [run ops_ok] in *; [exact Hwf|].
  destruct Hok as [Ho Ht]. apply IH; [apply wf_exec; assumption|exact Ht].
Qed.

Lemma run_objs_mono os : forall h, length (objs h) <= length (objs (run h os)).
Proof.
  induction os as [|o t IH]; intros h; cbn [run]; [lia|].
  pose proof (objs_mono h o). pose proof (IH (fst (exec h o))). lia.
Qed.

Lemma legs_run os : forall h i, i < length (legs h) -> nth i (legs (run h os)) dleg = nth i (legs h) dleg.
Proof.
  induction os as [|o t IH]; intros h i Hi; cbn [run]; [reflexivity|].
  rewrite IH by (pose proof (legs_mono h o); lia). apply legs_immutable, Hi.
Qed.

Lemma history_untouched os : forall h x, wf h -> ops_ok h os -> x < length (objs h) ->
  (forall pre o post, os = pre ++ o :: post -> ~ In x (may_change (run h pre) o)) ->
  denote (run h os) x = denote h x.
Proof.
  induction os as [|o t IH]; intros h x Hwf Hok Hx Hno; cbn [run ops_ok] in *; [reflexivity|].
  destruct Hok as [Ho Ht].
  rewrite IH.
  - apply frame_may_change; [exact Hwf|exact Hx|]. apply (Hno [] o t). reflexivity.
  - apply wf_exec; assumption.
  - exact Ht.
  - pose proof (objs_mono h o). lia.
  - intros pre o' post Heq. apply (Hno (o :: pre) o' post). cbn [app]. rewrite Heq. reflexivity.
Qed.

Lemma history_frame os h : wf h -> ops_ok h os ->
  wf (run h os) /\
  (forall pre o post, os = pre ++ o :: post ->
     wf (run h pre) /\ wf (fst (exec (run h pre) o)) /\
     forall x, x < length (objs (run h pre)) -> ~ In x (may_change (run h pre) o) ->
               denote (fst (exec (run h pre) o)) x = denote (run h pre) x) /\
  (forall x, x < length (objs h) ->
     (forall pre o post, os = pre ++ o :: post -> ~ In x (may_change (run h pre) o)) ->
     denote (run h os) x = denote h x).
Proof.
  intros Hwf Hok. split; [apply wf_run; assumption|]. split.
  - intros pre o post ->. apply ops_ok_app in Hok. destruct Hok as [Hpre Hpost].
    cbn [ops_ok] in Hpost. destruct Hpost as [Ho _].
    pose proof (wf_run pre h Hwf Hpre) as Wk.
    split; [exact Wk|]. split; [apply wf_exec; assumption|].
    intros x Hx Hnot. apply frame_may_change; assumption.
  - intros x Hx Hno. apply history_untouched; assumption.
Qed.

(* a function returns the tensor it allocates last (`live` looks at `objs` only, which computes to `objs h ++ [_]`), an
   in-place method its receiver *)
Lemma res_live h o : op_ok h o -> live (fst (exec h o)) (snd (exec h o)).
Proof.
  intros Hok.
  destruct o as [nb lgs|deep r|r f|r b g|r f gt perm|r gt perm|r f gt newlegs|r f|r f|a b g|a b pa pb F];
    cbn [op_ok] in Hok.
  - (* ONew *) exact (live_add_obj h _).
  - (* OCopy *) destruct deep; exact (live_add_obj h _).
  - (* OMapWrite *) exact Hok.
  - (* OBinWrite *) exact (proj1 Hok).
  - (* OMapRebind *) apply (keeps_live _ _ _ _ r (exec_keeps h _)), Hok.
  - (* OMeta *) apply (keeps_live _ _ _ _ r (exec_keeps h _)), Hok.
  - (* OProject *) exact (keeps_live _ _ _ _ r (exec_keeps h _) Hok).
  - (* OUnary *) exact (live_add_obj h _).
  - (* OScaleAxis *) exact (live_add_obj h _).
  - (* OAdd *) exact (live_add_obj h _).
  - (* OTensordot *)
    rewrite exec_tensordot. cbv zeta.
    destruct (keeps_transposed_copy h _ a pa eq_refl) as [_ L3].
    destruct (keeps_transposed_copy _ _ b pb (eq_sym L3)) as [_ L6].
    destruct (F _ _) as [rb rt]. unfold live. cbn [fst snd add_obj objs]. rewrite app_length, L6. cbn [length]. lia.
Qed.

Lemma to_op_ok h regs n k ra rb ch :
  n <= length (legs h) -> Forall (live h) regs -> hstep_ok n (length regs) (k, ra, rb, ch) = true ->
  op_ok h (to_op h k (nth ra regs 0) (nth rb regs 0)).
Proof.
  intros Hn Hregs Hok.
  assert (Hlive : forall r, Nat.ltb r (length regs) = true -> live h (nth r regs 0)).
  { intros r Hr. apply Nat.ltb_lt in Hr. rewrite Forall_forall in Hregs. apply Hregs, nth_In, Hr. }
  destruct k as [nb lgs|d| | | | | | | | | ]; cbn [hstep_ok] in Hok; cbn [to_op op_ok];
    try (apply Hlive, Hok).
  - apply Forall_forall. intros i Hi. rewrite forallb_forall in Hok. specialize (Hok i Hi).
    apply Nat.ltb_lt in Hok. lia.
  - apply andb_true_iff in Hok. destruct Hok as [H1 H2]. split; apply Hlive; assumption.
  - split; [apply Hlive, Hok|apply id_perm_ok].
  - split; [apply Hlive, Hok|apply id_perm_ok].
  - apply andb_true_iff in Hok. destruct Hok as [H1 H2]. split; apply Hlive; assumption.
  - apply andb_true_iff in Hok. destruct Hok as [H1 H2].
    repeat split; try (apply Hlive; assumption); apply id_perm_ok.
Qed.

Lemma history_ops_ok n steps : forall h regs,
  n <= length (legs h) -> Forall (live h) regs -> history_ok n (length regs) steps = true ->
  ops_ok h (history_ops h regs steps).
Proof.
  induction steps as [|[[[k ra] rb] ch] t IH]; intros h regs Hn Hregs Hok; cbn [history_ops ops_ok]; [exact I|].
  cbn [history_ok] in Hok. apply andb_true_iff in Hok. destruct Hok as [Hs Ht].
  pose proof (to_op_ok h regs n k ra rb ch Hn Hregs Hs) as Ho.
  split; [exact Ho|]. apply IH.
  - pose proof (legs_mono h (to_op h k (nth ra regs 0) (nth rb regs 0))). lia.
  - apply Forall_app. split.
    + eapply Forall_impl; [|exact Hregs]. intros x. apply (keeps_live _ _ _ _ x (exec_keeps h _)).
    + constructor; [apply res_live, Ho|constructor].
  - rewrite app_length. cbn [length]. rewrite Nat.add_1_r. exact Ht.
Qed.

Lemma harness_history n steps : history_ok n 0 steps = true ->
  let h0 := mkHeap [] [] (repeat dleg n) [] in
  wf h0 /\ ops_ok h0 (history_ops h0 [] steps).
Proof.
  intros Hok h0. split; [constructor|].
  apply (history_ops_ok n); [unfold h0; cbn [legs]; rewrite repeat_length; lia|constructor|exact Hok].
Qed.
