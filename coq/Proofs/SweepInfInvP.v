(* Infinite environments (Model/SweepInf.v) through a description U of the stored tags that is much weaker than the state.
   The chain is unrolled: a position p stands for the key p mod L, and for site p mod L.  U has a window [W, W + L) of L
   sites; a tag stored at the key of an LP position p <= b has its first p - W factors current (sites p-1, .., W: `cur`),
   one at the key of an RP position p >= a its first W + L - 1 - p (sites p+1, .., W + L - 1); the sets mL, mR name
   positions whose keys are known to be stored.  Factors beyond the depth (other copies of the unit cell) and keys that
   stand for no such position are unconstrained.  With W = 0 and no wrap-around this reads like the invariant Shape of
   Proofs/SweepP2.v. *)
From TenpyV Require Import Base.Prelude Model.Sweep Model.SweepInf Proofs.SweepP2.
Local Open Scope nat_scope.

Definition cur (w : nat) (t : btag) : Prop := firstn w t = repeat true w.

Lemma cur_S w b t : cur (S w) (b :: t) <-> b = true /\ cur w t.
Proof.
  unfold cur. cbn [firstn repeat]. split.
  - intros H. injection H as -> H. split; [reflexivity|exact H].
  - intros [-> H]. rewrite H. reflexivity.
Qed.

Lemma cur_le w : forall w' t, cur w t -> w' <= w -> cur w' t.
Proof.
  induction w as [|w IH]; intros [|w'] t H Hw; try reflexivity; [lia|].
  destruct t as [|b t]; [discriminate H|]. apply cur_S in H. apply cur_S.
  split; [apply H|]. apply (IH w' t); [apply H|lia].
Qed.

(* Only the nearest cap L = 2L + 2 factors are recorded (the constant of the model and of the tracer in harness/c13.py);
   the reads of the schedule ask for at most L, so any cap >= L would serve.  Every depth below is cut at cap L (`side`),
   this is the only place that looks at the cut, and step_U takes i0 <= 2 * L as the crude bound that puts the depth of
   its LP read below cap L *)
Lemma cur_push w w' c t : cur w t -> w' <= S w -> w' <= c -> cur w' (firstn c (true :: t)).
Proof.
  intros H H1 H2. unfold cur. rewrite firstn_firstn, Nat.min_l by exact H2.
  apply (cur_le (S w)); [|exact H1]. apply cur_S. split; [reflexivity|exact H].
Qed.

Lemma current_upto_cur w need t : cur w t -> need <= w -> current_upto need (Some t) = true.
Proof.
  intros H Hn. apply (cur_le w need) in H; [|exact Hn]. unfold current_upto. apply andb_true_intro. split.
  - apply Nat.leb_le. apply (f_equal (@length bool)) in H. rewrite firstn_length, repeat_length in H. lia.
  - rewrite H. clear. induction need as [|k IH]; [reflexivity|exact IH].
Qed.

Definition mark_keeps (nxt : nat -> nat) (j c w : nat) : Prop := forall t, cur w t -> cur w (mark nxt j c t).

Lemma mark_keeps_step nxt j c w : c <> j -> mark_keeps nxt j (nxt c) w -> mark_keeps nxt j c (S w).
Proof.
  intros Hc IH [|b t] H; [discriminate H|]. apply cur_S in H. destruct H as [-> H]. cbn [mark]. apply cur_S.
  split; [|apply IH; exact H]. destruct (Nat.eqb_spec c j); [contradiction|reflexivity].
Qed.

Lemma prev_site_mod L C : 0 < L -> prev_site L (C mod L) = (C + L - 1) mod L.
Proof.
  intros HL. pose proof (Nat.div_mod C L ltac:(lia)) as E. pose proof (Nat.mod_upper_bound C L ltac:(lia)) as B.
  set (r := C mod L) in *. set (q := C / L) in *. clearbody r q. destruct r as [|r]; cbn [prev_site].
  - apply (Nat.mod_unique _ L q); lia.
  - apply (Nat.mod_unique _ L (S q)); lia.
Qed.

Lemma next_site_mod L C : 0 < L -> next_site L (C mod L) = S C mod L.
Proof.
  intros HL. pose proof (Nat.div_mod C L ltac:(lia)) as E. pose proof (Nat.mod_upper_bound C L ltac:(lia)) as B.
  set (r := C mod L) in *. set (q := C / L) in *. clearbody r q. unfold next_site. destruct (Nat.eqb_spec (S r) L).
  - apply (Nat.mod_unique _ L (S q)); lia.
  - apply (Nat.mod_unique _ L q); lia.
Qed.

(* an LP whose first factor is site C, of depth d, covers sites C, C-1, .., C-d+1; an RP C, C+1, .., C+d-1; no copy of
   site J is among them *)
Lemma keeps_l L j : 0 < L -> forall d C J, J mod L = j -> (0 < d -> C < J /\ J + d <= C + L) ->
  mark_keeps (prev_site L) j (C mod L) d.
Proof.
  intros HL. induction d as [|d IH]; intros C J Ej H; [intros t _; reflexivity|].
  destruct (H ltac:(lia)) as [H1 H2]. apply mark_keeps_step.
  - rewrite <- Ej. apply apart_mod; [exact HL|unfold apart; lia].
  - rewrite prev_site_mod by exact HL. apply (IH _ (J + L)); [rewrite mod_add_L by exact HL; exact Ej|lia].
Qed.

Lemma keeps_r L j : 0 < L -> forall d C J, J mod L = j -> (0 < d -> J < C /\ C + d <= J + L) ->
  mark_keeps (next_site L) j (C mod L) d.
Proof.
  intros HL. induction d as [|d IH]; intros C J Ej H; [intros t _; reflexivity|].
  destruct (H ltac:(lia)) as [H1 H2]. apply mark_keeps_step.
  - rewrite <- Ej. apply apart_mod; [exact HL|unfold apart; lia].
  - rewrite next_site_mod by exact HL. apply (IH _ J Ej). lia.
Qed.

Lemma site_l0_mod L p : 0 < L -> site_l0 L (p mod L) = (p + L - 1) mod L.
Proof.
  intros HL. unfold site_l0. replace (p mod L + L - 1) with (p mod L + (L - 1)) by lia.
  rewrite Nat.add_mod_idemp_l by lia. f_equal. lia.
Qed.

Lemma site_r0_mod L p : 0 < L -> site_r0 L (p mod L) = S p mod L.
Proof. intros HL. unfold site_r0. rewrite Nat.add_mod_idemp_l by lia. f_equal. lia. Qed.

Lemma mark_all_length first nxt j l : forall i, length (mark_all first nxt j i l) = length l.
Proof. induction l as [|o l IH]; intros i; cbn [mark_all length]; [reflexivity|]. rewrite IH. reflexivity. Qed.

Lemma nth_mark_all first nxt j l : forall i k,
  nth k (mark_all first nxt j i l) None = option_map (mark nxt j (first (i + k))) (nth k l None).
Proof.
  induction l as [|o l IH]; intros i [|k]; cbn [mark_all nth]; try reflexivity.
  - rewrite Nat.add_0_r. destruct o; reflexivity.
  - rewrite IH. replace (S i + k) with (i + S k) by lia. reflexivity.
Qed.

Definition side (L : nat) (m R : nat -> Prop) (dep : nat -> nat) (l : list (option btag)) : Prop :=
  length l = L /\ (forall p, m p -> nth (p mod L) l None <> None) /\
  forall p t, R p -> nth (p mod L) l None = Some t -> cur (Nat.min (dep p) (cap L)) t.

Lemma side_weaken {L m R dep l} (m' R' : nat -> Prop) dep' : side L m R dep l ->
  (forall p, m' p -> m p) -> (forall p, R' p -> R p /\ dep' p <= dep p) -> side L m' R' dep' l.
Proof.
  intros (Hl & Hm & Hd) H1 H2. split; [exact Hl|]. split.
  - intros p Hp. exact (Hm p (H1 p Hp)).
  - intros p t Hp E. destruct (H2 p Hp) as [Hr Hle].
    exact (cur_le _ _ t (Hd p t Hr E) (Nat.min_le_compat_r _ _ _ Hle)).
Qed.

Lemma side_set_some {L m R dep l} k t D : side L m R dep l -> cur (Nat.min D (cap L)) t ->
  (forall p, R p -> p mod L = k -> dep p <= D) -> side L m R dep (set_nth l k (Some t)).
Proof.
  intros (Hl & Hm & Hd) Ht H. split; [rewrite set_nth_length; exact Hl|]. split.
  - intros p Hp E. apply (Hm p Hp). destruct (Nat.eq_dec (p mod L) k) as [Ek|Ek].
    + rewrite Ek in *. destruct (Nat.lt_ge_cases k (length l)) as [Hk|Hk].
      * rewrite nth_set_nth_eq in E by exact Hk. discriminate.
      * apply nth_overflow. exact Hk.
    + rewrite nth_set_nth_neq in E by exact Ek. exact E.
  - intros p u Hp E. apply nth_set_nth_some in E. destruct E as [[Ek Ex]|[_ E]]; [|exact (Hd p u Hp E)].
    injection Ex as <-. exact (cur_le _ _ t Ht (Nat.min_le_compat_r _ _ _ (H p Hp Ek))).
Qed.

Lemma side_set_none {L m R dep l} (m' R' : nat -> Prop) k : side L m R dep l ->
  (forall p, m' p -> m p /\ p mod L <> k) -> (forall p, R' p -> R p \/ p mod L = k) -> side L m' R' dep (set_nth l k None).
Proof.
  intros (Hl & Hm & Hd) H1 H2. split; [rewrite set_nth_length; exact Hl|]. split.
  - intros p Hp. destruct (H1 p Hp) as [Hp' Hne]. rewrite nth_set_nth_neq by exact Hne. exact (Hm p Hp').
  - intros p u Hp E. apply nth_set_nth_some in E. destruct E as [[_ Ex]|[Hne E]]; [discriminate|].
    destruct (H2 p Hp) as [Hr|Ek]; [exact (Hd p u Hr E)|contradiction].
Qed.

Lemma side_mark {L m R dep l} first nxt j : side L m R dep l ->
  (forall p, R p -> mark_keeps nxt j (first (p mod L)) (Nat.min (dep p) (cap L))) -> side L m R dep (mark_all first nxt j 0 l).
Proof.
  intros (Hl & Hm & Hd) H. split; [rewrite mark_all_length; exact Hl|]. split.
  - intros p Hp. rewrite nth_mark_all. specialize (Hm p Hp). destruct (nth (p mod L) l None); [discriminate|exact Hm].
  - intros p t Hp E. rewrite nth_mark_all in E. cbn [plus] in E.
    destruct (nth (p mod L) l None) as [u|] eqn:Eu; [|discriminate]. injection E as <-. apply (H p Hp). exact (Hd p u Hp Eu).
Qed.

Lemma side_forget {L m R dep l} (m' : nat -> Prop) : side L m R dep l -> (forall p, m' p -> m p) -> side L m' R dep l.
Proof. intros H H1. apply (side_weaken _ _ _ H H1). intros p Hp. split; [exact Hp|apply le_n]. Qed.

Lemma side_stored {L m R dep l} p : side L m R dep l -> m p -> nth (p mod L) l None <> None.
Proof. intros (_ & Hm & _). exact (Hm p). Qed.

Lemma side_add_key {L m R dep l} (m' : nat -> Prop) k : side L m R dep l -> nth (k mod L) l None <> None ->
  (forall p, m' p -> m p \/ p mod L = k mod L) -> side L m' R dep l.
Proof.
  intros (Hl & Hm & Hd) Hk H. split; [exact Hl|]. split; [|exact Hd].
  intros p Hp. destruct (H p Hp) as [Hp'|E]; [exact (Hm p Hp')|rewrite E; exact Hk].
Qed.

Definition U (L W b a : nat) (mL mR : nat -> Prop) (s : ist) : Prop :=
  side L mL (fun p => p <= b) (fun p => p - W) (ilp s) /\ side L mR (fun p => a <= p) (fun p => W + L - S p) (irp s).

Lemma find_l_spec L l i : forall fuel d d0, d <= d0 < d + fuel -> nth ((i + L - d0) mod L) l None <> None ->
  exists d' t, find_l L l i d fuel = Some (d', t) /\ d <= d' <= d0 /\ nth ((i + L - d') mod L) l None = Some t.
Proof.
  induction fuel as [|fuel IH]; intros d d0 Hd H; [lia|]. cbn [find_l].
  destruct (nth ((i + L - d) mod L) l None) as [t|] eqn:E.
  - exists d, t. split; [reflexivity|]. split; [lia|exact E].
  - assert (d <> d0) by (intros ->; exact (H E)).
    destruct (IH (S d) d0 ltac:(lia) H) as (d' & t & E1 & E2 & E3). exists d', t. split; [exact E1|]. split; [lia|exact E3].
Qed.

Lemma extend_l_side L m R dep : 0 < L -> forall cnt s pL t D,
  side L m R dep (ilp s) -> nth (pL mod L) (ilp s) None = Some t -> cur (Nat.min D (cap L)) t ->
  (forall c p, c < cnt -> R p -> p mod L = (pL + S c) mod L -> dep p <= D + S c) ->
  let r := extend_l L s pL cnt t in
  irp (fst r) = irp s /\ side L m R dep (ilp (fst r)) /\
  nth ((pL + cnt) mod L) (ilp (fst r)) None = Some (snd r) /\ cur (Nat.min (D + cnt) (cap L)) (snd r).
Proof.
  intros HL. induction cnt as [|c IH]; intros s pL t D Hs Ht Hc Hp.
  - cbn [extend_l fst snd]. rewrite !Nat.add_0_r. auto.
  - cbn [extend_l]. set (t' := firstn (cap L) (true :: t)).
    assert (Ht' : cur (Nat.min (S D) (cap L)) t') by (apply (cur_push _ _ _ _ Hc); lia).
    replace (pL + S c) with (S pL + c) by lia. replace (D + S c) with (S D + c) by lia.
    apply (IH (mkI (set_nth (ilp s) ((pL + 1) mod L) (Some t')) (irp s)) (S pL) t' (S D)).
    + cbn [ilp]. apply (side_set_some _ _ (S D) Hs Ht'). intros p Hr Ek.
      rewrite <- (Nat.add_1_r D). exact (Hp 0 p (Nat.lt_0_succ c) Hr Ek).
    + cbn [ilp]. replace (S pL) with (pL + 1) by lia. apply nth_set_nth_eq. destruct Hs as [Hl _]. rewrite Hl.
      apply Nat.mod_upper_bound. lia.
    + exact Ht'.
    + intros c' p Hc' Hr. replace (S pL + S c') with (pL + S (S c')) by lia. replace (S D + S c') with (D + S (S c')) by lia.
      apply Hp; [lia|exact Hr].
Qed.

(* q is a position known to be stored, less than L below i: the search finds it or a nearer one.  The tag is claimed
   current only for i <= b; a read at or beyond the front b (the renewals) needs i < W + L, so that a key it overwrites
   on the way claims no more depth than the tag written there has *)
Lemma get_lp_U {L W b a mL mR} s i q : 0 < L -> U L W b a mL mR s -> q <= i < q + L -> mL q -> b <= q + L ->
  i < W + L \/ i <= b ->
  exists s' t, get_lp_i L s i = (s', Some t) /\ U L W b a (fun p => mL p \/ p = i) mR s' /\
    (i <= b -> cur (Nat.min (i - W) (cap L)) t).
Proof.
  intros HL [HS HR] Hq Hm Hb Hi. pose proof HS as (_ & _ & Hd). unfold get_lp_i.
  destruct (find_l_spec L (ilp s) i L 0 (i - q)) as (d & t & E & Hdd & Et); [lia| |].
  { replace (i + L - (i - q)) with (q + L) by lia. rewrite mod_add_L by exact HL. exact (side_stored q HS Hm). }
  rewrite E. cbn [fst snd].
  (* the tag found at position i - d is known to depth D *)
  set (D := if i - d <=? b then i - d - W else 0).
  destruct (extend_l_side L mL _ _ HL d s (i + L - d) t D HS Et) as (I1 & I2 & I3 & I4).
  - unfold D. destruct (Nat.leb_spec (i - d) b) as [Hle|]; [|reflexivity]. apply (Hd (i - d) t Hle).
    rewrite <- Et. f_equal. rewrite <- (mod_add_L L (i - d)) by exact HL. f_equal. lia.
  - intros c p Hc Hp. replace (i + L - d + S c) with (i - d + S c + L) by lia. rewrite mod_add_L by exact HL. intros Ek.
    (* p is the position stored to, or lies at least L below it *)
    pose proof (mod_near L p _ HL Ek) as H1. pose proof (mod_near L (p + L) (i - d + S c) HL) as H2.
    rewrite mod_add_L in H2 by exact HL. specialize (H2 Ek). clear Ek.
    unfold D. destruct (Nat.leb_spec (i - d) b); lia.
  - replace (i + L - d + d) with (i + L) in I3 by lia. rewrite mod_add_L in I3 by exact HL.
    eexists _, _. split; [reflexivity|]. split; [split|].
    + apply (side_add_key _ i I2); [rewrite I3; discriminate|]. intros p [Hp| ->]; auto.
    + rewrite I1. exact HR.
    + intros Hib. clear Hi. apply (cur_le _ _ _ I4). unfold D. destruct (Nat.leb_spec (i - d) b); lia.
Qed.

Lemma find_r_spec L l i : forall fuel d d0, d <= d0 < d + fuel -> nth ((i + d0) mod L) l None <> None ->
  exists d' t, find_r L l i d fuel = Some (d', t) /\ d <= d' <= d0 /\ nth ((i + d') mod L) l None = Some t.
Proof.
  induction fuel as [|fuel IH]; intros d d0 Hd H; [lia|]. cbn [find_r].
  destruct (nth ((i + d) mod L) l None) as [t|] eqn:E.
  - exists d, t. split; [reflexivity|]. split; [lia|exact E].
  - assert (d <> d0) by (intros ->; exact (H E)).
    destruct (IH (S d) d0 ltac:(lia) H) as (d' & t & E1 & E2 & E3). exists d', t. split; [exact E1|]. split; [lia|exact E3].
Qed.

Lemma extend_r_side L m R dep i : 0 < L -> forall cnt s t D,
  side L m R dep (irp s) -> nth ((i + cnt) mod L) (irp s) None = Some t -> cur (Nat.min D (cap L)) t ->
  (forall c p, c < cnt -> R p -> p mod L = (i + c) mod L -> dep p + c <= D + cnt) ->
  let r := extend_r L s i cnt t in
  ilp (fst r) = ilp s /\ side L m R dep (irp (fst r)) /\
  nth (i mod L) (irp (fst r)) None = Some (snd r) /\ cur (Nat.min (D + cnt) (cap L)) (snd r).
Proof.
  intros HL. induction cnt as [|c IH]; intros s t D Hs Ht Hc Hp.
  - cbn [extend_r fst snd]. rewrite !Nat.add_0_r in *. auto.
  - cbn [extend_r]. set (t' := firstn (cap L) (true :: t)).
    assert (Ht' : cur (Nat.min (S D) (cap L)) t') by (apply (cur_push _ _ _ _ Hc); lia).
    replace (D + S c) with (S D + c) by lia.
    apply (IH (mkI (ilp s) (set_nth (irp s) ((i + c) mod L) (Some t'))) t' (S D)).
    + cbn [irp]. apply (side_set_some _ _ (S D) Hs Ht'). intros p Hr Ek.
      specialize (Hp c p (Nat.lt_succ_diag_r c) Hr Ek). clear Ek. lia.
    + cbn [irp]. apply nth_set_nth_eq. destruct Hs as [Hl _]. rewrite Hl. apply Nat.mod_upper_bound. lia.
    + exact Ht'.
    + intros c' p Hc' Hr Ek. specialize (Hp c' p (Nat.lt_lt_succ_r _ _ Hc') Hr Ek). clear Ek. lia.
Qed.

(* the mirror image: q less than L above i; a read at or below the front a needs W <= i *)
Lemma get_rp_U {L W b a mL mR} s i q : 0 < L -> U L W b a mL mR s -> i <= q < i + L -> mR q -> q < a + L ->
  W <= i \/ a <= i ->
  exists s' t, get_rp_i L s i = (s', Some t) /\ U L W b a mL (fun p => mR p \/ p = i) s' /\
    (a <= i -> cur (Nat.min (W + L - S i) (cap L)) t).
Proof.
  intros HL [HS HR] Hq Hm Ha Hi. pose proof HR as (_ & _ & Hd). unfold get_rp_i.
  destruct (find_r_spec L (irp s) i L 0 (q - i)) as (d & t & E & Hdd & Et); [lia| |].
  { replace (i + (q - i)) with q by lia. exact (side_stored q HR Hm). }
  rewrite E. cbn [fst snd].
  set (D := if a <=? i + d then W + L - S (i + d) else 0).
  destruct (extend_r_side L mR _ _ i HL d s t D HR Et) as (I1 & I2 & I3 & I4).
  - unfold D. destruct (Nat.leb_spec a (i + d)) as [Hle|]; [|reflexivity]. exact (Hd (i + d) t Hle Et).
  - intros c p Hc Hp Ek. apply eq_sym in Ek.
    pose proof (mod_near L (i + c) p HL Ek) as H1. pose proof (mod_near L (i + c + L) p HL) as H2.
    rewrite mod_add_L in H2 by exact HL. specialize (H2 Ek). clear Ek.
    unfold D. destruct (Nat.leb_spec a (i + d)); lia.
  - eexists _, _. split; [reflexivity|]. split; [split|].
    + rewrite I1. exact HS.
    + apply (side_add_key _ i I2); [rewrite I3; discriminate|]. intros p [Hp| ->]; auto.
    + intros Hib. clear Hi. apply (cur_le _ _ _ I4). unfold D. destruct (Nat.leb_spec a (i + d)); lia.
Qed.

(* the window may move (W to W') if that leaves no claim *)
Lemma update_U {L W b a mL mR} W' b' a' s iL : 0 < L -> U L W b a mL mR s -> iL <= b -> a <= S iL ->
  b' <= S iL -> W <= W' \/ b' <= W' -> S iL < W' + L -> iL <= a' -> W' <= W \/ W' + L <= S a' -> W' <= iL ->
  U L W' b' a' (fun p => mL p /\ apart L p (S iL)) (fun p => mR p /\ apart L p iL)
    (del_rp_i L (del_lp_i L (bump_i L (bump_i L s iL) (S iL)) (S iL)) iL).
Proof.
  intros HL [HS HR] Hb Ha Hb' HW1 HR1 Ha' HW2 HL1. unfold del_rp_i, del_lp_i, bump_i. cbn [ilp irp]. split.
  - assert (K : forall J, iL <= J <= S iL -> forall p, p <= b' /\ p <= iL ->
      mark_keeps (prev_site L) (J mod L) (site_l0 L (p mod L)) (Nat.min (p - W') (cap L))).
    { intros J HJ p [_ Hp]. rewrite site_l0_mod by exact HL.
      apply (keeps_l L _ HL _ _ (J + L)); [apply mod_add_L; exact HL|lia]. }
    apply (side_set_none (m := mL) (R := fun p => p <= b' /\ p <= iL)).
    + apply side_mark; [apply side_mark; [|apply K; lia]|apply K; lia].
      apply (side_weaken _ _ _ HS); [auto|]. intros p [H1 H2]. lia.
    + intros p [Hp Hq]. exact (conj Hp (apart_mod L _ _ HL Hq)).
    + intros p Hp. destruct (Nat.eq_dec p (S iL)) as [->|]; [right; reflexivity|left; lia].
  - assert (K : forall J, iL <= J <= S iL -> forall p, a' <= p /\ S iL <= p ->
      mark_keeps (next_site L) (J mod L) (site_r0 L (p mod L)) (Nat.min (W' + L - S p) (cap L))).
    { intros J HJ p [_ Hp]. rewrite site_r0_mod by exact HL. apply (keeps_r L _ HL _ _ J eq_refl). lia. }
    apply (side_set_none (m := mR) (R := fun p => a' <= p /\ S iL <= p)).
    + apply side_mark; [apply side_mark; [|apply K; lia]|apply K; lia].
      apply (side_weaken _ _ _ HR); [auto|]. intros p [H1 H2]. lia.
    + intros p [Hp Hq]. exact (conj Hp (apart_mod L _ _ HL Hq)).
    + intros p Hp. destruct (Nat.eq_dec p iL) as [->|]; [right; reflexivity|left; lia].
Qed.

Lemma renew_lp_U {L W b a mL mR} s i q (u : bool) : 0 < L -> U L W b a mL mR s -> b <= i -> i < W + L ->
  (u = true -> q <= i < q + L /\ mL q) ->
  U L W b a (fun p => mL p \/ u = true /\ near L p i) mR (if u then fst (get_lp_i L s i) else s).
Proof.
  intros HL HU Hb Hi H. destruct u.
  - destruct (H eq_refl) as [H1 H2].
    destruct (get_lp_U s i q HL HU H1 H2 ltac:(lia) (or_introl Hi)) as (s' & t & E & [A B] & _).
    rewrite E. split; [|exact B]. apply (side_add_key _ i A (side_stored i A (or_intror eq_refl))).
    intros p [Hp|[_ Hp]]; [auto|right; exact (near_mod L p i HL (or_introl Hp))].
  - destruct HU as [A B]. split; [|exact B]. apply (side_forget _ A). intros p [Hp|[Hp _]]; [exact Hp|discriminate].
Qed.

Lemma renew_rp_U {L W b a mL mR} s i q (u : bool) : 0 < L -> U L W b a mL mR s -> i <= a -> W <= i ->
  (u = true -> i <= q < i + L /\ mR q) ->
  U L W b a mL (fun p => mR p \/ u = true /\ near L i p) (if u then fst (get_rp_i L s i) else s).
Proof.
  intros HL HU Ha Hi H. destruct u.
  - destruct (H eq_refl) as [H1 H2].
    destruct (get_rp_U s i q HL HU H1 H2 ltac:(lia) (or_introl Hi)) as (s' & t & E & [A B] & _).
    rewrite E. split; [exact A|]. apply (side_add_key _ i B (side_stored i B (or_intror eq_refl))).
    intros p [Hp|[_ Hp]]; [auto|right; exact (near_mod L p i HL (or_intror Hp))].
  - destruct HU as [A B]. split; [exact A|]. apply (side_forget _ B). intros p [Hp|[Hp _]]; [exact Hp|discriminate].
Qed.

Lemma del_lp_U {L W b a mL mR} (mL' : nat -> Prop) s i (u : bool) : 0 < L -> U L W b a mL mR s ->
  (forall p, mL' p -> mL p /\ (u = true -> apart L p i)) -> U L W b a mL' mR (if u then del_lp_i L s i else s).
Proof.
  intros HL [A B] H. split; [|destruct u; exact B]. destruct u.
  - unfold del_lp_i. cbn [ilp]. apply (side_set_none _ _ _ A); [|auto]. intros p Hp. destruct (H p Hp) as [H1 H2].
    exact (conj H1 (apart_mod L _ _ HL (H2 eq_refl))).
  - apply (side_forget _ A). intros p Hp. apply (H p Hp).
Qed.

Lemma del_rp_U {L W b a mL mR} (mR' : nat -> Prop) s i (u : bool) : 0 < L -> U L W b a mL mR s ->
  (forall p, mR' p -> mR p /\ (u = true -> apart L p i)) -> U L W b a mL mR' (if u then del_rp_i L s i else s).
Proof.
  intros HL [A B] H. split; [destruct u; exact A|]. destruct u.
  - unfold del_rp_i. cbn [irp]. apply (side_set_none _ _ _ B); [|auto]. intros p Hp. destruct (H p Hp) as [H1 H2].
    exact (conj H1 (apart_mod L _ _ HL (H2 eq_refl))).
  - apply (side_forget _ B). intros p Hp. apply (H p Hp).
Qed.

(* step_i with the final deletions as two independent optional deletions *)
Lemma step_i_eq L n s i0 mr upl upr : n = 1 \/ n = 2 ->
  step_i L n s (i0, mr, (upl, upr)) =
  let r1 := get_lp_i L s i0 in
  let r2 := get_rp_i L (fst r1) (i0 + n - 1) in
  let w0 := if mr then 0 else n in
  let iL := fst (env_inds n i0 mr) in
  let iR := snd (env_inds n i0 mr) in
  let s4 := del_rp_i L (del_lp_i L (bump_i L (bump_i L (fst r2) iL) iR) iR) iL in
  let s5 := if upl then fst (get_lp_i L s4 iR) else s4 in
  let s6 := if upr then fst (get_rp_i L s5 iL) else s5 in
  let s7 := if upr && ((n =? 2) || mr) then del_lp_i L s6 iL else s6 in
  (if upl && ((n =? 2) || negb mr) then del_rp_i L s7 iR else s7,
   current_upto (i0 - w0) (snd r1) && current_upto (w0 + L - 1 - (i0 + n - 1)) (snd r2)).
Proof. intros [-> | ->]; unfold step_i; destruct (env_inds _ i0 mr) as [iL iR]; destruct mr, upl, upr; reflexivity. Qed.

(* W' b' a' mL' mR' describe the state after the entry; iL, iL + 1 are the rewritten sites; the reads of LP[i0] and
   RP[i0 + n - 1] extend from the stored positions qL, qR, the renewals of LP[iL + 1] and RP[iL] from qL', qR'.  The
   hypotheses, in order: the entry, the window of the reads, the two reads, what the update leaves of LP and of RP, the
   two renewals, the keys still known to be stored.  The last four have exactly the shape in which get_lp_U / get_rp_U,
   update_U and renew_lp_U / renew_rp_U add to and cut down mL and mR, so that the closing `exact` matches them by
   conversion: rephrase one of them and it is that line which fails *)
Lemma step_U {L n W b a mL mR} W' b' a' (mL' mR' : nat -> Prop) i0 mr upl upr iL qL qR qL' qR' s :
  n = 1 \/ n = 2 -> 0 < L -> U L W b a mL mR s ->
  (mr = true \/ n = 2) /\ iL = i0 \/ mr = false /\ n = 1 /\ S iL = i0 -> W = (if mr then 0 else n) ->
  qL <= i0 <= b /\ b < qL + L /\ i0 <= 2 * L /\ mL qL ->
  a <= i0 + n - 1 <= qR /\ qR < a + L /\ mR qR ->
  b' <= S iL /\ (W <= W' \/ b' <= W') /\ S iL < W' + L ->
  iL <= a' /\ (W' <= W \/ W' + L <= S a') /\ W' <= iL ->
  (upl = true -> qL' <= S iL < qL' + L /\ (mL qL' \/ qL' = i0) /\ apart L qL' (S iL)) ->
  (upr = true -> iL <= qR' < iL + L /\ (mR qR' \/ qR' = i0 + n - 1) /\ apart L qR' iL) ->
  (forall p, mL' p ->
     ((mL p \/ p = i0) /\ apart L p (S iL) \/ upl = true /\ near L p (S iL)) /\
     (upr && ((n =? 2) || mr) = true -> apart L p iL)) ->
  (forall p, mR' p ->
     ((mR p \/ p = i0 + n - 1) /\ apart L p iL \/ upr = true /\ near L iL p) /\
     (upl && ((n =? 2) || negb mr) = true -> apart L p (S iL))) ->
  exists s', step_i L n s (i0, mr, (upl, upr)) = (s', true) /\ U L W' b' a' mL' mR' s'.
Proof.
  intros Hn HL HU He HW.
  assert (HiL : iL <= i0 <= S iL /\ iL <= i0 + n - 1 <= S iL /\ W <= 2) by (destruct mr; lia).
  assert (He' : env_inds n i0 mr = (iL, S iL)).
  { unfold env_inds. destruct He as [[[-> | ->] ->]|(-> & -> & <-)]; cbn [Nat.eqb orb]; rewrite ?orb_true_r; try reflexivity.
    f_equal. lia. }
  clear He. intros (HqL & HbL & Hi0 & HmL) (HqR & HaR & HmR).
  destruct (get_lp_U s i0 qL HL HU ltac:(lia) HmL ltac:(lia) ltac:(lia)) as (s1 & t1 & E1 & U1 & C1).
  destruct (get_rp_U s1 (i0 + n - 1) qR HL U1 ltac:(lia) HmR ltac:(lia) ltac:(lia)) as (s2 & t2 & E2 & U2 & C2).
  rewrite step_i_eq by exact Hn. clear Hn. cbv zeta. rewrite E1. cbn [fst snd]. rewrite E2, He', <- HW. cbn [fst snd].
  rewrite (current_upto_cur _ _ _ (C1 ltac:(lia))), (current_upto_cur _ _ _ (C2 ltac:(lia)))
    by (unfold cap; lia).
  intros (Hb' & HW1 & HR1) (Ha' & HW2 & HL1).
  pose proof (update_U W' b' a' s2 iL HL U2 ltac:(lia) ltac:(lia) Hb' HW1 HR1 Ha' HW2 HL1) as U4.
  clear HW1 HW2. set (s4 := del_rp_i L _ iL) in *. clearbody s4.
  pose proof (renew_lp_U s4 (S iL) qL' upl HL U4 Hb' HR1) as U5. set (s5 := if upl then _ else s4) in *. clearbody s5.
  pose proof (fun H => renew_rp_U s5 iL qR' upr HL (U5 H) Ha' HL1) as U6. set (s6 := if upr then _ else s5) in *. clearbody s6.
  intros Hupl Hupr HML HMR. eexists. split; [reflexivity|].
  exact (del_rp_U _ _ _ _ HL (del_lp_U _ _ _ _ HL (U6 Hupl Hupr) HML) HMR).
Qed.

