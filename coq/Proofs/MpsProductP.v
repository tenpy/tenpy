(* from_product_state at the level of charges (Model/MpsProduct.v).  Both boundary conditions produce a `pchain`: one-block site
   tensors that obey the charge rule and share their bond charges; well-formedness, contractible bonds and the total charge
   (the charge rules telescope) are proved of any such chain. *)
From TenpyV Require Import Base.Prelude Base.Lists Model.Charge Model.Tensor Model.TensorOps Model.MpsProduct Proofs.ChargeP.
Open Scope Z_scope.

Lemma mv1_self_sub m a : mv1 m (a + - mv1 m a) = 0.
Proof. rewrite mv1_sub_r. replace (a + - a) with 0 by lia. apply mv1_0. Qed.

Lemma vsub_len n a b : length a = n -> length b = n -> length (vsub a b) = n.
Proof. unfold vsub. auto with vlen. Qed.

Lemma leg_charge_length ci l q : length (leg_charge ci l q) = length ci.
Proof. unfold leg_charge. rewrite map_length, seq_length. reflexivity. Qed.

Lemma state_charge_length ci s : length (state_charge ci s) = length ci.
Proof. apply leg_charge_length. Qed.

#[local] Hint Resolve vsub_len leg_charge_length state_charge_length : vlen.

Lemma nth_leg_charge ci l q j : (j < length ci)%nat -> nth j (leg_charge ci l q) 0 = chg l q j.
Proof. apply (nth_map_seq (fun j => chg l q j)). Qed.

Lemma nth_vsub a b j : (j < length a)%nat -> (j < length b)%nat -> nth j (vsub a b) 0 = nth j a 0 + - nth j b 0.
Proof. intros Ha Hb. unfold vsub. rewrite nth_vadd, nth_vneg; [reflexivity|exact Ha|rewrite vneg_length; exact Hb]. Qed.

Lemma chg_bond c q j : chg (bond_leg c q) 0 j = q * nth j c 0.
Proof. reflexivity. Qed.

#[local] Hint Rewrite nth_vsub nth_leg_charge using (solve [auto 8 with vlen]) : vnth.
#[local] Hint Rewrite chg_bond : vnth.

Lemma detect_vR_length ci q cL : length q = length ci -> length (detect_vR ci q cL) = length ci.
Proof. intros Hq. unfold detect_vR. auto 7 with vlen. Qed.
#[local] Hint Resolve detect_vR_length : vlen.

Lemma nth_detect_vR ci q cL j : length q = length ci -> (j < length ci)%nat ->
  nth j (detect_vR ci q cL) 0 = mv1 (nth j ci 1) (nth j q 0 + nth j cL 0).
Proof.
  intros Hq Hj. unfold detect_vR.
  autorewrite with vnth. rewrite <- mv1_mul_r, mv1_sub_r, mv1_mul_r. f_equal. lia.
Qed.

Definition site_arr (cL : list Z) (s : psite) (cR qt : list Z) : arr :=
  mkArr [bond_leg cL 1; pleg s; bond_leg cR (-1)] qt [([0%nat; pq s; 0%nat], one_at (ppos s))] true.

Lemma row_charge3 l0 l1 l2 q0 q1 q2 j :
  row_charge [l0; l1; l2] [q0; q1; q2] j = chg l0 q0 j + chg l1 q1 j + chg l2 q2 j.
Proof. unfold row_charge. cbn [length seq map nth sumZ]. lia. Qed.

Definition site_rule (ci : chinfo) (cL : list Z) (s : psite) (cR qt : list Z) : Prop :=
  length cR = length ci /\ length qt = length ci /\
  forall j, (j < length ci)%nat ->
    mv1 (nth j ci 1) (chg (pleg s) (pq s) j + nth j cL 0 + - nth j cR 0) = nth j qt 0.

Lemma site_arr_WF ci cL s cR qt : site_rule ci cL s cR qt -> WF ci (site_arr cL s cR qt).
Proof.
  intros (_ & Hq & Hr). constructor.
  - exact Hq.
  - intros r [<-|[]]. reflexivity.
  - cbn. repeat constructor. intros [].
  - intros r [<-|[]] j Hj. cbn [legs qtot site_arr fst]. rewrite row_charge3, !chg_bond, <- (Hr j Hj). f_equal. lia.
  - intros _. reflexivity.
Qed.

Lemma mkB_rule ci cL s : site_rule ci cL s (detect_vR ci (state_charge ci s) cL) (zero_charge ci).
Proof.
  split; [auto with vlen|]. split; [apply zero_charge_length|]. intros j Hj.
  rewrite nth_zero_charge, nth_detect_vR by eauto with vlen. unfold state_charge. rewrite nth_leg_charge by exact Hj.
  apply mv1_self_sub.
Qed.

(* the right charges after gauge_total_charge('vR', newq) of a tensor with total charge qt *)
Definition regauge (ci : chinfo) (newq cR qt : list Z) : list Z :=
  make_valid ci (vadd cR (vscale (-1) (vsub (make_valid ci newq) qt))).

Lemma gauge_site_arr ci newq cL s cR qt :
  gauge_vR ci newq (site_arr cL s cR qt) = site_arr cL s (regauge ci newq cR qt) (make_valid ci newq).
Proof. reflexivity. Qed.

Lemma mkB_site_arr ci cL s cR : mkB ci cL s cR = site_arr cL s cR (zero_charge ci).
Proof. reflexivity. Qed.

Lemma nth_regauge ci newq cR qt j : length newq = length ci -> length cR = length ci -> length qt = length ci ->
  (j < length ci)%nat ->
  nth j (regauge ci newq cR qt) 0 = mv1 (nth j ci 1) (nth j cR 0 + nth j qt 0 + - nth j newq 0).
Proof.
  intros Hn Hc Hq Hj. unfold regauge.
  autorewrite with vnth. rewrite <- (mv1_sub_r _ (_ + nth j qt 0)). f_equal. lia.
Qed.

(* a: charge coming in from the left bond and the site, c: right charge, so that mv1 m (a - c) is the old total; after the
   move the total is x *)
Lemma mv1_gauged m a c x : mv1 m (a + - mv1 m (c + mv1 m (a + - c) + - x)) = mv1 m x.
Proof.
  rewrite mv1_sub_r.
  replace (a + - (c + mv1 m (a + - c) + - x)) with (x + ((a + - c) + - mv1 m (a + - c))) by lia.
  apply mv1_cancel. rewrite mv1_self_sub. symmetry. apply mv1_0.
Qed.

(* gauged from total 0 to cl - c0, the right charge cl of the last tensor becomes c0, the charge of the first left leg *)
Lemma mv1_wrap m cl c0 : mv1 m (c0 + - mv1 m (cl + - mv1 m (cl + - c0))) = mv1 m 0.
Proof. rewrite (mv1_sub_r m cl), mv1_sub_r. f_equal. lia. Qed.

Lemma gauge_rule ci newq cL s cR qt : length newq = length ci ->
  site_rule ci cL s cR qt -> site_rule ci cL s (regauge ci newq cR qt) (make_valid ci newq).
Proof.
  intros Hn (Hc & Hq & Hr). split; [unfold regauge; auto 7 with vlen|]. split; [auto with vlen|]. intros j Hj.
  rewrite nth_regauge, nth_make_valid, <- (Hr j Hj) by eauto with vlen. apply mv1_gauged.
Qed.

(* congruence modulo ci, componentwise: the form in which nth_regauge delivers it and contractible asks for it *)
Definition ceq (ci : chinfo) (c c' : list Z) : Prop :=
  forall j, (j < length ci)%nat -> mv1 (nth j ci 1) (nth j c' 0 + - nth j c 0) = mv1 (nth j ci 1) 0.

Lemma bond_contractible ci c c' : ceq ci c c' -> contractible ci (bond_leg c (-1)) (bond_leg c' 1).
Proof.
  intros H. split; [reflexivity|]. intros q j Hj. destruct q as [|q].
  - rewrite !chg_bond, <- (H j Hj). f_equal. lia.
  - f_equal. unfold chg, bond_leg. cbn [qc bch nth]. destruct q; destruct j; reflexivity.
Qed.

Fixpoint linked (ci : chinfo) (Bs : list arr) : Prop :=
  match Bs with
  | B1 :: t => match t with B2 :: _ => contractible ci (legR_of B1) (legL_of B2) /\ linked ci t | [] => True end
  | [] => True
  end.

Definition qsum (ci : chinfo) (sites : list psite) : list Z := vsum ci (map (state_charge ci) sites).

Lemma vsum_length ci l : Forall (fun v => length v = length ci) l -> length (vsum ci l) = length ci.
Proof. induction 1 as [|v l Hv _ IH]; [apply zero_charge_length|]. apply vadd_len; assumption. Qed.

Lemma qsum_length ci sites : length (qsum ci sites) = length ci.
Proof. apply vsum_length, Forall_map, Forall_forall. intros s _. apply state_charge_length. Qed.
#[local] Hint Resolve qsum_length : vlen.

Definition darr : arr := mkArr [] [] [] true.

Definition site_shape (B : arr) : Prop :=
  bsz (legL_of B) = [1%nat] /\ bsz (legR_of B) = [1%nat] /\ qc (legL_of B) = 1 /\ qc (legR_of B) = -1.

Inductive pchain (ci : chinfo) : list Z -> list psite -> list arr -> list Z -> Prop :=
| pchain_nil c : pchain ci c [] [] c
| pchain_cons cL s cM qt sites Bs cR :
    site_rule ci cL s cM qt -> pchain ci cM sites Bs cR -> pchain ci cL (s :: sites) (site_arr cL s cM qt :: Bs) cR.

Lemma pchain_hd ci cL sites Bs cR : pchain ci cL sites Bs cR -> sites <> [] -> legL_of (hd darr Bs) = bond_leg cL 1.
Proof. intros [|] Hne; [congruence|reflexivity]. Qed.

Lemma pchain_last ci cL sites Bs cR : pchain ci cL sites Bs cR -> sites <> [] -> legR_of (last Bs darr) = bond_leg cR (-1).
Proof.
  induction 1 as [|cL s cM qt sites Bs cR _ P IH]; intros Hne; [congruence|].
  destruct P; [reflexivity|]. apply IH. discriminate.
Qed.

Lemma pchain_sites ci cL sites Bs cR : pchain ci cL sites Bs cR ->
  length Bs = length sites /\
  map (fun B => (nth 1 (legs B) dleg, rows B)) Bs = map (fun s => (pleg s, [[0%nat; pq s; 0%nat]])) sites /\
  Forall (fun B => WF ci B /\ site_shape B) Bs /\
  linked ci Bs.
Proof.
  induction 1 as [|cL s cM qt sites Bs cR R P (IH1 & IH2 & IH3 & IH4)]; [repeat split; constructor|].
  split; [cbn [length]; congruence|]. split; [cbn [map]; f_equal; exact IH2|].
  split; [constructor; [split; [apply site_arr_WF, R|repeat split]|exact IH3]|].
  destruct P; [exact I|]. split; [|exact IH4]. apply bond_contractible. intros j _. f_equal. lia.
Qed.

Lemma pchain_total ci cL sites Bs cR : pchain ci cL sites Bs cR ->
  length (vsum ci (map qtot Bs)) = length ci /\
  forall j, (j < length ci)%nat ->
    mv1 (nth j ci 1) (nth j (vsum ci (map qtot Bs)) 0) =
    mv1 (nth j ci 1) (nth j (qsum ci sites) 0 + (nth j cL 0 + - nth j cR 0)).
Proof.
  induction 1 as [|cL s cM qt sites Bs cR (_ & Hq & Hr) _ (IHl & IH)].
  - split; [apply zero_charge_length|]. intros j _. f_equal. unfold qsum. cbn [map vsum fold_right]. lia.
  - split; [apply vadd_len; assumption|]. intros j Hj.
    change (qsum ci (s :: sites)) with (vadd (state_charge ci s) (qsum ci sites)).
    cbn [map vsum fold_right]. fold (vsum ci (map qtot Bs)).
    rewrite !nth_vadd by eauto with vlen.
    replace (nth j (state_charge ci s) 0 + nth j (qsum ci sites) 0 + (nth j cL 0 + - nth j cR 0))
      with ((nth j (state_charge ci s) 0 + nth j cL 0 + - nth j cM 0) + (nth j (qsum ci sites) 0 + (nth j cM 0 + - nth j cR 0))) by lia.
    apply mv1_congr_add; [|apply IH; exact Hj].
    cbn [qtot site_arr]. rewrite <- (Hr j Hj). unfold state_charge. rewrite nth_leg_charge by exact Hj. apply mv1_idem.
Qed.

Fixpoint cend (ci : chinfo) (cL : list Z) (sites : list psite) : list Z :=
  match sites with [] => cL | s :: t => cend ci (detect_vR ci (state_charge ci s) cL) t end.

Lemma cend_length ci : forall sites cL, length cL = length ci -> length (cend ci cL sites) = length ci.
Proof. induction sites as [|s t IH]; intros cL H; cbn [cend]; auto with vlen. Qed.

Lemma build_pchain ci : forall sites cL, pchain ci cL sites (build ci cL sites) (cend ci cL sites).
Proof.
  induction sites as [|s t IH]; intros cL; cbn [build cend]; [constructor|].
  rewrite mkB_site_arr. exact (pchain_cons ci _ _ _ _ _ _ _ (mkB_rule ci cL s) (IH _)).
Qed.

Lemma gauged_pchain ci newq : length newq = length ci -> forall sites cL, sites <> [] ->
  pchain ci cL sites (map_last (gauge_vR ci newq) (build ci cL sites)) (regauge ci newq (cend ci cL sites) (zero_charge ci)).
Proof.
  intros Hn. induction sites as [|s t IH]; intros cL Hne; [congruence|]. pose proof (mkB_rule ci cL s) as R.
  destruct t as [|s2 t']; cbn [build map_last cend]; rewrite mkB_site_arr.
  - rewrite gauge_site_arr. exact (pchain_cons ci _ _ _ _ _ _ _ (gauge_rule ci newq _ _ _ _ Hn R) (pchain_nil ci _)).
  - apply (pchain_cons ci _ _ _ _ _ _ _ R). apply (IH (detect_vR ci (state_charge ci s) cL)). discriminate.
Qed.

Lemma build_qtot ci : forall sites cL, Forall (fun B => qtot B = zero_charge ci) (build ci cL sites).
Proof. induction sites as [|s t IH]; intros cL; cbn [build]; constructor; [reflexivity|apply IH]. Qed.

Lemma map_last_Forall {A} (P : A -> Prop) (f : A -> A) l :
  Forall P l -> (forall x, P x -> P (f x)) -> Forall P (map_last f l).
Proof.
  intros Hl Hf. induction Hl as [|x t Hx Ht IH]; [constructor|]. cbn [map_last].
  destruct t; constructor; auto.
Qed.

(* get_total_charge of a chain: with only_physical_legs the outer bond charges are taken off; without, they cancel
   when the chain closes on itself *)
Lemma total_open ci cL sites Bs cR : pchain ci cL sites Bs cR -> sites <> [] ->
  get_total_charge ci true Bs = make_valid ci (qsum ci sites).
Proof.
  intros P Hne. destruct (pchain_total ci _ _ _ _ P) as [Hl T]. unfold get_total_charge. fold darr.
  rewrite (pchain_hd _ _ _ _ _ P Hne), (pchain_last _ _ _ _ _ P Hne).
  apply (vec_ext (length ci)); [auto 6 with vlen..|]. intros j Hj.
  autorewrite with vnth.
  replace (nth j (qsum ci sites) 0) with (nth j (qsum ci sites) 0 + (nth j cL 0 + - nth j cR 0) + (- nth j cL 0 + nth j cR 0)) by lia.
  rewrite <- Z.add_assoc. apply mv1_congr_add; [apply T, Hj|f_equal; lia].
Qed.

Lemma total_closed ci cL sites Bs cR : pchain ci cL sites Bs cR -> ceq ci cR cL ->
  get_total_charge ci false Bs = make_valid ci (qsum ci sites).
Proof.
  intros P W. destruct (pchain_total ci _ _ _ _ P) as [Hl T]. unfold get_total_charge.
  apply (vec_ext (length ci)); [auto with vlen..|]. intros j Hj.
  rewrite !nth_make_valid, T by eauto with vlen. apply mv1_cancel, W, Hj.
Qed.

Theorem product_state_charges : forall fin ci chargeL sites,
  length chargeL = length ci -> sites <> [] ->
  let Bs := from_product_state fin ci chargeL sites in
  length Bs = length sites /\
  map (fun B => (nth 1 (legs B) dleg, rows B)) Bs = map (fun s => (pleg s, [[0%nat; pq s; 0%nat]])) sites /\
  Forall (fun B => WF ci B /\ site_shape B) Bs /\
  linked ci Bs /\
  (fin = false -> contractible ci (legR_of (last Bs darr)) (legL_of (hd darr Bs))) /\
  (fin = true -> Forall (fun B => qtot B = zero_charge ci) Bs) /\
  get_total_charge ci fin Bs = make_valid ci (qsum ci sites).
Proof.
  intros fin ci chargeL sites Hc Hne. cbv zeta. unfold from_product_state. fold darr.
  set (c0 := make_valid ci chargeL).
  assert (Hc0 : length c0 = length ci) by (apply make_valid_length; exact Hc).
  destruct fin.
  - pose proof (build_pchain ci sites c0) as P. destruct (pchain_sites _ _ _ _ _ P) as (H1 & H2 & H3 & H4).
    do 4 (split; [assumption|]). split; [discriminate|]. split; [intros _; apply build_qtot|exact (total_open ci _ _ _ _ P Hne)].
  - assert (Hce : length (cend ci c0 sites) = length ci) by (apply cend_length; exact Hc0).
    pose proof (pchain_last _ _ _ _ _ (build_pchain ci sites c0) Hne) as ->. cbn [bond_leg bch nth].
    set (newq := make_valid ci (vsub (cend ci c0 sites) c0)).
    assert (Hnq : length newq = length ci) by (unfold newq; auto with vlen).
    pose proof (gauged_pchain ci newq Hnq sites c0 Hne) as P.
    destruct (pchain_sites _ _ _ _ _ P) as (H1 & H2 & H3 & H4).
    assert (W : ceq ci (regauge ci newq (cend ci c0 sites) (zero_charge ci)) c0).
    { intros j Hj. unfold newq. rewrite nth_regauge, nth_make_valid, nth_vsub, nth_zero_charge, Z.add_0_r by eauto with vlen.
      apply mv1_wrap. }
    do 4 (split; [assumption|]). split; [|split; [discriminate|exact (total_closed ci _ _ _ _ P W)]].
    intros _. rewrite (pchain_hd _ _ _ _ _ P Hne), (pchain_last _ _ _ _ _ P Hne). apply bond_contractible, W.
Qed.
