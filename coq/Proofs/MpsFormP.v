(* Model/MpsForm.v: every operation keeps "label = actual exponents" (C07); the structural operations inversion / roll /
   enlarge as index maps (C09). *)
From TenpyV Require Import Base.Prelude Base.Lists Model.MpsIndex Model.MpsForm Proofs.MpsIndexP.
Open Scope Z_scope.

Lemma site_pos_len fin (st st' : mps) i : len st' = len st -> site_pos fin st' i = site_pos fin st i.
Proof. unfold site_pos. intros ->. reflexivity. Qed.

Lemma site_pos_inv fin st i p : site_pos fin st i = Some p ->
  exists c, to_valid_site_index fin (len st) i = Some (i mod len st, c) /\ p = Z.to_nat (i mod len st).
Proof.
  unfold site_pos. destruct (to_valid_site_index fin (len st) i) as [[r c]|] eqn:E; [|discriminate].
  intros H. injection H as <-. rewrite (site_index_some _ _ _ _ _ E). eauto.
Qed.

Lemma site_pos_some fin (st : mps) i : (fin = true -> 0 <= i < len st) ->
  site_pos fin st i = Some (Z.to_nat (i mod len st)).
Proof.
  intros Hi. unfold site_pos. destruct fin.
  - rewrite site_index_inside, Z.mod_small by (apply Hi; reflexivity). reflexivity.
  - rewrite site_index_infinite. reflexivity.
Qed.

Lemma site_pos_lt fin (st : mps) i p : 0 < len st -> site_pos fin st i = Some p -> (p < length st)%nat.
Proof.
  intros HL Hp. destruct (site_pos_inv _ _ _ _ Hp) as [c [_ ->]].
  pose proof (Z.mod_pos_bound i (len st) HL). unfold len in *. lia.
Qed.

Lemma scale1_truth a n : scale1 a a (Some n) = n.
Proof. unfold scale1. lia. Qed.

Lemma canonical_truthful s : canonical s -> truthful s.
Proof. intros [f [Hl Ha]] g Hg. congruence. Qed.

Lemma get_B_full_truthful s f a :
  truthful s -> get_B_act s (full f) = Some a -> a = f.
Proof.
  intros Ht. destruct s as [l [a1 a2] d cl cr]. destruct f as [f1 f2].
  unfold truthful in Ht. cbn [lab act] in Ht.
  unfold get_B_act, full. cbn [lab act fst snd].
  destruct l as [[ol orr]|]; [|discriminate].
  intros H. injection H as <-. specialize (Ht _ eq_refl). injection Ht as -> ->.
  f_equal; lia.
Qed.

Lemma Forall_set_nth (P : site -> Prop) p x st : Forall P st -> P x -> Forall P (set_nth p x st).
Proof.
  revert p. induction st as [|y t IH]; intros p Hf Hx; destruct p; cbn [set_nth]; auto.
  - inversion Hf; subst. constructor; auto.
  - inversion Hf; subst. constructor; auto.
Qed.

Lemma Forall_set_B (P : site -> Prop) p a f st :
  Forall P st -> (forall s, P (mkSite f a (pdim s) (chiL s) (chiR s))) -> Forall P (set_B p a f st).
Proof.
  intros Hf Hx. unfold set_B. destruct (nth_error st p); auto. apply Forall_set_nth; auto.
Qed.

Lemma truthful_dsite : truthful dsite.
Proof. intros f H. discriminate. Qed.

Lemma truthful_mk f d cl cr : truthful (mkSite (Some f) f d cl cr).
Proof. intros g H. injection H as <-. reflexivity. Qed.

Lemma convert_truthful fs : forall st st', Forall truthful st -> convert_all fs st = Some st' -> Forall canonical st'.
Proof.
  induction fs as [|f fs IH]; intros st st' Hf H; destruct st as [|s st]; cbn [convert_all] in H; try discriminate.
  - injection H as <-. constructor.
  - destruct (get_B_act s (full f)) as [a|] eqn:Ea; [|discriminate].
    destruct (convert_all fs st) as [r|] eqn:Er; [|discriminate].
    injection H as <-. inversion Hf; subst.
    constructor.
    + exists f. cbn [lab act]. split; auto. eapply get_B_full_truthful; eauto.
    + eapply IH; eauto.
Qed.

Lemma flip_truthful s : truthful s -> truthful (flip s).
Proof.
  intros Ht f. unfold flip. cbn [lab act]. destruct (lab s) as [g|] eqn:El; cbn [option_map]; [|discriminate].
  intros H. injection H as <-. rewrite (Ht g El). reflexivity.
Qed.

Lemma flip_flip s : flip (flip s) = s.
Proof.
  destruct s as [l [a b] d cl cr]. unfold flip, swap2. cbn [lab act pdim chiL chiR fst snd].
  destruct l as [[x y]|]; reflexivity.
Qed.

Lemma inversion_involutive st : inversion (inversion st) = st.
Proof.
  unfold inversion. rewrite map_rev, rev_involutive, map_map.
  rewrite <- (map_id st) at 2. apply map_ext. apply flip_flip.
Qed.

Lemma inversion_length st : length (inversion st) = length st.
Proof. unfold inversion. rewrite rev_length, map_length. reflexivity. Qed.

Lemma inversion_nth st j : (j < length st)%nat ->
  nth j (inversion st) dsite = flip (nth (length st - 1 - j) st dsite).
Proof.
  intros Hj. unfold inversion.
  rewrite rev_nth, map_length by (rewrite map_length; exact Hj).
  replace (length st - Datatypes.S j)%nat with (length st - 1 - j)%nat by lia.
  apply nth_map_default. lia.
Qed.

Lemma inversion_truthful st : Forall truthful st -> Forall truthful (inversion st).
Proof.
  intros H. unfold inversion. apply Forall_rev. apply Forall_map.
  eapply Forall_impl; [|exact H]. apply flip_truthful.
Qed.

Lemma roll_length k st : length (roll k st) = length st.
Proof. unfold roll. rewrite map_length, seq_length. reflexivity. Qed.

Lemma roll_nth k st j : (j < length st)%nat ->
  nth j (roll k st) dsite = nth (Z.to_nat ((Z.of_nat j - k) mod len st)) st dsite.
Proof. intros Hj. unfold roll. rewrite nth_map_seq by exact Hj. reflexivity. Qed.

Lemma roll_truthful k st : Forall truthful st -> Forall truthful (roll k st).
Proof.
  intros H. unfold roll. apply Forall_map. apply Forall_forall. intros j _.
  apply Forall_nth_d; auto. apply truthful_dsite.
Qed.

Lemma roll_roll a b st : roll a (roll b st) = roll (b + a) st.
Proof.
  apply nth_ext with (d := dsite) (d' := dsite); [rewrite !roll_length; reflexivity|].
  intros j Hj. rewrite !roll_length in Hj.
  rewrite (roll_nth a), (roll_nth (b + a)) by (rewrite ?roll_length; exact Hj).
  unfold len. rewrite roll_length. set (L := Z.of_nat (length st)).
  assert (Hm : 0 <= (Z.of_nat j - a) mod L < L) by (apply Z.mod_pos_bound; lia).
  rewrite roll_nth, Z2Nat.id by lia. fold L. rewrite Zminus_mod_idemp_l.
  replace (Z.of_nat j - a - b) with (Z.of_nat j - (b + a)) by lia. reflexivity.
Qed.

Lemma roll_0 st : roll 0 st = st.
Proof.
  apply nth_ext with (d := dsite) (d' := dsite); [apply roll_length|].
  intros j Hj. rewrite roll_length in Hj.
  rewrite roll_nth, Z.sub_0_r, Z.mod_small, Nat2Z.id by (unfold len; lia). reflexivity.
Qed.

Lemma roll_back k st : roll (- k) (roll k st) = st.
Proof. rewrite roll_roll, Z.add_opp_diag_r. apply roll_0. Qed.

Lemma enlarge_length n st : length (enlarge n st) = (n * length st)%nat.
Proof. unfold enlarge. induction n as [|n IH]; cbn [repeat_list]; [reflexivity|]. rewrite app_length, IH. lia. Qed.

Lemma enlarge_truthful n st : Forall truthful st -> Forall truthful (enlarge n st).
Proof.
  intros H. unfold enlarge. induction n as [|n IH]; cbn [repeat_list]; [constructor|].
  apply Forall_app. split; auto.
Qed.

Lemma enlarge_nth n st : forall j, (j < n * length st)%nat ->
  nth j (enlarge n st) dsite = nth (j mod length st) st dsite.
Proof.
  unfold enlarge. induction n as [|n IH]; intros j Hj; [lia|].
  cbn [repeat_list].
  assert (HL : (0 < length st)%nat) by (destruct st; cbn in *; lia).
  destruct (Nat.lt_ge_cases j (length st)) as [H|H].
  - rewrite app_nth1 by exact H. rewrite Nat.mod_small by exact H. reflexivity.
  - rewrite app_nth2 by exact H. rewrite IH by lia.
    f_equal.
    replace j with ((j - length st) + 1 * length st)%nat at 2 by lia.
    rewrite Nat.mod_add by lia. reflexivity.
Qed.

Lemma apply_op_truthful fin op st st' :
  Forall truthful st -> apply_op fin op st = Some st' -> Forall truthful st'.
Proof.
  intros Hf. destruct op as [fs|i f|i| |k|n|]; cbn [apply_op]; intros H.
  - eapply Forall_impl; [apply canonical_truthful|]. eapply convert_truthful; eauto.
  - destruct (site_pos fin st i) as [p|]; [|discriminate].
    destruct (nth_error st p) as [s|] eqn:En; [|discriminate].
    destruct (get_B_act s (full f)) as [a|] eqn:Ea; [|discriminate].
    injection H as <-.
    assert (Hs : truthful s).
    { rewrite Forall_forall in Hf. apply Hf. eapply nth_error_In; eauto. }
    pose proof (get_B_full_truthful s f a Hs Ea) as ->.
    apply Forall_set_B; [exact Hf|]. intros s1. apply truthful_mk.
  - destruct (site_pos fin st i) as [p|]; [|discriminate].
    destruct (site_pos fin st (i + 1)) as [q|]; [|discriminate].
    destruct (nth_error st p) as [s|]; [|discriminate].
    destruct (nth_error st q) as [t|]; [|discriminate].
    destruct (is_some (lab s) && is_some (lab t) && negb (p =? q)%nat); [|discriminate].
    injection H as <-.
    apply Forall_set_B; [apply Forall_set_B; [exact Hf|]|]; intros s1; apply truthful_mk.
  - injection H as <-. apply Forall_map. apply Forall_forall. intros s _. apply truthful_mk.
  - destruct fin; [discriminate|]. injection H as <-. apply roll_truthful; auto.
  - destruct (fin || (n <=? 1)%nat); [discriminate|]. injection H as <-. apply enlarge_truthful; auto.
  - injection H as <-. apply inversion_truthful; auto.
Qed.

Lemma label_truthful fin ops : forall st st',
  Forall truthful st -> run_ops fin ops st = Some st' -> Forall truthful st'.
Proof.
  induction ops as [|op ops IH]; intros st st' Hf H; cbn [run_ops] in H.
  - injection H as <-. exact Hf.
  - destruct (apply_op fin op st) as [st1|] eqn:E; [|discriminate].
    eapply IH; [|exact H]. eapply apply_op_truthful; eauto.
Qed.

(* p = right exponent of the previous site, as labelled and as stored: on a canonical site the two agree, so every
   inner bond gets actR + (2 - labR) = 2 *)
Lemma theta_rest_spec : forall ss p fR,
  Forall canonical ss -> ss <> [] ->
  theta_rest p p ss fR = Some (repeat 2 (length ss), fR).
Proof.
  induction ss as [|s rest IH]; intros p fR Hf Hne; [congruence|].
  inversion Hf as [|s' r' Hs Hr]; subst s' r'.
  destruct Hs as [[fl fr] [Hl Ha]].
  cbn [theta_rest]. destruct rest as [|t rest'].
  - unfold get_B_act. rewrite Hl, Ha. cbn [fst snd]. rewrite !scale1_truth.
    cbn [length repeat]. repeat f_equal. lia.
  - unfold get_B_act. rewrite Hl, Ha. cbn [fst snd scale1].
    rewrite (IH fr fR Hr) by congruence.
    cbn [length repeat]. repeat f_equal. lia.
Qed.

Lemma theta_exps_spec ss fL fR :
  Forall canonical ss -> ss <> [] ->
  theta_exps ss fL fR = Some (fL, repeat 2 (length ss - 1), fR).
Proof.
  intros Hf Hn. destruct ss as [|s rest]; [congruence|].
  inversion Hf as [|s' r' Hs Hr]; subst s' r'.
  destruct Hs as [[fl fr] [Hl Ha]].
  cbn [theta_exps]. destruct rest as [|t rest']; unfold get_B_act at 1; rewrite Hl, Ha; cbn [fst snd].
  - rewrite !scale1_truth. reflexivity.
  - cbn [scale1]. rewrite (theta_rest_spec (t :: rest') fr fR Hr) by congruence.
    cbn [length Nat.sub]. replace (fl + (fL - fl)) with fL by lia. reflexivity.
Qed.

Lemma window_spec fin st : forall n i ss,
  window fin st i n = Some ss -> length ss = n /\ incl ss st.
Proof.
  induction n as [|n IH]; intros i ss H; cbn [window] in H.
  - injection H as <-. split; [reflexivity|apply incl_nil_l].
  - destruct (site_pos fin st i) as [p|]; [|discriminate].
    destruct (window fin st (i + 1) n) as [r|] eqn:Er; [|discriminate].
    destruct (nth_error st p) as [s|] eqn:En; [|discriminate].
    injection H as <-. destruct (IH _ _ Er) as [Hlen Hin]. split.
    + cbn [length]. lia.
    + apply incl_cons; [eapply nth_error_In; eauto|exact Hin].
Qed.

Lemma theta_exponents fin st i n ss fL fR :
  Forall canonical st -> window fin st i n = Some ss -> (1 <= n)%nat ->
  get_theta fin st i n fL fR = Some (fL, repeat 2 (n - 1), fR).
Proof.
  intros Hf Hw Hn. destruct (window_spec fin st n i ss Hw) as [Hlen Hin].
  unfold get_theta. rewrite Hw, <- Hlen. apply theta_exps_spec; [exact (incl_Forall Hin Hf)|]. intros ->. cbn in Hlen. lia.
Qed.

Lemma window_infinite st : st <> [] -> forall n i, exists ss, window false st i n = Some ss.
Proof.
  intros Hne. induction n as [|n IH]; intros i; cbn [window]; [eexists; reflexivity|].
  assert (HL : 0 < len st) by (unfold len; destruct st; [congruence|cbn [length]; lia]).
  destruct (IH (i + 1)) as [r ->]. pose proof (site_pos_some false st i ltac:(discriminate)) as Hp. rewrite Hp.
  destruct (nth_error st _) as [s|] eqn:En; [eexists; reflexivity|].
  apply nth_error_None in En. pose proof (site_pos_lt _ _ _ _ HL Hp). lia.
Qed.

Definition aA (d : Z) : site := mkSite (Some fA) fA d 2 2.

Lemma roll_default_form_breaks :
  exists k st st', Forall truthful st /\ roll_default_form k st = Some st' /\ ~ Forall truthful st'.
Proof.
  exists 1, [aA 2; aA 3]. eexists. split; [|split].
  - repeat constructor; apply truthful_mk.
  - vm_compute. reflexivity.
  - intros H. inversion H as [|x l Hx Hl]; subst. specialize (Hx fA eq_refl). vm_compute in Hx. discriminate.
Qed.

