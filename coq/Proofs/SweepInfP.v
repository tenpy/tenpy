(* Property C13, infinite bc: every environment read for eff_H is current on its window of L sites, for every unit cell
   L > n and every number of sweeps.  Invariant over the positions of the schedule, an instance of U of
   Proofs/SweepInfInvP.v at each; step_U carries it over an entry.  The depths only speak of sites inside the window of
   the coming reads (other copies of the unit cell lag, by design), so one sweep re-establishes the invariant it starts
   from and, for n < L, no fixed point of the states is needed (L = n = 2, at the end, has one).
   RightI, moving right (window [0, L)), before the entry at i0: LP[i0] is stored; a stored LP[k], k <= i0, is current
   on sites 0..k-1, a stored RP[k], i0 + n - 1 <= k, on sites k+1..L-1; RP[L-1] is stored as long as it lies ahead, and
   RP[n-1] (as position L + n - 1) once the entry at n - 1 has renewed it (it is what the turn finds).
   TurnI, Turn2I, after the last right move: the window becomes [n, L + n), keys 0, 1 stand for positions L, L + 1.
   LeftI, moving left: the same on that window; the last left move returns to the window [0, L) (sites 0, 1 have just
   been rewritten) and LeftI at 0 implies RightI at 0, which the fresh environment satisfies. *)
From TenpyV Require Import Base.Prelude Base.Lists Model.Sweep Model.SweepInf Proofs.SweepP2 Proofs.SweepInfInvP.
Local Open Scope nat_scope.

Definition RightI (n L i0 : nat) : ist -> Prop :=
  U L 0 i0 (i0 + n - 1) (fun p => p = i0) (fun p => (i0 + n <= L /\ S p = L) \/ (n <= i0 /\ p = L + n - 1)).

Definition TurnI (n L : nat) : ist -> Prop :=
  U L n L (L + n - 1) (fun p => p = L \/ S p = L) (fun p => p = L + n - 1).

Definition Turn2I (L : nat) : ist -> Prop := U L 2 (L - 1) L (fun p => S p = L) (fun p => p = L).

Definition LeftI (n L i0 : nat) : ist -> Prop :=
  U L (if i0 =? 0 then 0 else n) i0 (i0 + n - 1) (fun p => p = 0) (fun p => p = i0 + n - 1 \/ S p = L).

Lemma run_ok_i_app L n l1 : forall s l2,
  run_ok_i L n s (l1 ++ l2) = run_ok_i L n s l1 && run_ok_i L n (exec_i L n s l1) l2.
Proof.
  induction l1 as [|e l1 IH]; intros s l2; cbn [app run_ok_i exec_i fold_left]; [reflexivity|].
  rewrite IH. unfold exec_i. rewrite andb_assoc. reflexivity.
Qed.

Lemma exec_i_app L n l1 l2 s : exec_i L n s (l1 ++ l2) = exec_i L n (exec_i L n s l1) l2.
Proof. unfold exec_i. apply fold_left_app. Qed.

Definition runs (L n : nat) (P : ist -> Prop) (es : list entry) (Q : ist -> Prop) : Prop :=
  forall s, P s -> run_ok_i L n s es = true /\ Q (exec_i L n s es).

Lemma runs_nil L n (P Q : ist -> Prop) : (forall s, P s -> Q s) -> runs L n P [] Q.
Proof. intros H s Hs. split; [reflexivity|exact (H s Hs)]. Qed.

Lemma runs_app L n P Q R l1 l2 : runs L n P l1 Q -> runs L n Q l2 R -> runs L n P (l1 ++ l2) R.
Proof.
  intros H1 H2 s Hs. destruct (H1 s Hs) as [A1 B1]. destruct (H2 _ B1) as [A2 B2].
  rewrite run_ok_i_app, exec_i_app, A1, A2. split; [reflexivity|exact B2].
Qed.

Lemma runs_step L n (P Q : ist -> Prop) e :
  (forall s, P s -> exists s', step_i L n s e = (s', true) /\ Q s') -> runs L n P [e] Q.
Proof.
  intros H s Hs. destruct (H s Hs) as (s' & E & Hq). cbn [run_ok_i exec_i fold_left]. rewrite E.
  split; [reflexivity|exact Hq].
Qed.

Lemma runs_cons L n (P Q R : ist -> Prop) e l : runs L n P [e] Q -> runs L n Q l R -> runs L n P (e :: l) R.
Proof. exact (runs_app L n P Q R [e] l). Qed.

Lemma runs_weaken L n (P Q Q' : ist -> Prop) es : runs L n P es Q -> (forall s, Q s -> Q' s) -> runs L n P es Q'.
Proof. intros H HQ s Hs. destruct (H s Hs) as [A B]. split; [exact A|exact (HQ _ B)]. Qed.

Lemma runs_repeat L n P es : runs L n P es P -> forall k, runs L n P (repeat_list es k) P.
Proof.
  intros H. induction k as [|k IH]; cbn [repeat_list]; [apply runs_nil; auto|]. exact (runs_app _ _ _ _ _ _ _ H IH).
Qed.

(* The six step lemmas instantiate step_U (qL', qR': any value where the entry does not renew); the description after
   the entry is read off the goal.  The flag i0 <? n below: the first n entries of the infinite schedule renew RP as
   well (flags_inf1, flags_inf2 of Model/Sweep.v). *)
Lemma step_right_i L n i0 : n = 1 \/ n = 2 -> S i0 < L ->
  runs L n (RightI n L i0) [(i0, true, (true, i0 <? n))] (RightI n L (S i0)).
Proof.
  intros Hn Hi. assert (HL0 : 0 < L) by lia. apply runs_step. intros s HI.
  eapply step_U with (iL := i0) (qL := i0) (qR := L - 1) (qL' := i0) (qR' := L - 1);
    [exact Hn|exact HL0|exact HI|..]; unfold apart, near;
    (* left to lia, the disjunction n = 1 \/ n = 2 beside the flag i0 <? n makes this by far the dearest proof of the file *)
    destruct Hn as [-> | ->]; lia.
Qed.

Lemma step_right_last L n i0 : n = 1 \/ n = 2 -> n <= i0 -> S i0 = L ->
  runs L n (RightI n L i0) [(i0, true, (true, false))] (TurnI n L).
Proof.
  intros Hn Hi <-. apply runs_step. intros s HI.
  eapply step_U with (iL := i0) (qL := i0) (qR := S i0 + n - 1) (qL' := i0) (qR' := 0);
    [exact Hn|apply Nat.lt_0_succ|exact HI|..]; unfold apart, near; lia.
Qed.

Lemma step_turn_1 L j : 1 <= j -> S j = L -> runs L 1 (TurnI 1 L) [(L, false, (true, true))] (LeftI 1 L j).
Proof.
  intros Hj <-. apply runs_step. intros s HI.
  eapply step_U with (iL := j) (qL := S j) (qR := S j) (qL' := j) (qR' := S j);
    [left; reflexivity|apply Nat.lt_0_succ|exact HI|..]; unfold apart, near; try lia; destruct (Nat.eqb_spec j 0); lia.
Qed.

Lemma step_turn_2a L : 2 <= L -> runs L 2 (TurnI 2 L) [(L, false, (true, true))] (Turn2I L).
Proof.
  intros HL. assert (HL0 : 0 < L) by lia. apply runs_step. intros s HI.
  eapply step_U with (iL := L) (qL := L) (qR := S L) (qL' := L) (qR' := S L);
    [right; reflexivity|exact HL0|exact HI|..]; unfold apart, near; lia.
Qed.

Lemma step_turn_2b L j : 1 <= j -> S (S j) = L -> runs L 2 (Turn2I L) [(S j, false, (true, true))] (LeftI 2 L j).
Proof.
  intros Hj <-. apply runs_step. intros s HI.
  eapply step_U with (iL := S j) (qL := S j) (qR := S (S j)) (qL' := S j) (qR' := S (S j));
    [right; reflexivity|apply Nat.lt_0_succ|exact HI|..]; unfold apart, near; try lia; destruct (Nat.eqb_spec j 0); lia.
Qed.

Lemma step_left_i L n j : n = 1 \/ n = 2 -> S j + n <= L ->
  runs L n (LeftI n L (S j)) [(S j, false, (false, true))] (LeftI n L j).
Proof.
  intros Hn Hi. assert (HL0 : 0 < L) by lia. apply runs_step. intros s HI.
  eapply step_U with (iL := j + n - 1) (qL := 0) (qR := j + n) (qL' := 0) (qR' := j + n);
    [exact Hn|exact HL0|exact HI|..]; unfold apart, near; try lia; destruct (Nat.eqb_spec j 0); lia.
Qed.

Lemma right_phase_i L n : n = 1 \/ n = 2 -> forall cnt i0, n <= i0 -> i0 + cnt < L ->
  runs L n (RightI n L i0) (map right_entry (seq i0 cnt)) (RightI n L (i0 + cnt)).
Proof.
  intros Hn. induction cnt as [|c IH]; intros i0 Hi Hc.
  - rewrite Nat.add_0_r. apply runs_nil. auto.
  - cbn [seq map]. apply (runs_cons _ _ _ (RightI n L (S i0))).
    + unfold right_entry. rewrite <- (proj2 (Nat.ltb_ge i0 n) Hi). apply step_right_i; [exact Hn|lia].
    + replace (i0 + S c) with (S i0 + c) by lia. apply IH; lia.
Qed.

Lemma left_phase_i L n : n = 1 \/ n = 2 -> forall m, m + n <= L ->
  runs L n (LeftI n L m) (map left_entry (rev (seq 1 m))) (LeftI n L 0).
Proof.
  intros Hn. induction m as [|m IH]; intros Hm.
  - apply runs_nil. auto.
  - rewrite seq_S, rev_app_distr. cbn [rev app map plus]. apply (runs_cons _ _ _ (LeftI n L m)).
    + apply step_left_i; [exact Hn|lia].
    + apply IH. lia.
Qed.

Lemma left_end n L s : LeftI n L 0 s -> RightI n L 0 s.
Proof. intros [A B]. split; [exact A|]. apply (side_forget _ B). intros p Hp. cbv beta in *. lia. Qed.

Lemma init_right n L : 1 <= n <= L -> RightI n L 0 (init_i L).
Proof.
  intros Hn. unfold RightI, U, side, init_i. cbn [ilp irp length]. rewrite app_length, !repeat_length. cbn [length].
  split; (split; [lia|]); split.
  - intros p ->. rewrite Nat.mod_0_l by lia. discriminate.
  - intros p t Hp _. replace p with 0 by lia. reflexivity.
  - intros p Hp. replace p with (L - 1) by lia. rewrite Nat.mod_small by lia.
    rewrite app_nth2, repeat_length, Nat.sub_diag by (rewrite repeat_length; lia). discriminate.
  - intros p t _ E. destruct (Nat.le_gt_cases (L - 1) p) as [H|H].
    + replace (0 + L - S p) with 0 by lia. reflexivity.
    + rewrite Nat.mod_small, app_nth1, nth_repeat in E by (rewrite ?repeat_length; lia). discriminate.
Qed.

Lemma schedule_inf_1 l : schedule false (S l) 1 =
  (0, true, (true, true)) :: map right_entry (seq 1 l) ++ (S l, false, (true, true)) :: map left_entry (rev (seq 1 l)).
Proof.
  unfold schedule, i0s, move_rights, flags_inf1, right_moves. cbn [Nat.eqb repeat Nat.sub]. rewrite Nat.sub_0_r.
  rewrite (seq_S l 1), rev_app_distr. change (seq 0 (S l)) with (0 :: seq 1 l). cbn [rev app combine plus]. f_equal.
  rewrite !Lists.combine_app2 by (rewrite ?combine_length, ?seq_length, ?repeat_length; lia). cbn [combine].
  rewrite !combine_repeat by (rewrite ?map_length, ?combine_length, ?rev_length, ?seq_length, ?repeat_length; lia).
  rewrite !map_map. reflexivity.
Qed.

Lemma schedule_inf_2 j : schedule false (S (S j)) 2 =
  (0, true, (true, true)) :: (1, true, (true, true)) :: map right_entry (seq 2 j) ++
  (S (S j), false, (true, true)) :: (S j, false, (true, true)) :: map left_entry (rev (seq 1 j)).
Proof.
  unfold schedule, i0s, move_rights, flags_inf2, right_moves. cbn [Nat.eqb repeat Nat.sub app].
  replace (seq 1 (S (S j))) with (seq 1 j ++ [S j; S (S j)]) by (rewrite !seq_S, <- app_assoc; reflexivity).
  change (seq 0 (S (S j))) with (0 :: 1 :: seq 2 j).
  rewrite rev_app_distr. cbn [rev app combine]. do 2 f_equal.
  rewrite !Lists.combine_app2 by (rewrite ?combine_length, ?seq_length, ?repeat_length; lia). cbn [combine].
  rewrite !combine_repeat by (rewrite ?map_length, ?combine_length, ?rev_length, ?seq_length, ?repeat_length; lia).
  rewrite !map_map. reflexivity.
Qed.

Lemma sweep_inf L n : n = 1 \/ n = 2 -> n < L -> runs L n (RightI n L 0) (schedule false L n) (RightI n L 0).
Proof.
  intros [-> | ->] HL.
  - destruct L as [|[|l]]; try lia. rewrite schedule_inf_1, seq_S at 1. rewrite map_app, <- app_assoc. cbn [map app plus].
    apply (runs_cons _ _ _ (RightI 1 (S (S l)) 1)); [apply (step_right_i _ 1 0); lia|].
    apply (runs_app _ _ _ (RightI 1 (S (S l)) (S l))); [apply (right_phase_i _ 1 (or_introl eq_refl) l 1); lia|].
    apply (runs_cons _ _ _ (TurnI 1 (S (S l)))); [apply step_right_last; lia|].
    apply (runs_cons _ _ _ (LeftI 1 (S (S l)) (S l))); [apply step_turn_1; lia|].
    apply (runs_weaken _ _ _ (LeftI 1 (S (S l)) 0)); [apply left_phase_i; lia|intros s; apply left_end].
  - destruct L as [|[|[|j]]]; try lia. rewrite schedule_inf_2, seq_S at 1. rewrite map_app, <- app_assoc. cbn [map app plus].
    apply (runs_cons _ _ _ (RightI 2 (S (S (S j))) 1)); [apply (step_right_i _ 2 0); lia|].
    apply (runs_cons _ _ _ (RightI 2 (S (S (S j))) 2)); [apply (step_right_i _ 2 1); lia|].
    apply (runs_app _ _ _ (RightI 2 (S (S (S j))) (S (S j)))); [apply (right_phase_i _ 2 (or_intror eq_refl) j 2); lia|].
    apply (runs_cons _ _ _ (TurnI 2 (S (S (S j))))); [apply step_right_last; lia|].
    apply (runs_cons _ _ _ (Turn2I (S (S (S j))))); [apply step_turn_2a; lia|].
    apply (runs_cons _ _ _ (LeftI 2 (S (S (S j))) (S j))); [apply step_turn_2b; lia|].
    apply (runs_weaken _ _ _ (LeftI 2 (S (S (S j))) 0)); [apply left_phase_i; lia|intros s; apply left_end].
Qed.

Lemma no_stale_inf_every_L : forall L n k, (n = 1 \/ n = 2) -> n < L -> no_stale_inf L n k = true.
Proof.
  intros L n k Hn HL. unfold no_stale_inf.
  apply (runs_repeat L n _ _ (sweep_inf L n Hn HL) k (init_i L)). apply init_right. lia.
Qed.

(* L = n = 2, which the invariant above (n < L) leaves out: by evaluation, a sweep from the state after 0, 1, 2 or 3
   sweeps reads only current windows and leads to the next of these states, the last to itself. *)
Lemma no_stale_inf_2_2 : forall k, no_stale_inf 2 2 k = true.
Proof.
  set (st j := exec_i 2 2 (init_i 2) (repeat_list (schedule false 2 2) j)).
  set (P s := In s [st 0; st 1; st 2; st 3]).
  assert (H : runs 2 2 P (schedule false 2 2) P).
  { intros s [<-|[<-|[<-|[<-|[]]]]]; vm_compute; (split; [reflexivity|]).
    - right. left. reflexivity.
    - right. right. left. reflexivity.
    - right. right. right. left. reflexivity.
    - right. right. right. left. reflexivity. }
  intros k. exact (proj1 (runs_repeat 2 2 P _ H k (init_i 2) (or_introl eq_refl))).
Qed.
