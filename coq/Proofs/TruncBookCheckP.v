From TenpyV Require Import Base.Prelude Model.TruncBook Model.TruncBookCheck.
From Coq Require Import QArith.
Open Scope Q_scope.

Lemma qpos_neq0 x : qpos x = true -> ~ x == 0.
Proof.
  unfold qpos. intros H E. apply Bool.negb_true_iff in H.
  assert (L : Qle_bool x 0 = true) by (apply Qle_bool_iff; rewrite E; apply Qle_refl).
  congruence.
Qed.

Lemma svd_hyps_sound S0 r mask nn : svd_hyps S0 r mask nn = true ->
  length mask = length S0 /\ ~ r == 0 /\ ~ nn == 0 /\
  r * r == sumQ (map qsq S0) /\
  nn * nn == sumQ (map qsq (select mask (map (fun x => x / r) S0))).
Proof.
  unfold svd_hyps. rewrite !Bool.andb_true_iff. intros [[[[H1 H2] H3] H4] H5].
  apply Nat.eqb_eq in H1. apply Qeq_bool_eq in H4. apply Qeq_bool_eq in H5.
  repeat split; auto using qpos_neq0.
Qed.

Lemma eigh_hyps_sound W0 mask nn : eigh_hyps W0 mask nn = true ->
  length mask = length W0 /\ ~ sumQ W0 == 0 /\ ~ nn == 0 /\
  nn * nn == sumQ (select mask (map (fun w => w / sumQ W0) W0)).
Proof.
  unfold eigh_hyps. rewrite !Bool.andb_true_iff. intros [[[[H1 H0] H2] H3] H4].
  apply Nat.eqb_eq in H1. apply Qeq_bool_eq in H4.
  repeat split; auto using qpos_neq0.
Qed.
