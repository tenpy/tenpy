(* Proofs about Model/PropUI.v: MPO.make_U_I is first order exact (property C11).  One site at a time
   (the step sden of AutomatonP; ui_rden_cons): an edge into IdR is redirected to IdL and takes one power of dt, so
   degree 0 is the IdL loop alone, degree 1 is every complete term once, and degree d + 1 is a term followed by
   degree d on the sites after it (ui_rden_S; d = 1: a term followed by a term on later sites); taylor_split sorts
   the paths of the evaluated graph by degree. *)
From TenpyV Require Import Base.Prelude Base.Lists Model.Automaton Proofs.AutomatonP Model.PropUI.
Open Scope Z_scope.

Lemma flat_map_hit {X} (h : nat -> list X) n l : NoDup l -> In n l ->
  flat_map (fun d => if Nat.eqb n d then h d else []) l = h n.
Proof.
  induction 1 as [|a l Ha _ IH]; intros Hn; [destruct Hn|]. cbn [flat_map].
  destruct (Nat.eqb_spec n a) as [->|Hne].
  - rewrite flat_map_nil_in; [apply app_nil_r|]. intros d Hd.
    destruct (Nat.eqb_spec a d) as [->|_]; [contradiction|reflexivity].
  - destruct Hn as [->|Hn]; [contradiction|]. apply IH. exact Hn.
Qed.

Lemma eqb_add_sub a n d : Nat.eqb (a + n) d = (a <=? d)%nat && Nat.eqb n (d - a).
Proof.
  destruct (Nat.leb_spec a d), (Nat.eqb_spec (a + n) d), (Nat.eqb_spec n (d - a)); cbn [andb];
    try reflexivity; lia.
Qed.

Lemma gending_flat_map {A} kf d (f : A -> list gpath) l :
  gending kf d (flat_map f l) = flat_map (fun x => gending kf d (f x)) l.
Proof. unfold gending. rewrite filter_flat_map, map_flat_map. reflexivity. Qed.

Lemma gending_gpstep kf d i x l :
  gending kf d (map (gpstep i x) l) =
  if (snd x <=? d)%nat then map (mstep i (fst x)) (gending kf (d - snd x) l) else [].
Proof.
  unfold gending. rewrite filter_map_comm, map_map.
  rewrite (filter_ext_in _ (fun p => (snd x <=? d)%nat &&
                                      (key_eqb (snd (fst p)) kf && Nat.eqb (snd p) (d - snd x))) l).
  - destruct (snd x <=? d)%nat; cbn [andb]; [|rewrite filter_none; reflexivity].
    rewrite map_map. apply map_ext. intros [[[c w] kq] n]. reflexivity.
  - intros [[[c w] kq] n] _. cbn [gpstep pstep fst snd]. rewrite eqb_add_sub.
    destruct (key_eqb kq kf), (snd x <=? d)%nat; reflexivity.
Qed.

Lemma ui_rden_nil d i k :
  ui_rden d [] i k = if key_eqb k IdL && Nat.eqb 0 d then [(c1, [])] else [].
Proof.
  unfold ui_rden, gending. cbn [ui_graph map gpaths filter fst snd].
  destruct (key_eqb k IdL && Nat.eqb 0 d); reflexivity.
Qed.

Definition ui_cont (d : nat) (g : graph) (i : nat) (r : key) : poly :=
  if key_eqb r IdR then match d with O => [] | S d' => ui_rden d' g i IdL end else ui_rden d g i r.

Lemma ui_rden_cons d es g i k : k <> IdR -> ui_rden d (es :: g) i k = sden (ui_cont d g (S i)) i k es.
Proof.
  intro Hk. unfold ui_rden at 1. cbn [ui_graph map gpaths]. unfold ui_site.
  rewrite sden_if, flat_map_flat_map, gending_flat_map. apply flat_map_ext. intro e. unfold ui_edge, ui_cont.
  destruct (key_eqb_spec (eL e) IdR) as [E1|_].
  - destruct (key_eqb_spec (eL e) k) as [E2|_]; [congruence|reflexivity].
  - destruct (key_eqb (eR e) IdR); cbn [flat_map fst snd eL eR]; rewrite app_nil_r;
      (destruct (key_eqb (eL e) k); [|reflexivity]); rewrite gending_gpstep; cbn [fst snd].
    + destruct d as [|d]; [reflexivity|]. cbn [Nat.leb Nat.sub]. rewrite Nat.sub_0_r. reflexivity.
    + rewrite Nat.sub_0_r. reflexivity.
Qed.

(* the edges leaving IdR are dropped *)
Lemma ui_rden_IdR d g i : ui_rden d g i IdR = [].
Proof.
  destruct g as [|es g]; [reflexivity|]. unfold ui_rden. cbn [ui_graph map gpaths].
  rewrite gending_flat_map. apply flat_map_nil_in. intros x Hx.
  unfold ui_site in Hx. apply in_flat_map in Hx. destruct Hx as (e & _ & Hx). unfold ui_edge in Hx.
  destruct (key_eqb (eL e) IdR) eqn:E; [destruct Hx|].
  destruct (key_eqb (eR e) IdR); destruct Hx as [<-|[]]; cbn [fst eL]; rewrite E; reflexivity.
Qed.

(* redirected edges have degree 1, so a path of degree 0 that ends in IdL never left it *)
Lemma ui_rden0 g : std_form g = true -> forall i k,
  ui_rden 0 g i k = if key_eqb k IdL then [(c1, [])] else [].
Proof.
  induction g as [|es g IH]; intros Hs i k.
  - rewrite ui_rden_nil. cbn [Nat.eqb]. rewrite andb_true_r. reflexivity.
  - destruct (key_eqb_spec k IdR) as [->|Hr]; [apply ui_rden_IdR|].
    apply std_form_cons in Hs. destruct Hs as [Hs Hg].
    rewrite ui_rden_cons, <- (sden_into_IdL _ i k es Hs) by exact Hr. apply sden_ext. intro r.
    unfold ui_cont. destruct (key_eqb_spec r IdR) as [->|_]; [reflexivity|apply IH; exact Hg].
Qed.

Lemma ui_rden1 g : std_form g = true -> forall i k, k <> IdR -> ui_rden 1 g i k = rden g i k.
Proof.
  induction g as [|es g IH]; intros Hs i k Hk.
  - rewrite ui_rden_nil, rden_nil. apply key_eqb_neq in Hk. rewrite Hk.
    cbn [Nat.eqb]. rewrite andb_false_r. reflexivity.
  - apply std_form_cons in Hs. destruct Hs as [Hs Hg].
    rewrite ui_rden_cons, rden_cons by exact Hk. apply sden_ext. intro r. unfold ui_cont.
    destruct (key_eqb_spec r IdR) as [->|E]; [|apply IH; assumption].
    rewrite (ui_rden0 g Hg), (rden_IdR_std g Hg). reflexivity.
Qed.

Theorem UI_order0_eq g : std_form g = true -> ui_den 0 g = [(c1, [])].
Proof. intro Hs. apply (ui_rden0 g Hs). Qed.

Theorem UI_order1_eq g : std_form g = true -> ui_den 1 g = denote g.
Proof. intro Hs. apply ui_rden1; [exact Hs|discriminate]. Qed.

Theorem UI_order0 g : std_form g = true -> peq (ui_den 0 g) [(c1, [])].
Proof. intro Hs. rewrite (UI_order0_eq g Hs). apply peq_refl. Qed.

Theorem UI_order1 g : std_form g = true -> g <> [] -> peq (ui_den 1 g) (denote g).
Proof. intros Hs _. rewrite (UI_order1_eq g Hs). apply peq_refl. Qed.

Definition gw (t : C) (p : gpath) : C * word * key :=
  (cmul (cpow t (snd p)) (fst (fst (fst p))), snd (fst (fst p)), snd (fst p)).

Lemma ui_eval_cons t es g : ui_eval t (es :: g) = ui_eval_site t es :: ui_eval t g.
Proof. reflexivity. Qed.
Lemma ui_graph_cons es g : ui_graph (es :: g) = ui_site es :: ui_graph g.
Proof. reflexivity. Qed.

Lemma paths_ui_eval t g : forall i k,
  paths (ui_eval t g) i k = map (gw t) (gpaths (ui_graph g) i k).
Proof.
  induction g as [|es g IH]; intros i k.
  - reflexivity.
  - rewrite ui_eval_cons, ui_graph_cons. cbn [paths gpaths]. unfold ui_eval_site, ui_site.
    rewrite !flat_map_flat_map, map_flat_map. apply flat_map_ext_in. intros e _.
    unfold ui_eval_edge, ui_edge.
    destruct (key_eqb (eL e) IdR); [reflexivity|].
    destruct (key_eqb (eR e) IdR); cbn [flat_map fst snd eL eR]; rewrite !app_nil_r;
      (destruct (key_eqb (eL e) k); [|reflexivity]); rewrite IH, !map_map; apply map_ext;
      intros [[[c w] kf] n]; unfold gw, gpstep, pstep; cbn [fst snd eL eR eop ew Nat.add cpow];
      f_equal; f_equal; csolve.
Qed.

Lemma taylor_split t kf N l : Forall (fun p : gpath => (snd p <= N)%nat) l ->
  peq (ending kf (map (gw t) l))
      (flat_map (fun d => pscale (cpow t d) (gending kf d l)) (seq 0 (S N))).
Proof.
  induction 1 as [|[[[c w] kq] n] l Hp Hl IH].
  - rewrite flat_map_nil_in; [apply peq_refl|]. intros d _. reflexivity.
  - cbn [snd] in Hp.
    erewrite flat_map_ext with
      (g := fun d => (if key_eqb kq kf && Nat.eqb n d then [(cmul (cpow t d) c, w)] else []) ++
                     pscale (cpow t d) (gending kf d l)).
    2:{ intro d. unfold gending. cbn [filter fst snd]. destruct (key_eqb kq kf && Nat.eqb n d); reflexivity. }
    eapply peq_trans; [|apply peq_sym, peq_perm, perm_flat_map_split].
    change (map (gw t) ((c, w, kq, n) :: l)) with ([gw t (c, w, kq, n)] ++ map (gw t) l).
    rewrite ending_app. apply peq_app; [|exact IH].
    unfold ending, gw. cbn [map filter fst snd]. destruct (key_eqb kq kf); cbn [andb].
    + rewrite flat_map_hit; [apply peq_refl|apply seq_NoDup|apply in_seq; lia].
    + rewrite flat_map_nil_in; [apply peq_refl|reflexivity].
Qed.

Lemma ui_edge_deg e x : ui_edge e = Some x -> (snd x <= 1)%nat.
Proof.
  unfold ui_edge. destruct (key_eqb (eL e) IdR); [discriminate|].
  destruct (key_eqb (eR e) IdR); intro H; injection H as <-; cbn [snd]; lia.
Qed.

Lemma gdeg_bound g : forall i k,
  Forall (fun p : gpath => (snd p <= length g)%nat) (gpaths (ui_graph g) i k).
Proof.
  induction g as [|es g IH]; intros i k.
  - cbn [ui_graph map gpaths length]. constructor; [cbn [snd]; lia|constructor].
  - rewrite ui_graph_cons. cbn [gpaths length]. apply Forall_forall. intros p Hp.
    apply in_flat_map in Hp. destruct Hp as [x [Hx Hp]].
    destruct (key_eqb (eL (fst x)) k); [|contradiction].
    apply in_map_iff in Hp. destruct Hp as [q [<- Hq]].
    pose proof (IH (S i) (eR (fst x))) as Hb. rewrite Forall_forall in Hb. specialize (Hb q Hq).
    unfold ui_site in Hx. apply in_flat_map in Hx. destruct Hx as [e [_ Hx]].
    destruct (ui_edge e) as [y|] eqn:Ey; [|contradiction].
    destruct Hx as [->|[]]. apply ui_edge_deg in Ey. cbn [gpstep snd]. lia.
Qed.

Theorem UI_eval t g : peq (denote_to IdL (ui_eval t g)) (ui_taylor t g).
Proof.
  unfold denote_to, ui_taylor, ui_den, ui_rden. rewrite paths_ui_eval.
  apply taylor_split. apply gdeg_bound.
Qed.

Theorem UI_eval_paths t g i k :
  paths (ui_eval t g) i k =
  map (fun p : gpath => (cmul (cpow t (snd p)) (fst (fst (fst p))), snd (fst (fst p)), snd (fst p)))
      (gpaths (ui_graph g) i k).
Proof. apply paths_ui_eval. Qed.

Lemma cpow_1 t : cpow t 1 = t.
Proof. cbn [cpow]. apply cmul_1_r. Qed.

Theorem UI_first_order t g : std_form g = true ->
  peq (denote_to IdL (ui_eval t g))
      ((c1, []) :: pscale t (denote g) ++
       flat_map (fun d => pscale (cpow t d) (ui_den d g)) (seq 2 (length g - 1))).
Proof.
  intro Hs. eapply peq_trans; [apply UI_eval|]. unfold ui_taylor.
  destruct g as [|es g].
  - cbn [length seq flat_map Nat.sub pscale map app denote rden paths ending filter snd key_eqb].
    rewrite (UI_order0_eq [] Hs). cbn [pscale map cpow fst snd]. rewrite cmul_1_l. apply peq_refl.
  - cbn [length]. replace (S (length g) - 1)%nat with (length g) by lia.
    cbn [seq flat_map]. rewrite (UI_order0_eq _ Hs), (UI_order1_eq _ Hs), cpow_1.
    cbn [cpow]. rewrite pscale_c1. apply peq_refl.
Qed.

Lemma std_form_skipn m : forall g, std_form g = true -> std_form (skipn m g) = true.
Proof.
  induction m as [|m IH]; intros [|es g] H; try reflexivity; try exact H.
  apply std_form_cons in H. destruct H as [H1 H2]. cbn [skipn]. apply IH. exact H2.
Qed.

(* ui_split_at cuts g by position (firstn, nth, skipn); the inductions over the sites use its two recurrences over
   es :: g, which are read off the definition and not off paths_app / ending_through *)
Lemma ui_split_at_0 R es g i k : k <> IdR ->
  ui_split_at R (es :: g) i k 0 = sden (fun r => if key_eqb r IdR then R g (S i) else []) i k es.
Proof.
  intro Hk. apply key_eqb_neq in Hk. unfold ui_split_at.
  cbn [firstn paths flat_map snd nth skipn]. rewrite sden_if, Hk, app_nil_r, Nat.add_0_r, Nat.add_1_r.
  apply flat_map_ext. intro e.
  destruct (key_eqb (eL e) k), (key_eqb (eR e) IdR); cbn [andb]; try reflexivity.
  apply map_ext. intros [c w]. unfold pmono, mstep. cbn [fst snd app]. rewrite cmul_1_l. reflexivity.
Qed.

Lemma ui_split_at_S R es g i k m :
  ui_split_at R (es :: g) i k (S m) = sden (fun r => ui_split_at R g (S i) r m) i k es.
Proof.
  unfold ui_split_at. cbn [firstn paths nth skipn]. rewrite sden_if, flat_map_flat_map.
  apply flat_map_ext_in. intros e _. destruct (key_eqb (eL e) k); [|reflexivity].
  rewrite flat_map_map, map_flat_map. apply flat_map_ext_in. intros [[c w] kq] _.
  cbn [pstep snd fst]. destruct (key_eqb kq IdR); [reflexivity|].
  rewrite map_flat_map. apply flat_map_ext_in. intros e' _.
  destruct (key_eqb (eL e') kq && key_eqb (eR e') IdR); [|reflexivity].
  rewrite map_map.
  replace (i + S m)%nat with (S i + m)%nat by lia.
  replace (i + S (S m))%nat with (S i + S m)%nat by lia.
  apply map_ext. intros [d v]. unfold pmono, mstep, pstep. cbn [fst snd].
  rewrite !cmul_assoc, consop_app. reflexivity.
Qed.

(* the only edge that leaves IdR is its loop *)
Lemma ui_split_IdR R g : std_form g = true -> forall i, ui_split R g i IdR = [].
Proof.
  intros Hs i. apply flat_map_nil_in. intros m _. revert Hs i m.
  induction g as [|es g IH]; intros Hs i m.
  - unfold ui_split_at. destruct m; reflexivity.
  - apply std_form_cons in Hs. destruct Hs as [Hs Hg]. destruct (std_site_loops es Hs) as [_ (r & Hl & Hr)].
    destruct m as [|m]; [reflexivity|].
    rewrite ui_split_at_S. unfold sden. rewrite Hr. cbn [flat_map].
    destruct (id_loop_inv _ _ Hl) as (_ & -> & _). rewrite (IH Hg). reflexivity.
Qed.

Lemma ui_split_cons R es g i k : k <> IdR ->
  peq (ui_split R (es :: g) i k)
      (sden (fun r => (if key_eqb r IdR then R g (S i) else []) ++ ui_split R g (S i) r) i k es).
Proof.
  intro Hk. unfold ui_split at 1. cbn [length seq flat_map]. rewrite (ui_split_at_0 R es g i k Hk).
  rewrite <- seq_shift, flat_map_map.
  eapply peq_trans; [|apply peq_sym, peq_perm, sden_app]. apply peq_app; [apply peq_refl|].
  erewrite flat_map_ext by (intro m; apply ui_split_at_S).
  apply peq_perm. apply (sden_flat_map (fun m r => ui_split_at R g (S i) r m)).
Qed.

Lemma ui_split_ext R R' g i k :
  (forall m, R (skipn (S m) g) (i + S m)%nat = R' (skipn (S m) g) (i + S m)%nat) ->
  ui_split R g i k = ui_split R' g i k.
Proof.
  intro H. unfold ui_split. apply flat_map_ext. intro m. unfold ui_split_at. rewrite H. reflexivity.
Qed.

Lemma ui_rden_S d g : std_form g = true -> forall i k, k <> IdR ->
  peq (ui_rden (S d) g i k) (ui_split (fun g' j => ui_rden d g' j IdL) g i k).
Proof.
  induction g as [|es g IH]; intros Hs i k Hk.
  - rewrite ui_rden_nil. cbn [Nat.eqb]. rewrite andb_false_r. apply peq_refl.
  - apply std_form_cons in Hs. destruct Hs as [Hs Hg].
    eapply peq_trans; [|apply peq_sym, ui_split_cons; exact Hk].
    rewrite ui_rden_cons by exact Hk. apply sden_peq. intro r. unfold ui_cont.
    destruct (key_eqb_spec r IdR) as [->|E]; [|apply IH; assumption].
    rewrite (ui_split_IdR _ g Hg), app_nil_r. apply peq_refl.
Qed.

Lemma pmul_flat_map {A} (f : A -> poly) l q :
  pmul (flat_map f l) q = flat_map (fun x => pmul (f x) q) l.
Proof. unfold pmul. apply flat_map_flat_map. Qed.

Lemma ui_split_at_pmul R g i k m :
  ui_split_at R g i k m = pmul (ui_terms_at g i k m) (R (skipn (S m) g) (i + S m)%nat).
Proof.
  unfold ui_terms_at, ui_split_at. rewrite pmul_flat_map.
  apply flat_map_ext_in. intros [[c w] kq] _. cbn [fst snd].
  destruct (key_eqb kq IdR); [reflexivity|]. rewrite pmul_flat_map.
  apply flat_map_ext_in. intros e _.
  destruct (key_eqb (eL e) kq && key_eqb (eR e) IdR); [|reflexivity].
  unfold pmul. cbn [map flat_map]. rewrite app_nil_r. apply map_ext. intros [d v].
  unfold pmono. cbn [fst snd]. rewrite cmul_1_r, cmul_assoc, <- app_assoc, <- consop_app. reflexivity.
Qed.

(* coefficient of t^(d+1): the sum over the cut position m of (terms of H that enter IdR exactly on site m) *
   (coefficient of t^d of the sites after m); by recursion on d, the products of d + 1 terms of H on
   pairwise disjoint, ascending ranges of sites *)
Theorem UI_order_S d g : std_form g = true ->
  peq (ui_den (S d) g)
      (flat_map (fun m => pmul (ui_terms_at g 0 IdL m) (ui_rden d (skipn (S m) g) (S m) IdL))
                (seq 0 (length g))).
Proof.
  intro Hs. eapply peq_trans; [apply ui_rden_S; [exact Hs|discriminate]|].
  unfold ui_split. erewrite flat_map_ext by (intro m; apply ui_split_at_pmul). apply peq_refl.
Qed.

Theorem UI_order2_pairs g : std_form g = true -> peq (ui_den 2 g) (ui_pairs g 0 IdL).
Proof.
  intro Hs. eapply peq_trans; [apply ui_rden_S; [exact Hs|discriminate]|].
  unfold ui_pairs. rewrite (ui_split_ext _ (fun g' j => rden g' j IdL)); [apply peq_refl|].
  intro m. apply ui_rden1; [apply std_form_skipn; exact Hs|discriminate].
Qed.

Theorem UI_order2 g : std_form g = true -> peq (ui_den 2 g) (ui_order2 g).
Proof.
  intro Hs. eapply peq_trans; [apply UI_order_S; exact Hs|].
  unfold ui_order2, denote_from. erewrite flat_map_ext; [apply peq_refl|].
  intro m. cbv beta. rewrite ui_rden1; [reflexivity|apply std_form_skipn; exact Hs|discriminate].
Qed.

Theorem UI_terms_split g : std_form g = true ->
  peq (denote g) (flat_map (ui_terms_at g 0 IdL) (seq 0 (length g))).
Proof.
  intro Hs. rewrite <- (UI_order1_eq g Hs). eapply peq_trans; [apply ui_rden_S; [exact Hs|discriminate]|].
  change (flat_map (ui_terms_at g 0 IdL) (seq 0 (length g))) with (ui_split (fun _ _ => [(c1, [])]) g 0 IdL).
  rewrite (ui_split_ext _ (fun _ _ => [(c1, [])])); [apply peq_refl|].
  intro m. apply (ui_rden0 _ (std_form_skipn (S m) g Hs)).
Qed.

(* 4 sites; onsite terms on sites 0, 1, 3; couplings 0-2, 1-2 and 1-3 (with string operator 9 on site 2) *)
Definition ui_ex_g : graph :=
  from_terms 4 [mkOT 0 4 (2,0); mkOT 1 4 (7,0); mkOT 3 4 (1,1)]
               [mkCT 0 5 0 2 6 (3,2); mkCT 1 5 0 2 6 (1,0); mkCT 1 5 9 3 6 (0,1)].
(* 3 sites: every pair of terms overlaps, so order 2 vanishes *)
Definition ui_ex_g3 : graph :=
  from_terms 3 [mkOT 1 4 (7,0)] [mkCT 0 5 0 2 6 (3,2); mkCT 1 5 0 2 6 (1,0)].

Example ui_ex_std : std_form ui_ex_g = true /\ std_form ui_ex_g3 = true /\ ui_ex_g <> [].
Proof. split; [vm_compute; reflexivity|]. split; [vm_compute; reflexivity|discriminate]. Qed.

Example ui_ex_order0 : ui_den 0 ui_ex_g = [(c1, [])] /\ ui_den 0 ui_ex_g3 = [(c1, [])].
Proof. split; vm_compute; reflexivity. Qed.

Example ui_ex_order1 :
  ui_den 1 ui_ex_g = denote ui_ex_g /\
  normalize (ui_den 1 ui_ex_g) = normalize (denote ui_ex_g) /\
  normalize (ui_den 1 ui_ex_g) =
    [((2, 0), [(0%nat, 4)]); ((3, 2), [(0%nat, 5); (2%nat, 6)]); ((7, 0), [(1%nat, 4)]);
     ((1, 0), [(1%nat, 5); (2%nat, 6)]); ((0, 1), [(1%nat, 5); (2%nat, 9); (3%nat, 6)]);
     ((1, 1), [(3%nat, 4)])] /\
  normalize (ui_den 1 ui_ex_g3) = normalize (denote ui_ex_g3) /\
  normalize (ui_den 1 ui_ex_g3) =
    [((3, 2), [(0%nat, 5); (2%nat, 6)]); ((7, 0), [(1%nat, 4)]); ((1, 0), [(1%nat, 5); (2%nat, 6)])].
Proof. repeat split; vm_compute; reflexivity. Qed.

(* second order: only products of terms that do not overlap, the left one first; e.g. onsite(1) is
   not combined with itself, onsite(0)*onsite(1) has strength 2*7 *)
Example ui_ex_order2 :
  normalize (ui_den 2 ui_ex_g) =
    [((14, 0), [(0%nat, 4); (1%nat, 4)]);
     ((2, 0), [(0%nat, 4); (1%nat, 5); (2%nat, 6)]);
     ((0, 2), [(0%nat, 4); (1%nat, 5); (2%nat, 9); (3%nat, 6)]);
     ((2, 2), [(0%nat, 4); (3%nat, 4)]);
     ((1, 5), [(0%nat, 5); (2%nat, 6); (3%nat, 4)]);
     ((7, 7), [(1%nat, 4); (3%nat, 4)]);
     ((1, 1), [(1%nat, 5); (2%nat, 6); (3%nat, 4)])] /\
  normalize (ui_order2 ui_ex_g) = normalize (ui_den 2 ui_ex_g) /\
  normalize (ui_pairs ui_ex_g 0 IdL) = normalize (ui_den 2 ui_ex_g) /\
  normalize (flat_map (ui_terms_at ui_ex_g 0 IdL) (seq 0 (length ui_ex_g))) = normalize (denote ui_ex_g) /\
  normalize (ui_den 3 ui_ex_g) =
    [((14, 14), [(0%nat, 4); (1%nat, 4); (3%nat, 4)]);
     ((2, 2), [(0%nat, 4); (1%nat, 5); (2%nat, 6); (3%nat, 4)])] /\
  normalize (ui_den 4 ui_ex_g) = [] /\
  normalize (ui_den 2 ui_ex_g3) = [].
Proof. repeat split; vm_compute; reflexivity. Qed.

Example ui_ex_eval :
  peqb (denote_to IdL (ui_eval (2, 1) ui_ex_g)) (ui_taylor (2, 1) ui_ex_g) = true /\
  check_UI ((2, 1), ui_ex_g, ui_eval (2, 1) ui_ex_g) = true /\
  normalize (denote_to IdL (ui_eval (2, 1) ui_ex_g3)) =
    [((1, 0), []); ((4, 7), [(0%nat, 5); (2%nat, 6)]); ((14, 7), [(1%nat, 4)]);
     ((2, 1), [(1%nat, 5); (2%nat, 6)])].
Proof. repeat split; vm_compute; reflexivity. Qed.

(* with a second edge entering IdL the zeroth order is not 1 *)
Definition ui_ex_bad : graph :=
  [[mkE IdL IdL 0 c1; mkE IdR IdR 0 c1; mkE IdL (Oth 1) 3 c1];
   [mkE IdL IdL 0 c1; mkE IdR IdR 0 c1; mkE (Oth 1) IdL 4 c1]].
Example ui_ex_nonstd :
  std_form ui_ex_bad = false /\ peqb (ui_den 0 ui_ex_bad) [(c1, [])] = false.
Proof. split; vm_compute; reflexivity. Qed.

Print Assumptions UI_order0_eq.
Print Assumptions UI_order1_eq.
Print Assumptions UI_order0.
Print Assumptions UI_order1.
Print Assumptions UI_eval.
Print Assumptions UI_eval_paths.
Print Assumptions UI_first_order.
Print Assumptions UI_order2_pairs.
Print Assumptions UI_order2.
Print Assumptions UI_terms_split.
