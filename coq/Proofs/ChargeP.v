(* Model/Charge.v and Model/ChargeL.v define mv1 / make_valid / vadd / vneg / vscale and the equality test with the same bodies:
   the facts are proved once, about the constants of Model/Charge.v, and apply to the other copy by conversion. *)
From TenpyV Require Import Base.Prelude Base.Lists Model.ChargeL Model.Charge.
Open Scope Z_scope.

(* mv1 m is reduction modulo m, where the modulus 1 of a U(1) charge stands for the modulus 0 (x mod 0 = x); so its laws
   are those of Z -> Z/n and need no hypothesis on m *)
Definition modulus (m : Z) : Z := if m =? 1 then 0 else m.

Lemma mv1_mod m x : mv1 m x = x mod modulus m.
Proof. unfold mv1, modulus. destruct (m =? 1); [symmetry; apply Zmod_0_r|reflexivity]. Qed.

Lemma mv1_idem m x : mv1 m (mv1 m x) = mv1 m x.
Proof. rewrite !mv1_mod. apply Zmod_mod. Qed.

Lemma mv1_add m x y : mv1 m (x + y) = mv1 m (mv1 m x + mv1 m y).
Proof. rewrite !mv1_mod. apply Zplus_mod. Qed.

Lemma mv1_add_r m x y : mv1 m (x + mv1 m y) = mv1 m (x + y).
Proof. rewrite !mv1_mod. apply Zplus_mod_idemp_r. Qed.

Lemma mv1_add_l m x y : mv1 m (mv1 m x + y) = mv1 m (x + y).
Proof. rewrite !mv1_mod. apply Zplus_mod_idemp_l. Qed.

Lemma mv1_sub_r m a x : mv1 m (a + - mv1 m x) = mv1 m (a + - x).
Proof. rewrite !mv1_mod. apply Zminus_mod_idemp_r. Qed.

Lemma mv1_opp m x : mv1 m (- mv1 m x) = mv1 m (- x).
Proof. exact (mv1_sub_r m 0 x). Qed.

Lemma mv1_mul_r m s x : mv1 m (s * mv1 m x) = mv1 m (s * x).
Proof. rewrite !mv1_mod. apply Zmult_mod_idemp_r. Qed.

Lemma mv1_congr_add m x x' y y' : mv1 m x = mv1 m x' -> mv1 m y = mv1 m y' -> mv1 m (x + y) = mv1 m (x' + y').
Proof. intros Hx Hy. rewrite (mv1_add m x y), (mv1_add m x' y'), Hx, Hy. reflexivity. Qed.

Lemma mv1_cancel m x z : mv1 m z = mv1 m 0 -> mv1 m (x + z) = mv1 m x.
Proof. intros Hz. rewrite (mv1_congr_add m x x z 0 eq_refl Hz). f_equal. lia. Qed.

Lemma mv1_0 m : mv1 m 0 = 0.
Proof. rewrite mv1_mod. apply Zmod_0_l. Qed.

Lemma mv1_range m x : 1 < m -> 0 <= mv1 m x < m.
Proof.
  intros Hm. unfold mv1. destruct (m =? 1) eqn:E; [lia|]. apply Z.mod_pos_bound. lia.
Qed.

Lemma nth_vadd a b j : (j < length a)%nat -> (j < length b)%nat -> nth j (vadd a b) 0 = nth j a 0 + nth j b 0.
Proof.
  revert b j. induction a as [|x a IH]; intros [|y b] [|j] H1 H2; cbn in *; try lia.
  apply IH; lia.
Qed.

Lemma vadd_length a b : length a = length b -> length (vadd a b) = length a.
Proof.
  revert b. induction a as [|x a IH]; intros [|y b] H; cbn in *; try lia. rewrite IH; lia.
Qed.

Lemma nth_vneg a j : nth j (vneg a) 0 = - nth j a 0.
Proof. exact (map_nth Z.opp a 0 j). Qed.

Lemma nth_vscale s a j : nth j (vscale s a) 0 = s * nth j a 0.
Proof. unfold vscale. revert j. induction a as [|x a IH]; intros [|j]; cbn [map nth]; try lia; apply IH. Qed.

Lemma vec_ext (n : nat) (a b : list Z) : length a = n -> length b = n ->
  (forall j, (j < n)%nat -> nth j a 0 = nth j b 0) -> a = b.
Proof. intros Ha Hb H. apply (nth_ext _ _ 0 0); [congruence|]. intros j Hj. apply H. lia. Qed.

Lemma vneg_length a : length (vneg a) = length a.
Proof. apply map_length. Qed.
Lemma vscale_length s a : length (vscale s a) = length a.
Proof. apply map_length. Qed.
Lemma zero_charge_length ci : length (zero_charge ci) = length ci.
Proof. apply map_length. Qed.

Lemma nth_zero_charge ci j : nth j (zero_charge ci) 0 = 0.
Proof. exact (map_nth (fun _ => 0) ci 0 j). Qed.

Lemma vzero_length n : length (vzero n) = n.
Proof. apply repeat_length. Qed.
Lemma nth_vzero n j : nth j (vzero n) 0 = 0.
Proof. apply nth_repeat. Qed.

Lemma make_valid_length ci q : length q = length ci -> length (make_valid ci q) = length ci.
Proof.
  revert q. induction ci as [|m ci IH]; intros [|x q] H; cbn in *; try lia. rewrite IH; lia.
Qed.

Lemma nth_make_valid ci q j : (j < length ci)%nat -> (j < length q)%nat ->
  nth j (make_valid ci q) 0 = mv1 (nth j ci 1) (nth j q 0).
Proof.
  revert q j. induction ci as [|m ci IH]; intros [|x q] [|j] H1 H2; cbn in *; try lia; try reflexivity.
  apply IH; lia.
Qed.

(* Identities between compound vectors are proved componentwise.  The `_len` forms of the `_length` equations, with `= n` as
   conclusion, are what `auto` can apply; a side condition costs it one step per vadd / vneg / vscale / make_valid around a
   hypothesis and one for lt_len, hence the depth 8. *)
Create HintDb vlen.

Lemma vadd_len n (a b : list Z) : length a = n -> length b = n -> length (vadd a b) = n.
Proof. intros Ha Hb. rewrite vadd_length; congruence. Qed.
Lemma vneg_len n (a : list Z) : length a = n -> length (vneg a) = n.
Proof. intros H. rewrite vneg_length. exact H. Qed.
Lemma vscale_len n s (a : list Z) : length a = n -> length (vscale s a) = n.
Proof. intros H. rewrite vscale_length. exact H. Qed.
Lemma lt_len n (v : list Z) j : (j < n)%nat -> length v = n -> (j < length v)%nat.
Proof. intros Hj H. rewrite H. exact Hj. Qed.

#[export] Hint Resolve vadd_len vneg_len vscale_len make_valid_length zero_charge_length vzero_length : vlen.
#[export] Hint Extern 1 (_ < length _)%nat => (eapply lt_len; [eassumption|]) : vlen.
#[export] Hint Rewrite nth_vadd nth_vneg nth_vscale nth_make_valid using (solve [auto 8 with vlen]) : vnth.
#[export] Hint Rewrite nth_zero_charge nth_vzero : vnth.

Ltac vec_lia n := apply (vec_ext n); [auto 8 with vlen..|]; intros ? ?; autorewrite with vnth; lia.

Lemma vneg_scale v : vneg v = vscale (-1) v.
Proof. apply map_ext. intros x. lia. Qed.

Lemma vscale_mul s t v : vscale s (vscale t v) = vscale (s * t) v.
Proof. unfold vscale. rewrite map_map. apply map_ext. intros x. lia. Qed.

Lemma vscale_neg_l k v : vscale (- k) v = vneg (vscale k v).
Proof. rewrite vneg_scale, vscale_mul. reflexivity. Qed.

Lemma vadd_comm a b : vadd a b = vadd b a.
Proof. revert b. induction a as [|x a IH]; intros [|y b]; cbn [vadd]; try reflexivity. f_equal; [lia|apply IH]. Qed.

Lemma vadd_assoc a : forall b c, vadd a (vadd b c) = vadd (vadd a b) c.
Proof. induction a as [|x a IH]; intros [|y b] [|z c]; cbn [vadd]; try reflexivity. f_equal; [lia|apply IH]. Qed.

Lemma vadd_zero_l ci x : length x = length ci -> vadd (zero_charge ci) x = x.
Proof. intros H. vec_lia (length ci). Qed.
Lemma vadd_zero_r ci x : length x = length ci -> vadd x (zero_charge ci) = x.
Proof. intros H. vec_lia (length ci). Qed.

Lemma vscale_involutive s r : s * s = 1 -> vscale s (vscale s r) = r.
Proof. intros Hs. rewrite vscale_mul, Hs. vec_lia (length r). Qed.

Lemma make_valid_idem ci q : make_valid ci (make_valid ci q) = make_valid ci q.
Proof.
  revert q. induction ci as [|m ci IH]; intros [|x q]; cbn; try reflexivity. rewrite mv1_idem. f_equal. apply IH.
Qed.

Lemma make_valid_congr_add ci : forall a a' b b', make_valid ci a = make_valid ci a' -> make_valid ci b = make_valid ci b' ->
  make_valid ci (vadd a b) = make_valid ci (vadd a' b').
Proof.
  induction ci as [|m ci IH]; intros [|x a] [|x' a'] [|y b] [|y' b'] H1 H2; cbn [make_valid vadd] in *;
    try discriminate; try reflexivity.
  injection H1 as H1 H1'. injection H2 as H2 H2'. f_equal; [apply mv1_congr_add; assumption|apply IH; assumption].
Qed.

Lemma make_valid_add_r ci a b : make_valid ci (vadd a (make_valid ci b)) = make_valid ci (vadd a b).
Proof. apply make_valid_congr_add; [reflexivity|apply make_valid_idem]. Qed.

Lemma make_valid_add_l ci a b : make_valid ci (vadd (make_valid ci a) b) = make_valid ci (vadd a b).
Proof. apply make_valid_congr_add; [apply make_valid_idem|reflexivity]. Qed.

Lemma make_valid_vscale ci s a : make_valid ci (vscale s (make_valid ci a)) = make_valid ci (vscale s a).
Proof.
  revert a. induction ci as [|m ci IH]; intros [|x a]; cbn; try reflexivity. rewrite mv1_mul_r. f_equal. apply IH.
Qed.

Lemma make_valid_congr_scale ci s b b' : make_valid ci b = make_valid ci b' ->
  make_valid ci (vscale s b) = make_valid ci (vscale s b').
Proof. intros H. rewrite <- (make_valid_vscale ci s b), H. apply make_valid_vscale. Qed.

Lemma make_valid_congr_neg ci b b' : make_valid ci b = make_valid ci b' -> make_valid ci (vneg b) = make_valid ci (vneg b').
Proof. rewrite !vneg_scale. apply make_valid_congr_scale. Qed.

Lemma make_valid_neg ci a : make_valid ci (vneg (make_valid ci a)) = make_valid ci (vneg a).
Proof. apply make_valid_congr_neg, make_valid_idem. Qed.

Lemma make_valid_neg_neg ci a : make_valid ci (vneg (make_valid ci (vneg a))) = make_valid ci a.
Proof. rewrite make_valid_neg. apply f_equal. vec_lia (length a). Qed.

Lemma make_valid_neg_scale ci q v :
  make_valid ci (vneg (make_valid ci (vscale q v))) = make_valid ci (vscale (- q) v).
Proof. rewrite make_valid_neg, vscale_neg_l. reflexivity. Qed.

Lemma make_valid_nil ci : make_valid ci [] = [].
Proof. destruct ci; reflexivity. Qed.

Lemma make_valid_vzero ci : make_valid ci (vzero (length ci)) = vzero (length ci).
Proof. apply (vec_ext (length ci)); [auto with vlen..|]. intros j Hj. autorewrite with vnth. apply mv1_0. Qed.

Lemma check_valid_length ci r : check_valid ci r = true -> length r = length ci.
Proof. unfold check_valid. intro H. apply andb_true_iff in H. destruct H as [H _]. apply Nat.eqb_eq in H. exact H. Qed.

Lemma make_valid_of_valid ci r : check_valid ci r = true -> make_valid ci r = r.
Proof.
  intros H. pose proof (check_valid_length ci r H) as Hl. apply andb_true_iff in H. destruct H as [_ H].
  revert r Hl H. induction ci as [|m ci IH]; intros [|x r] Hl H; try discriminate Hl; [reflexivity|].
  cbn [combine forallb fst snd] in H. apply andb_true_iff in H. destruct H as [Hx Hr]. cbn [make_valid]. f_equal.
  - unfold mv1. destruct (m =? 1); [reflexivity|]. apply Z.mod_small. lia.
  - apply IH; [injection Hl as Hl; exact Hl|exact Hr].
Qed.

Lemma list_eqb_iff a b : list_eqb a b = true <-> a = b.
Proof. exact (forall2b_eq_spec Z.eqb Z.eqb_eq a b). Qed.
Lemma list_eqb_refl a : list_eqb a a = true.
Proof. apply list_eqb_iff. reflexivity. Qed.
Lemma list_eqb_eq a b : list_eqb a b = true -> a = b.
Proof. apply list_eqb_iff. Qed.
