(* The denotation of a graph is taken site by site from the right (the step sden), and one more edge adds
   left part * edge * right part (ending_through).  Of the graph operations that are not built from terms, MPO.dagger and
   MPO.__add__ on the standard sum form are inductions over that step; scaling and MPO.plus_identity unfold it once at
   the first site. *)
From TenpyV Require Import Base.Prelude Base.Lists Model.Automaton.
Open Scope Z_scope.

Lemma filter_all_in {A} (p : A -> bool) l : (forall x, In x l -> p x = true) -> filter p l = l.
Proof. exact (filter_all p l). Qed.

(* not Lists.forall2b_eq_spec: list_eqb of Model/Automaton.v takes eqb inside its fix, forall2b outside, and the two
   are not convertible *)
Lemma list_eqb_iff {A} (eqb : A -> A -> bool) : (forall x y, eqb x y = true <-> x = y) ->
  forall l1 l2, list_eqb eqb l1 l2 = true <-> l1 = l2.
Proof.
  intro H. induction l1 as [|x l1 IH]; intros [|y l2]; cbn [list_eqb]; try (split; discriminate).
  - split; reflexivity.
  - rewrite andb_true_iff, H, IH. split; [intros [-> ->]; reflexivity|intro E; injection E; auto].
Qed.

Lemma pair_eqb_iff {A B} (ea : A -> A -> bool) (eb : B -> B -> bool) :
  (forall a a', ea a a' = true <-> a = a') -> (forall b b', eb b b' = true <-> b = b') ->
  forall x y : A * B, ea (fst x) (fst y) && eb (snd x) (snd y) = true <-> x = y.
Proof.
  intros Ha Hb [a b] [a' b']. cbn [fst snd]. rewrite andb_true_iff, Ha, Hb.
  split; [intros [-> ->]; reflexivity|intro E; injection E; auto].
Qed.

Lemma eqb_neq {A} (eqb : A -> A -> bool) : (forall x y, eqb x y = true <-> x = y) ->
  forall x y, eqb x y = false <-> x <> y.
Proof. intros H x y. rewrite <- (H x y). symmetry. apply not_true_iff_false. Qed.

Lemma c_eq (x y : C) : fst x = fst y -> snd x = snd y -> x = y.
Proof. destruct x, y; cbn [fst snd]; intros H1 H2; subst; reflexivity. Qed.

Ltac csolve := apply c_eq; unfold cadd, cmul, cconj, c0, c1; cbn [fst snd]; ring.

Lemma cadd_comm x y : cadd x y = cadd y x.
Proof. csolve. Qed.
Lemma cadd_assoc x y z : cadd (cadd x y) z = cadd x (cadd y z).
Proof. csolve. Qed.
Lemma cadd_0_l x : cadd c0 x = x.
Proof. csolve. Qed.
Lemma cadd_0_r x : cadd x c0 = x.
Proof. csolve. Qed.
Lemma cmul_1_l x : cmul c1 x = x.
Proof. csolve. Qed.
Lemma cmul_1_r x : cmul x c1 = x.
Proof. csolve. Qed.
Lemma cmul_assoc x y z : cmul (cmul x y) z = cmul x (cmul y z).
Proof. csolve. Qed.
Lemma cmul_comm x y : cmul x y = cmul y x.
Proof. csolve. Qed.
Lemma cmul_0_r x : cmul x c0 = c0.
Proof. csolve. Qed.
Lemma cmul_cadd_distr_l a x y : cmul a (cadd x y) = cadd (cmul a x) (cmul a y).
Proof. csolve. Qed.
Lemma cconj_cmul x y : cconj (cmul x y) = cmul (cconj x) (cconj y).
Proof. csolve. Qed.
Lemma cconj_cadd x y : cconj (cadd x y) = cadd (cconj x) (cconj y).
Proof. csolve. Qed.
Lemma cconj_invol x : cconj (cconj x) = x.
Proof. csolve. Qed.

Lemma cadd_cancel_l c x y : cadd c x = cadd c y -> x = y.
Proof.
  destruct c, x, y. unfold cadd. cbn [fst snd]. intro H. injection H as H1 H2. f_equal; lia.
Qed.

Lemma ceqb_eq x y : ceqb x y = true <-> x = y.
Proof. apply (pair_eqb_iff Z.eqb Z.eqb Z.eqb_eq Z.eqb_eq). Qed.

Lemma key_eqb_eq k k' : key_eqb k k' = true <-> k = k'.
Proof.
  revert k'. induction k as [| |i a s|n|k IH|k IH]; intros [| |i' a' s'|n'|k'|k']; cbn [key_eqb];
    split; intro H; try discriminate H; try reflexivity.
  - assert (i = i' /\ a = a' /\ s = s') as (-> & -> & ->) by lia. reflexivity.
  - injection H as -> -> ->. lia.
  - f_equal. lia.
  - injection H as ->. lia.
  - f_equal. apply IH. exact H.
  - injection H as ->. apply IH. reflexivity.
  - f_equal. apply IH. exact H.
  - injection H as ->. apply IH. reflexivity.
Qed.

Lemma key_eqb_refl k : key_eqb k k = true.
Proof. apply key_eqb_eq. reflexivity. Qed.

Lemma key_eqb_neq k k' : key_eqb k k' = false <-> k <> k'.
Proof. apply eqb_neq. exact key_eqb_eq. Qed.

Lemma key_eqb_spec k k' : reflect (k = k') (key_eqb k k').
Proof. apply iff_reflect. symmetry. apply key_eqb_eq. Qed.

Lemma key_eqb_sym k k' : key_eqb k k' = key_eqb k' k.
Proof.
  destruct (key_eqb_spec k k') as [->|E]; symmetry; [apply key_eqb_refl|apply key_eqb_neq; congruence].
Qed.

Lemma has_key_true {A} (f : A -> key) l x :
  existsb (fun a => key_eqb (f a) x) l = true <-> exists a, In a l /\ f a = x.
Proof.
  rewrite existsb_exists. split; intros (a & Ha & E); exists a; split; try exact Ha; apply key_eqb_eq; exact E.
Qed.

Lemma has_key_false {A} (f : A -> key) l x :
  existsb (fun a => key_eqb (f a) x) l = false <-> forall a, In a l -> f a <> x.
Proof.
  rewrite <- not_true_iff_false, has_key_true. split.
  - intros H a Ha E. apply H. exists a. auto.
  - intros H (a & Ha & E). exact (H a Ha E).
Qed.

Lemma sel_key_nil {A} (f : A -> key) l x :
  (forall a, In a l -> f a <> x) -> filter (fun a => key_eqb (f a) x) l = [].
Proof. intro H. apply filter_none. intros a Ha. apply key_eqb_neq, H, Ha. Qed.

Lemma letter_eqb_eq x y : letter_eqb x y = true <-> x = y.
Proof. apply (pair_eqb_iff Nat.eqb Z.eqb Nat.eqb_eq Z.eqb_eq). Qed.

Lemma word_eqb_list u : forall v, word_eqb u v = list_eqb letter_eqb u v.
Proof.
  induction u as [|x u IH]; intros [|y v]; cbn [word_eqb list_eqb]; try reflexivity. rewrite IH. reflexivity.
Qed.

Lemma word_eqb_eq u v : word_eqb u v = true <-> u = v.
Proof. rewrite word_eqb_list. apply list_eqb_iff, letter_eqb_eq. Qed.

Lemma word_eqb_refl u : word_eqb u u = true.
Proof. apply word_eqb_eq. reflexivity. Qed.

Lemma word_eqb_neq u v : word_eqb u v = false <-> u <> v.
Proof. apply eqb_neq. exact word_eqb_eq. Qed.

Lemma letter_cmp_eq x y : letter_cmp x y = Eq <-> x = y.
Proof.
  destruct x as [i a], y as [i' a']. unfold letter_cmp. cbn [fst snd]. split; intro H.
  - destruct (Nat.compare i i') eqn:E; try discriminate H.
    apply Nat.compare_eq_iff in E. apply Z.compare_eq_iff in H. subst. reflexivity.
  - injection H as -> ->. rewrite Nat.compare_refl. apply Z.compare_refl.
Qed.

Lemma word_cmp_eq u v : word_cmp u v = Eq <-> u = v.
Proof.
  revert v. induction u as [|x u IH]; intros [|y v]; cbn [word_cmp]; split; intro H;
    try discriminate H; try reflexivity.
  - destruct (letter_cmp x y) eqn:E; try discriminate H.
    apply letter_cmp_eq in E. apply IH in H. subst. reflexivity.
  - injection H as -> ->. assert (E : letter_cmp y y = Eq) by (apply letter_cmp_eq; reflexivity).
    rewrite E. apply IH. reflexivity.
Qed.

Lemma mono_eqb_eq m n : mono_eqb m n = true <-> m = n.
Proof. apply (pair_eqb_iff ceqb word_eqb ceqb_eq word_eqb_eq). Qed.

Lemma peq_refl p : peq p p.
Proof. intro w. reflexivity. Qed.
Lemma peq_sym p q : peq p q -> peq q p.
Proof. intros H w. symmetry. apply H. Qed.
Lemma peq_trans p q r : peq p q -> peq q r -> peq p r.
Proof. intros H1 H2 w. rewrite H1. apply H2. Qed.

Lemma coef_app p q w : coef (p ++ q) w = cadd (coef p w) (coef q w).
Proof.
  induction p as [|[c v] t IH]; cbn [app coef].
  - symmetry. apply cadd_0_l.
  - destruct (word_eqb v w); [rewrite IH; symmetry; apply cadd_assoc|exact IH].
Qed.

Lemma peq_app p p' q q' : peq p p' -> peq q q' -> peq (p ++ q) (p' ++ q').
Proof. intros H1 H2 w. rewrite !coef_app, H1, H2. reflexivity. Qed.

Lemma peq_app_comm p q : peq (p ++ q) (q ++ p).
Proof. intro w. rewrite !coef_app. apply cadd_comm. Qed.

Lemma peq_cons m p q : peq p q -> peq (m :: p) (m :: q).
Proof. intros H. apply (peq_app [m] [m]); [apply peq_refl|exact H]. Qed.

Lemma peq_perm p q : Permutation p q -> peq p q.
Proof.
  induction 1 as [|m l l' _ IH|m n l|l l' l'' _ IH1 _ IH2].
  - apply peq_refl.
  - apply peq_cons, IH.
  - apply (peq_app [n; m] [m; n] l l); [apply (peq_app_comm [n] [m])|apply peq_refl].
  - exact (peq_trans _ _ _ IH1 IH2).
Qed.

Lemma peq_flat_map_pointwise {A} (f h : A -> poly) l :
  (forall x, In x l -> peq (f x) (h x)) -> peq (flat_map f l) (flat_map h l).
Proof.
  induction l as [|x l IH]; intro H; cbn [flat_map]; [apply peq_refl|].
  apply peq_app; [apply H; left; reflexivity|]. apply IH. intros y Hy. apply H. right. exact Hy.
Qed.

Lemma coef_pinsert m p w : coef (pinsert m p) w = coef (m :: p) w.
Proof.
  destruct m as [cm wm]. induction p as [|[c v] t IH]; cbn [pinsert fst snd]; [reflexivity|].
  destruct (word_cmp wm v) eqn:E.
  - apply word_cmp_eq in E. subst v. cbn [coef]. destruct (word_eqb wm w); [apply cadd_assoc|reflexivity].
  - reflexivity.
  - cbn [coef]. rewrite IH. apply (peq_perm _ _ (perm_swap (cm, wm) (c, v) t)).
Qed.

Lemma coef_fold_pinsert p w : coef (fold_right pinsert [] p) w = coef p w.
Proof.
  induction p as [|[c v] t IH]; cbn [fold_right]; [reflexivity|].
  rewrite coef_pinsert. cbn [coef]. rewrite IH. reflexivity.
Qed.

Lemma coef_filter_nz p w : coef (filter (fun m => negb (ceqb (fst m) c0)) p) w = coef p w.
Proof.
  induction p as [|[c v] t IH]; cbn [filter fst]; [reflexivity|].
  destruct (ceqb c c0) eqn:E; cbn [negb coef]; rewrite IH.
  - apply ceqb_eq in E. subst c. destruct (word_eqb v w); [symmetry; apply cadd_0_l|reflexivity].
  - reflexivity.
Qed.

Lemma coef_normalize p w : coef (normalize p) w = coef p w.
Proof. unfold normalize. rewrite coef_filter_nz. apply coef_fold_pinsert. Qed.

Lemma peq_normalize p : peq (normalize p) p.
Proof. intro w. apply coef_normalize. Qed.

Lemma peqb_sound p q : peqb p q = true -> peq p q.
Proof.
  intros H w. unfold peqb in H.
  apply (list_eqb_iff mono_eqb mono_eqb_eq) in H.
  rewrite <- (coef_normalize p), <- (coef_normalize q), H. reflexivity.
Qed.

(* completeness of peqb: normalize gives a list sorted by words without zero coefficients, and such
   a list is determined by its coefficients *)
Lemma letter_cmp_antisym x y : letter_cmp y x = CompOpp (letter_cmp x y).
Proof.
  unfold letter_cmp. rewrite (Nat.compare_antisym (fst x) (fst y)).
  destruct (Nat.compare (fst x) (fst y)); cbn [CompOpp]; try reflexivity. apply Z.compare_antisym.
Qed.

Lemma word_cmp_antisym u : forall v, word_cmp v u = CompOpp (word_cmp u v).
Proof.
  induction u as [|x u IH]; intros [|y v]; cbn [word_cmp CompOpp]; try reflexivity.
  rewrite (letter_cmp_antisym x y). destruct (letter_cmp x y); cbn [CompOpp]; try reflexivity. apply IH.
Qed.

Lemma word_cmp_gt_lt u v : word_cmp u v = Gt -> word_cmp v u = Lt.
Proof. intro H. rewrite (word_cmp_antisym u v), H. reflexivity. Qed.

Lemma letter_cmp_lt x y : letter_cmp x y = Lt <->
  (fst x < fst y)%nat \/ (fst x = fst y /\ snd x < snd y).
Proof.
  unfold letter_cmp. destruct (Nat.compare_spec (fst x) (fst y)) as [E|E|E].
  - rewrite Z.compare_lt_iff. split; intro H; lia.
  - split; intro H; [lia|reflexivity].
  - split; intro H; [discriminate H|lia].
Qed.

Lemma letter_cmp_trans x y z : letter_cmp x y = Lt -> letter_cmp y z = Lt -> letter_cmp x z = Lt.
Proof. rewrite !letter_cmp_lt. lia. Qed.

Lemma word_cmp_trans u : forall v t, word_cmp u v = Lt -> word_cmp v t = Lt -> word_cmp u t = Lt.
Proof.
  induction u as [|x u IH]; intros [|y v] [|z t] H1 H2; cbn [word_cmp] in *;
    try discriminate H1; try discriminate H2; try reflexivity.
  destruct (letter_cmp x y) eqn:E1; try discriminate H1.
  - apply letter_cmp_eq in E1. subst y. destruct (letter_cmp x z); try discriminate H2; try reflexivity.
    eapply IH; eassumption.
  - destruct (letter_cmp y z) eqn:E2; try discriminate H2.
    + apply letter_cmp_eq in E2. subst z. rewrite E1. reflexivity.
    + rewrite (letter_cmp_trans x y z E1 E2). reflexivity.
Qed.

Definition mlt (m n : mono) : Prop := word_cmp (snd m) (snd n) = Lt.
Definition wlb (x : word) (p : poly) : Prop := Forall (fun n => word_cmp x (snd n) = Lt) p.
Definition nzp (p : poly) : Prop := Forall (fun m => fst m <> c0) p.

Lemma wlb_trans x y p : word_cmp x y = Lt -> wlb y p -> wlb x p.
Proof. intro H. apply Forall_impl. intros n Hn. exact (word_cmp_trans x y (snd n) H Hn). Qed.

Lemma wlb_pinsert x m p : wlb x p -> word_cmp x (snd m) = Lt -> wlb x (pinsert m p).
Proof.
  unfold wlb. intros Hp Hm. induction p as [|[c v] t IH]; cbn [pinsert].
  - constructor; [exact Hm|constructor].
  - inversion Hp as [|? ? Hv Ht]; subst. cbn [snd] in Hv.
    destruct (word_cmp (snd m) v).
    + constructor; [exact Hv|exact Ht].
    + constructor; [exact Hm|exact Hp].
    + constructor; [exact Hv|apply IH; exact Ht].
Qed.

Lemma pinsert_sorted m p : StronglySorted mlt p -> StronglySorted mlt (pinsert m p).
Proof.
  induction 1 as [|[c v] t Ht IH Hv]; cbn [pinsert].
  - constructor; constructor.
  - destruct (word_cmp (snd m) v) eqn:E.
    + constructor; [exact Ht|exact Hv].
    + constructor; [constructor; assumption|]. constructor; [exact E|]. exact (wlb_trans _ v t E Hv).
    + constructor; [exact IH|]. apply wlb_pinsert; [exact Hv|]. cbn [snd]. apply word_cmp_gt_lt. exact E.
Qed.

Lemma normalize_sorted p : StronglySorted mlt (normalize p).
Proof.
  unfold normalize. apply ss_filter.
  induction p as [|m p IH]; cbn [fold_right]; [constructor|]. apply pinsert_sorted. exact IH.
Qed.

Lemma normalize_nz p : nzp (normalize p).
Proof.
  unfold normalize, nzp. apply Forall_forall. intros m Hm. apply filter_In in Hm.
  destruct Hm as [_ Hm]. intro E. rewrite E in Hm. discriminate Hm.
Qed.

Lemma coef_wlb x p : wlb x p -> coef p x = c0.
Proof.
  unfold wlb. induction 1 as [|[c v] t Hv _ IH]; cbn [coef]; [reflexivity|].
  cbn [snd] in Hv. destruct (word_eqb v x) eqn:E; [|exact IH].
  apply word_eqb_eq in E. subst v.
  assert (E : word_cmp x x = Eq) by (apply word_cmp_eq; reflexivity). congruence.
Qed.

Lemma coef_head_wlb c v t : wlb v t -> coef ((c, v) :: t) v = c.
Proof.
  intro H. cbn [coef]. rewrite word_eqb_refl, (coef_wlb v t); [apply cadd_0_r|exact H].
Qed.

Lemma head_not_below c v t q : wlb v t -> c <> c0 -> peq ((c, v) :: t) q -> wlb v q -> False.
Proof.
  intros Ht Hc H Hq. apply Hc. rewrite <- (coef_head_wlb c v t Ht), (H v). apply coef_wlb. exact Hq.
Qed.

Lemma sorted_peq_eq l1 : forall l2, StronglySorted mlt l1 -> StronglySorted mlt l2 ->
  nzp l1 -> nzp l2 -> peq l1 l2 -> l1 = l2.
Proof.
  induction l1 as [|[c v] t1 IH]; intros [|[d u] t2] S1 S2 N1 N2 H; [reflexivity| | |].
  - exfalso. apply StronglySorted_inv in S2. apply Forall_inv in N2.
    exact (head_not_below d u t2 [] (proj2 S2) N2 (peq_sym _ _ H) (Forall_nil _)).
  - exfalso. apply StronglySorted_inv in S1. apply Forall_inv in N1.
    exact (head_not_below c v t1 [] (proj2 S1) N1 H (Forall_nil _)).
  - apply StronglySorted_inv in S1, S2. destruct S1 as [St1 Hv], S2 as [St2 Hu].
    apply Forall_cons_iff in N1, N2. destruct N1 as [Hc Nt1], N2 as [Hd Nt2]. cbn [fst] in Hc, Hd.
    destruct (word_cmp v u) eqn:E.
    + apply word_cmp_eq in E. subst u.
      assert (c = d) as <-.
      { rewrite <- (coef_head_wlb c v t1 Hv), <- (coef_head_wlb d v t2 Hu). apply H. }
      f_equal. apply IH; try assumption.
      intro x. specialize (H x). cbn [coef] in H. destruct (word_eqb v x); [|exact H].
      eapply cadd_cancel_l. exact H.
    + exfalso. apply (head_not_below c v t1 ((d, u) :: t2) Hv Hc H).
      constructor; [exact E|exact (wlb_trans v u t2 E Hu)].
    + exfalso. apply word_cmp_gt_lt in E.
      apply (head_not_below d u t2 ((c, v) :: t1) Hu Hd (peq_sym _ _ H)).
      constructor; [exact E|exact (wlb_trans u v t1 E Hv)].
Qed.

Lemma peqb_complete p q : peq p q -> peqb p q = true.
Proof.
  intro H. unfold peqb.
  assert (E : normalize p = normalize q).
  { apply sorted_peq_eq; try apply normalize_sorted; try apply normalize_nz.
    intro x. rewrite !coef_normalize. apply H. }
  rewrite E. apply (list_eqb_iff mono_eqb mono_eqb_eq). reflexivity.
Qed.

Lemma peqb_iff p q : peqb p q = true <-> peq p q.
Proof. split; [apply peqb_sound|apply peqb_complete]. Qed.

Lemma consop_0 i w : consop i 0 w = w.
Proof. reflexivity. Qed.

Lemma consop_app i op u v : consop i op (u ++ v) = consop i op u ++ v.
Proof. unfold consop. destruct (op =? 0); reflexivity. Qed.

Lemma wstring_app n : forall k m s, wstring k (n + m) s = wstring k n s ++ wstring (k + n) m s.
Proof.
  induction n as [|n IH]; intros k m s; cbn [Nat.add wstring app].
  - rewrite Nat.add_0_r. reflexivity.
  - rewrite IH, consop_app, Nat.add_succ_comm. reflexivity.
Qed.

Definition hcl (hc : Z -> Z) (l : letter) : letter := (fst l, hc (snd l)).

Lemma consop_hc hc i op w : hc 0 = 0 -> (forall x, x <> 0 -> hc x <> 0) ->
  consop i (hc op) (map (hcl hc) w) = map (hcl hc) (consop i op w).
Proof.
  intros H0 Hn. unfold consop. destruct (op =? 0) eqn:E.
  - assert (op = 0) by lia. subst op. rewrite H0. reflexivity.
  - assert (Hop : op <> 0) by lia. apply Hn in Hop.
    destruct (hc op =? 0) eqn:E'; [lia|]. reflexivity.
Qed.

Definition mstep (i : nat) (e : edge) (m : mono) : mono :=
  (cmul (ew e) (fst m), consop i (eop e) (snd m)).
(* Model/AutomatonMulti.v has the same filter as outof, and into for eR; out and outof are convertible *)
Definition out (k : key) (es : list edge) : list edge := filter (fun e => key_eqb (eL e) k) es.
(* the operator of state k left of a site with edges es, when state r right of it denotes R r.  rden_cons,
   AutomatonP2.D_cons and AutomatonMultiP.Rw_step state the step unfolded, because their users rewrite out k es *)
Definition sden (R : key -> poly) (i : nat) (k : key) (es : list edge) : poly :=
  flat_map (fun e => map (mstep i e) (R (eR e))) (out k es).

Lemma out_app k l1 l2 : out k (l1 ++ l2) = out k l1 ++ out k l2.
Proof. apply filter_app. Qed.

Lemma in_out k e es : In e (out k es) <-> In e es /\ eL e = k.
Proof. unfold out. rewrite filter_In, key_eqb_eq. reflexivity. Qed.

Lemma out_nil_in x es : (forall e, In e es -> eL e <> x) -> out x es = [].
Proof. apply sel_key_nil. Qed.

Lemma out_map (f : edge -> edge) k k' es :
  (forall e, key_eqb (eL (f e)) k' = key_eqb (eL e) k) -> out k' (map f es) = map f (out k es).
Proof. intro H. unfold out. rewrite filter_map_comm. f_equal. apply filter_ext. exact H. Qed.

Lemma coef_map_mstep i e p w :
  coef (map (mstep i e) p) w =
  if eop e =? 0 then cmul (ew e) (coef p w)
  else match w with
       | [] => c0
       | l :: v => if letter_eqb (i, eop e) l then cmul (ew e) (coef p v) else c0
       end.
Proof.
  induction p as [|[c u] p IH]; cbn [map coef].
  - destruct (eop e =? 0); [symmetry; apply cmul_0_r|].
    destruct w as [|l v]; [reflexivity|]. destruct (letter_eqb (i, eop e) l); [symmetry; apply cmul_0_r|reflexivity].
  - unfold mstep at 1. cbn [fst snd]. unfold consop. rewrite IH. destruct (eop e =? 0).
    + destruct (word_eqb u w); [symmetry; apply cmul_cadd_distr_l|reflexivity].
    + destruct w as [|l v]; cbn [word_eqb]; [reflexivity|].
      destruct (letter_eqb (i, eop e) l); cbn [andb]; [|reflexivity].
      destruct (word_eqb u v); [symmetry; apply cmul_cadd_distr_l|reflexivity].
Qed.

Lemma peq_map_mstep i e p q : peq p q -> peq (map (mstep i e) p) (map (mstep i e) q).
Proof.
  intros H w. rewrite !coef_map_mstep. destruct (eop e =? 0); [rewrite (H w); reflexivity|].
  destruct w as [|l v]; [reflexivity|]. rewrite (H v). reflexivity.
Qed.

Lemma ending_app kf l1 l2 : ending kf (l1 ++ l2) = ending kf l1 ++ ending kf l2.
Proof. unfold ending. rewrite filter_app, map_app. reflexivity. Qed.

Lemma ending_flat_map {A} kf (f : A -> list (C * word * key)) l :
  ending kf (flat_map f l) = flat_map (fun x => ending kf (f x)) l.
Proof. unfold ending. rewrite filter_flat_map, map_flat_map. reflexivity. Qed.

Lemma ending_pstep kf i e l : ending kf (map (pstep i e) l) = map (mstep i e) (ending kf l).
Proof.
  unfold ending. rewrite filter_map_comm, !map_map. cbn [pstep snd fst]. reflexivity.
Qed.

Lemma ending_perm kf l l' : Permutation l l' -> Permutation (ending kf l) (ending kf l').
Proof. intro H. unfold ending. apply Permutation_map. apply filter_perm. exact H. Qed.

Lemma sden_if R i k es :
  sden R i k es = flat_map (fun e => if key_eqb (eL e) k then map (mstep i e) (R (eR e)) else []) es.
Proof. apply flat_map_filter. Qed.

Lemma ending_paths_cons kf es g i k :
  ending kf (paths (es :: g) i k) = sden (fun r => ending kf (paths g (S i) r)) i k es.
Proof.
  cbn [paths]. rewrite sden_if, ending_flat_map. apply flat_map_ext. intro e.
  destruct (key_eqb (eL e) k); [apply ending_pstep|reflexivity].
Qed.

Lemma rden_cons es g i k :
  rden (es :: g) i k = flat_map (fun e => map (mstep i e) (rden g (S i) (eR e))) (out k es).
Proof. apply ending_paths_cons. Qed.

Lemma rden_nil i k : rden [] i k = if key_eqb k IdR then [(c1, [])] else [].
Proof. unfold rden, ending. cbn [paths filter snd]. destruct (key_eqb k IdR); reflexivity. Qed.

Lemma sden_ext R R' i k es : (forall r, R r = R' r) -> sden R i k es = sden R' i k es.
Proof. intro H. apply flat_map_ext. intro e. rewrite H. reflexivity. Qed.

Lemma sden_peq R R' i k es : (forall r, peq (R r) (R' r)) -> peq (sden R i k es) (sden R' i k es).
Proof. intro H. apply peq_flat_map_pointwise. intros e _. apply peq_map_mstep, H. Qed.

Lemma sden_app R1 R2 i k es :
  Permutation (sden (fun r => R1 r ++ R2 r) i k es) (sden R1 i k es ++ sden R2 i k es).
Proof.
  unfold sden. erewrite flat_map_ext by (intro e; apply map_app). apply perm_flat_map_split.
Qed.

Lemma sden_flat_map {A} (R : A -> key -> poly) l i k es :
  Permutation (flat_map (fun m => sden (R m) i k es) l) (sden (fun r => flat_map (fun m => R m r) l) i k es).
Proof.
  unfold sden. erewrite (flat_map_ext (fun e => map _ _)) by (intro e; apply map_flat_map).
  apply perm_flat_map_swap.
Qed.

Lemma paths_app g1 g2 : forall i k,
  paths (g1 ++ g2) i k =
  flat_map (fun p => map (fun q => (cmul (fst (fst p)) (fst (fst q)), snd (fst p) ++ snd (fst q), snd q))
                         (paths g2 (i + length g1) (snd p))) (paths g1 i k).
Proof.
  induction g1 as [|es g1 IH]; intros i k.
  - cbn [app paths flat_map length fst snd]. rewrite Nat.add_0_r, app_nil_r.
    rewrite <- (map_id (paths g2 i k)) at 1. apply map_ext. intros [[c w] kf].
    cbn [fst snd app]. rewrite cmul_1_l. reflexivity.
  - cbn [app paths length]. rewrite flat_map_flat_map. apply flat_map_ext_in. intros e _.
    destruct (key_eqb (eL e) k); [|reflexivity].
    rewrite IH, map_flat_map, flat_map_map. apply flat_map_ext_in. intros [[c w] kf] _.
    cbn [pstep fst snd]. replace (i + S (length g1))%nat with (S i + length g1)%nat by lia.
    rewrite map_map. apply map_ext. intros [[d v] kq]. unfold pstep. cbn [fst snd].
    rewrite cmul_assoc, consop_app. reflexivity.
Qed.

Lemma paths_insert_mid g1 es1 e es2 g2 : forall i x,
  Permutation (paths (g1 ++ (es1 ++ e :: es2) :: g2) i x)
              (paths (g1 ++ (es1 ++ es2) :: g2) i x ++ paths (g1 ++ [e] :: g2) i x).
Proof.
  induction g1 as [|fs g1 IH]; intros i x; cbn [app paths].
  - rewrite !flat_map_app. cbn [flat_map]. rewrite app_nil_r, <- app_assoc.
    apply Permutation_app_head. apply Permutation_app_comm.
  - eapply perm_trans; [|apply perm_flat_map_split].
    apply perm_flat_map_pointwise. intros f _.
    destruct (key_eqb (eL f) x); [|apply Permutation_refl].
    rewrite <- map_app. apply Permutation_map. apply IH.
Qed.

Definition ext1 (k : nat) (e : edge) (l r : mono) : mono :=
  (cmul (fst l) (cmul (ew e) (fst r)), snd l ++ consop k (eop e) (snd r)).
Definition pmul3 (Lp : poly) (k : nat) (e : edge) (Rp : poly) : poly :=
  flat_map (fun l => map (ext1 k e l) Rp) Lp.

Lemma pmul3_nil_l k e Rp : pmul3 [] k e Rp = [].
Proof. reflexivity. Qed.
Lemma pmul3_nil_r Lp k e : pmul3 Lp k e [] = [].
Proof. unfold pmul3. apply flat_map_nil_in. reflexivity. Qed.

Lemma ending_through kf g1 e g2 i x :
  ending kf (paths (g1 ++ [e] :: g2) i x) =
  pmul3 (ending (eL e) (paths g1 i x)) (i + length g1) e (ending kf (paths g2 (S (i + length g1)) (eR e))).
Proof.
  rewrite paths_app. generalize (paths g1 i x) as l.
  induction l as [|[[c w] k] l IH]; [reflexivity|].
  cbn [flat_map]. rewrite ending_app, IH. clear IH.
  unfold ending at 4. cbn [filter snd]. cbn [paths flat_map]. rewrite app_nil_r.
  rewrite (key_eqb_sym (eL e) k).
  destruct (key_eqb k (eL e)); [|reflexivity].
  cbn [map fst]. unfold pmul3 at 2. cbn [flat_map]. f_equal.
  unfold ending. rewrite map_map, filter_map_comm, !map_map.
  cbn [pstep snd fst]. reflexivity.
Qed.

Lemma rden_dagger hc g : hc 0 = 0 -> (forall x, x <> 0 -> hc x <> 0) ->
  forall i k, rden (gdagger hc g) i k = pdagger hc (rden g i k).
Proof.
  intros H0 Hn. induction g as [|es g IH]; intros i k; cbn [gdagger map].
  - rewrite rden_nil. destruct (key_eqb k IdR); reflexivity.
  - rewrite !rden_cons, (out_map _ k k) by reflexivity.
    unfold pdagger. rewrite flat_map_map, map_flat_map. apply flat_map_ext_in. intros e _.
    cbn [eR]. rewrite IH. unfold pdagger. rewrite !map_map. apply map_ext. intros [c w].
    unfold mstep. cbn [fst snd eop ew]. rewrite cconj_cmul, <- (consop_hc hc) by assumption. reflexivity.
Qed.

Lemma denote_dagger hc g : hc 0 = 0 -> (forall x, x <> 0 -> hc x <> 0) ->
  denote (gdagger hc g) = pdagger hc (denote g).
Proof. intros H0 Hn. apply rden_dagger; assumption. Qed.

Lemma pscale_c1 p : pscale c1 p = p.
Proof.
  unfold pscale. rewrite <- (map_id p) at 2. apply map_ext. intros [c w]. cbn [fst snd].
  rewrite cmul_1_l. reflexivity.
Qed.

Lemma pscale_mstep c i e p :
  pscale c (map (mstep i e) p) = map (mstep i (mkE (eL e) (eR e) (eop e) (cmul c (ew e)))) p.
Proof.
  unfold pscale. rewrite map_map. apply map_ext. intros [d w]. unfold mstep. cbn [fst snd eop ew].
  rewrite cmul_assoc. reflexivity.
Qed.

Lemma denote_scale0 c g : g <> [] -> denote (gscale0 c g) = pscale c (denote g).
Proof.
  intro Hg. destruct g as [|es g]; [contradiction|].
  unfold denote. cbn [gscale0]. rewrite !rden_cons, (out_map _ IdL IdL), flat_map_map by reflexivity.
  unfold pscale at 1. rewrite map_flat_map. apply flat_map_ext. intro e. symmetry. apply pscale_mstep.
Qed.

Lemma id_loop_inv k e : id_loop k e = true -> eL e = k /\ eR e = k /\ eop e = 0 /\ ew e = c1.
Proof.
  unfold id_loop. intro H. apply andb_true_iff in H. destruct H as [H H4].
  apply andb_true_iff in H. destruct H as [H H3]. apply andb_true_iff in H. destruct H as [H1 H2].
  apply key_eqb_eq in H1, H2. apply ceqb_eq in H4. repeat split; try assumption. lia.
Qed.

Lemma is_loop_inv e : is_loop e = true -> (eL e = IdL /\ eR e = IdL) \/ (eL e = IdR /\ eR e = IdR).
Proof.
  unfold is_loop. intro H. apply orb_true_iff in H.
  destruct H as [H|H]; apply andb_true_iff in H; destruct H as [H1 H2]; apply key_eqb_eq in H1, H2; auto.
Qed.

Lemma id_loop_is_loop k e : k = IdL \/ k = IdR -> id_loop k e = true -> is_loop e = true.
Proof.
  intros Hk H. apply id_loop_inv in H. destruct H as (H1 & H2 & _). unfold is_loop. rewrite H1, H2.
  destruct Hk; subst k; reflexivity.
Qed.

Lemma mstep_id_loop k e i p : id_loop k e = true -> map (mstep i e) p = p.
Proof.
  intro H. apply id_loop_inv in H. destruct H as (_ & _ & H3 & H4).
  rewrite <- (map_id p) at 2. apply map_ext. intros [c w]. unfold mstep. rewrite H3, H4, cmul_1_l.
  reflexivity.
Qed.

Lemma std_form_cons es g : std_form (es :: g) = true <-> std_site es = true /\ std_form g = true.
Proof. apply andb_true_iff. Qed.

Lemma std_site_inv es : std_site es = true ->
  (exists l, filter (id_loop IdL) es = [l]) /\ (exists r, filter (id_loop IdR) es = [r]) /\
  (forall e, In e es -> (eR e = IdL -> id_loop IdL e = true) /\ (eL e = IdR -> id_loop IdR e = true)).
Proof.
  unfold std_site. intro H. apply andb_true_iff in H. destruct H as [H H3].
  apply andb_true_iff in H. destruct H as [H1 H2].
  apply Nat.eqb_eq in H1, H2. apply length_one_single in H1, H2. split; [exact H1|]. split; [exact H2|].
  rewrite forallb_forall in H3. intros e He. specialize (H3 e He).
  apply andb_true_iff in H3. destruct H3 as [Ha Hb]. split; intro E.
  - rewrite E in Ha. cbn [key_eqb negb orb] in Ha. exact Ha.
  - rewrite E in Hb. cbn [key_eqb negb orb] in Hb. exact Hb.
Qed.

Lemma std_site_loops es : std_site es = true ->
  (exists l, id_loop IdL l = true /\ filter (fun e => key_eqb (eR e) IdL) es = [l]) /\
  (exists r, id_loop IdR r = true /\ out IdR es = [r]).
Proof.
  intro Hs. destruct (std_site_inv es Hs) as ([l Hl] & [r Hr] & Hall).
  split; [exists l; rewrite <- Hl|exists r; rewrite <- Hr]; (split; [eapply filter_single_in; eassumption|]);
    apply filter_ext_in; intros e He; destruct (Hall e He) as [HL HR]; symmetry.
  - destruct (key_eqb_spec (eR e) IdL) as [E|E]; [exact (HL E)|].
    apply not_true_is_false. intro E'. apply E, (id_loop_inv _ _ E').
  - destruct (key_eqb_spec (eL e) IdR) as [E|E]; [exact (HR E)|].
    apply not_true_is_false. intro E'. apply E, (id_loop_inv _ _ E').
Qed.

Lemma std_succ es e k : std_site es = true -> In e (out k es) -> k <> IdL -> eR e <> IdL.
Proof.
  intros Hs He Hk E. apply in_out in He. destruct He as [He HL].
  destruct (std_site_inv es Hs) as (_ & _ & Hall). apply (Hall e He), id_loop_inv in E.
  destruct E as (E & _). congruence.
Qed.

Lemma rden_IdR_std g : std_form g = true -> forall i, rden g i IdR = [(c1, [])].
Proof.
  induction g as [|es g IH]; intros H i; [reflexivity|].
  apply std_form_cons in H. destruct H as [Hs Hg].
  destruct (std_site_loops es Hs) as [_ (r & Hl & Hr)].
  rewrite rden_cons, Hr. cbn [flat_map]. rewrite app_nil_r, (mstep_id_loop _ _ _ _ Hl).
  destruct (id_loop_inv _ _ Hl) as (_ & -> & _). apply IH. exact Hg.
Qed.

Lemma sden_into_IdL p i k es : std_site es = true ->
  sden (fun r => if key_eqb r IdL then p else []) i k es = if key_eqb k IdL then p else [].
Proof.
  intro Hs. destruct (std_site_loops es Hs) as [(l & Hll & Hl) _].
  destruct (id_loop_inv _ _ Hll) as (EL & _).
  rewrite sden_if, (flat_map_ext _ (fun e => if key_eqb (eR e) IdL
                                          then (if key_eqb (eL e) k then map (mstep i e) p else []) else [])).
  - rewrite <- flat_map_filter, Hl. cbn [flat_map]. rewrite app_nil_r, EL, (key_eqb_sym IdL k).
    destruct (key_eqb k IdL); [apply (mstep_id_loop _ _ _ _ Hll)|reflexivity].
  - intro e. destruct (key_eqb (eL e) k), (key_eqb (eR e) IdL); reflexivity.
Qed.

Lemma std_IdL_split es i (R : key -> poly) : std_site es = true ->
  peq (flat_map (fun e => map (mstep i e) (R (eR e))) (out IdL es))
      (R IdL ++ flat_map (fun e => map (mstep i e) (R (eR e)))
                         (out IdL (filter (fun e => negb (is_loop e)) es))).
Proof.
  intro Hs. change (peq (sden R i IdL es) (R IdL ++ sden R i IdL (filter (fun e => negb (is_loop e)) es))).
  (* R is what it gives at IdL plus what it gives elsewhere; the site step is linear *)
  rewrite (sden_ext R (fun r => (if key_eqb r IdL then R IdL else []) ++ (if key_eqb r IdL then [] else R r)))
    by (intro r; destruct (key_eqb_spec r IdL) as [->|_]; [symmetry; apply app_nil_r|reflexivity]).
  eapply peq_trans; [apply peq_perm, sden_app|]. rewrite (sden_into_IdL _ i IdL es Hs).
  apply peq_app; [apply peq_refl|]. rewrite !sden_if, flat_map_filter.
  erewrite flat_map_ext; [apply peq_refl|]. intro e. unfold is_loop.
  destruct (key_eqb_spec (eL e) IdL) as [->|_]; [|destruct (negb _); reflexivity].
  cbn [key_eqb andb]. rewrite orb_false_r. destruct (key_eqb (eR e) IdL); reflexivity.
Qed.

Lemma tagA_IdL k : key_eqb (tagA k) IdL = key_eqb k IdL.
Proof. destruct k; reflexivity. Qed.
Lemma tagB_IdL k : key_eqb (tagB k) IdL = key_eqb k IdL.
Proof. destruct k; reflexivity. Qed.
Lemma tagA_IdR k : key_eqb (tagA k) IdR = key_eqb k IdR.
Proof. destruct k; reflexivity. Qed.
Lemma tagB_IdR k : key_eqb (tagB k) IdR = key_eqb k IdR.
Proof. destruct k; reflexivity. Qed.
Lemma tagA_inj x y : key_eqb (tagA x) (tagA y) = key_eqb x y.
Proof. destruct x, y; reflexivity. Qed.
Lemma tagB_inj x y : key_eqb (tagB x) (tagB y) = key_eqb x y.
Proof. destruct x, y; reflexivity. Qed.
Lemma tagAB_true x y : key_eqb (tagA x) (tagB y) = true -> x = y /\ (x = IdL \/ x = IdR).
Proof. destruct x, y; cbn [tagA tagB key_eqb]; intro H; try discriminate H; auto. Qed.

Definition sum_site (ea eb : list edge) : list edge :=
  map (retag tagA) ea ++ map (retag tagB) (filter (fun e => negb (is_loop e)) eb).

Lemma out_retag_nil f k es : (forall e, In e es -> key_eqb (f (eL e)) k = false) ->
  out k (map (retag f) es) = [].
Proof. intro H. unfold out. rewrite filter_map_comm, filter_none; [reflexivity|exact H]. Qed.

Lemma out_nonloop k es : k <> IdL -> k <> IdR -> out k (filter (fun e => negb (is_loop e)) es) = out k es.
Proof.
  intros HL HR. unfold out. rewrite filter_filter. apply filter_ext. intro e.
  destruct (key_eqb_spec (eL e) k) as [E|_]; [|apply andb_false_r]. rewrite andb_true_r.
  destruct (is_loop e) eqn:El; [|reflexivity].
  apply is_loop_inv in El. destruct El as [[El _]|[El _]]; congruence.
Qed.

(* IdR is shared, but B's IdR loop is dropped *)
Lemma out_sum_A k ea eb : std_site eb = true -> k <> IdL ->
  out (tagA k) (sum_site ea eb) = map (retag tagA) (out k ea).
Proof.
  intros Hs Hk. unfold sum_site.
  rewrite out_app, (out_map _ k) by (intro e; apply tagA_inj). rewrite out_retag_nil; [apply app_nil_r|].
  intros e He. apply filter_In in He. destruct He as [He Hn]. apply not_true_is_false. intro E.
  rewrite key_eqb_sym in E. apply tagAB_true in E. destruct E as [E [E'|E']]; [contradiction|].
  destruct (std_site_inv eb Hs) as (_ & _ & Hall).
  rewrite (id_loop_is_loop IdR e (or_intror eq_refl)) in Hn; [discriminate Hn|]. apply (Hall e He). congruence.
Qed.

Lemma out_sum_B k ea eb : k <> IdL -> k <> IdR ->
  out (tagB k) (sum_site ea eb) = map (retag tagB) (out k eb).
Proof.
  intros HL HR. unfold sum_site. rewrite out_app, out_retag_nil.
  - rewrite (out_map _ k) by (intro e; apply tagB_inj). rewrite out_nonloop by assumption. reflexivity.
  - intros e _. apply not_true_is_false. intro E. apply tagAB_true in E.
    destruct E as [E [E'|E']]; congruence.
Qed.

Lemma out_sum_IdL ea eb :
  out IdL (sum_site ea eb) =
  map (retag tagA) (out IdL ea) ++ map (retag tagB) (out IdL (filter (fun e => negb (is_loop e)) eb)).
Proof.
  unfold sum_site. rewrite out_app, (out_map _ IdL IdL ea), (out_map _ IdL IdL); [reflexivity| |];
    intro e; [apply tagB_IdL|apply tagA_IdL].
Qed.

Lemma flat_map_retag f i (R : key -> poly) l :
  flat_map (fun e => map (mstep i e) (R (eR e))) (map (retag f) l) =
  flat_map (fun e => map (mstep i e) (R (f (eR e)))) l.
Proof. apply flat_map_map. Qed.

Lemma nonloop_IdL_ext i (R R' : key -> poly) es : (forall k, k <> IdL -> R k = R' k) ->
  flat_map (fun e => map (mstep i e) (R (eR e))) (out IdL (filter (fun e => negb (is_loop e)) es)) =
  flat_map (fun e => map (mstep i e) (R' (eR e))) (out IdL (filter (fun e => negb (is_loop e)) es)).
Proof.
  intro H. apply flat_map_ext_in. intros e He. apply in_out in He. destruct He as [He HeL].
  apply filter_In in He. destruct He as [_ Hn]. rewrite H; [reflexivity|].
  intro E. unfold is_loop in Hn. rewrite HeL, E in Hn. discriminate Hn.
Qed.

(* by induction on the sites, for all start states at once: a state of A (of B) other than IdL sees only A
   (only B); IdL sees the loop once and the non-loop edges of both (std_IdL_split) *)
Lemma gadd_rden : forall A B i, length A = length B -> std_form A = true -> std_form B = true ->
  (forall k, k <> IdL -> rden (gadd A B) i (tagA k) = rden A i k) /\
  (forall k, k <> IdL -> rden (gadd A B) i (tagB k) = rden B i k) /\
  peq (rden (gadd A B) i IdL) (rden A i IdL ++ rden B i IdL).
Proof.
  induction A as [|ea A IH]; intros [|eb B] i Hlen HA HB; try discriminate Hlen.
  - cbn [gadd]. split; [|split].
    + intros k _. rewrite !rden_nil, tagA_IdR. reflexivity.
    + intros k _. rewrite !rden_nil, tagB_IdR. reflexivity.
    + apply peq_refl.
  - injection Hlen as Hlen.
    destruct (proj1 (std_form_cons ea A) HA) as [Hsa HA'], (proj1 (std_form_cons eb B) HB) as [Hsb HB'].
    destruct (IH B (S i) Hlen HA' HB') as (IHa & IHb & IHl). clear IH.
    change (gadd (ea :: A) (eb :: B)) with (sum_site ea eb :: gadd A B).
    assert (SA : forall k, k <> IdL ->
              rden (sum_site ea eb :: gadd A B) i (tagA k) = rden (ea :: A) i k).
    { intros k Hk. rewrite !rden_cons, out_sum_A, flat_map_retag by assumption.
      apply flat_map_ext_in. intros e He. rewrite IHa; [reflexivity|].
      exact (std_succ ea e k Hsa He Hk). }
    split; [exact SA|]. split.
    + intros k Hk. destruct (key_eqb_spec k IdR) as [->|HkR].
      * change (tagB IdR) with (tagA IdR).
        rewrite SA, !rden_IdR_std by (discriminate || assumption). reflexivity.
      * rewrite !rden_cons, out_sum_B, flat_map_retag by assumption.
        apply flat_map_ext_in. intros e He. rewrite IHb; [reflexivity|].
        exact (std_succ eb e k Hsb He Hk).
    + rewrite !rden_cons, out_sum_IdL, flat_map_app, !flat_map_retag, (nonloop_IdL_ext i _ _ eb IHb).
      intro w. rewrite !coef_app.
      rewrite (std_IdL_split ea i (fun x => rden (gadd A B) (S i) (tagA x)) Hsa w).
      rewrite (nonloop_IdL_ext i _ _ ea IHa).
      rewrite (std_IdL_split ea i (rden A (S i)) Hsa w), (std_IdL_split eb i (rden B (S i)) Hsb w).
      rewrite !coef_app. cbn [tagA]. rewrite (IHl w), coef_app. csolve.
Qed.

Lemma denote_gadd A B : length A = length B -> std_form A = true -> std_form B = true ->
  peq (denote (gadd A B)) (denote A ++ denote B).
Proof. intros Hl HA HB. exact (proj2 (proj2 (gadd_rden A B 0%nat Hl HA HB))). Qed.

Lemma denote_gplus_id a b g : g <> [] -> std_form g = true ->
  peq (denote (gplus_id a b g)) ((a, []) :: pscale b (denote g)).
Proof.
  (* the new edge IdL -> IdR of site 0 continues with rden g 1 IdR, which is 1 by the standard form of the tail; the
     edges out of IdL are scaled (pscale_mstep) *)
  intros Hg Hs. destruct g as [|es g]; [contradiction|].
  apply std_form_cons in Hs. destruct Hs as [_ Hs].
  unfold denote. cbn [gplus_id]. rewrite !rden_cons, out_app, flat_map_app.
  rewrite (out_map _ IdL IdL) by (intro e; destruct (key_eqb (eL e) IdL) eqn:E; exact E).
  change (out IdL [mkE IdL IdR 0 a]) with [mkE IdL IdR 0 a].
  cbn [flat_map eR]. rewrite app_nil_r, (rden_IdR_std g Hs). cbn [map]. unfold mstep at 2.
  cbn [ew eop fst snd consop Z.eqb]. rewrite cmul_1_r.
  apply peq_trans with (pscale b (flat_map (fun e => map (mstep 0 e) (rden g 1 (eR e))) (out IdL es)) ++ [(a, [])]);
    [|apply peq_perm, Permutation_sym, Permutation_cons_append].
  apply peq_app; [|apply peq_refl].
  rewrite flat_map_map. unfold pscale at 1. rewrite map_flat_map. erewrite flat_map_ext_in; [apply peq_refl|].
  intros e He. apply in_out in He. destruct He as [_ He]. rewrite He. cbn [key_eqb]. symmetry. apply pscale_mstep.
Qed.
