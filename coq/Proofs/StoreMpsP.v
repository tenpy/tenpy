(* Model/StoreMps.v on the store model.  get_B and measurement programs run only operations that keep every tensor of
   the heap they started from; `got` is all the MPS layer uses of such an operation. *)
From TenpyV Require Import Base.Prelude Model.Store Model.StoreMps Proofs.StoreP Proofs.StoreP2 Proofs.StoreShareP.
Open Scope nat_scope.

Lemma legs_view_frame h o y : wf h -> live h y ->
  (forall r, inplace_receiver o = Some r -> writes_buffers o = true \/ y <> r) ->
  legs_view (fst (exec h o)) y = legs_view h y.
Proof.
  intros Hwf Hy Hrec. unfold legs_view. rewrite exec_obj_other by assumption.
  destruct (wf_obj h y Hwf Hy) as [_ [_ Wl]]. rewrite Forall_forall in Wl.
  apply map_ext_in. intros i Hi. apply legs_immutable, Wl, Hi.
Qed.

(* a LegCharge object l of a live tensor y; that another tensor holds l too plays no part *)
Lemma legs_shared h y l : wf h -> live h y -> In l (lg (obj h y)) ->
  (forall os, nth l (legs (run h os)) dleg = nth l (legs h) dleg) /\
  (forall o, (forall r, inplace_receiver o = Some r -> writes_buffers o = true \/ y <> r) ->
             legs_view (fst (exec h o)) y = legs_view h y /\
             In (nth l (legs h) dleg) (legs_view (fst (exec h o)) y)).
Proof.
  intros Hwf Hy Hly.
  destruct (wf_obj h y Hwf Hy) as [_ [_ Wl]]. rewrite Forall_forall in Wl.
  split; [intros os; apply legs_run, Wl, Hly|].
  intros o Hrec. rewrite legs_view_frame by assumption. split; [reflexivity|].
  unfold legs_view. apply (in_map (fun i => nth i (legs h) dleg)), Hly.
Qed.

Lemma mps_wf_keeps h h' m W R : keeps h h' W R -> mps_wf h m -> mps_wf h' m.
Proof. intros K [Hs Hf]. split; [|exact Hf]. eapply Forall_impl; [|exact Hs]. intros c. apply (keeps_live _ _ _ _ c K). Qed.

Lemma mps_wf_In h m c : mps_wf h m -> In c (sites m) -> live h c.
Proof. intros [Hs _]. apply (proj1 (Forall_forall _ _) Hs). Qed.

Lemma site_live h m i : mps_wf h m -> i < length (sites m) -> live h (site m i).
Proof. intros Hm Hi. apply (mps_wf_In h m _ Hm), nth_In, Hi. Qed.

Lemma mps_view_ext h h' m : (forall c, In c (sites m) -> denote h' c = denote h c) -> mps_view h' m = mps_view h m.
Proof. intros Hf. unfold mps_view. f_equal. f_equal. f_equal. apply map_ext_in, Hf. Qed.

Lemma mps_keeps h h' m : wf h -> mps_wf h m -> wf h' /\ keeps h h' [] [] ->
  wf h' /\ mps_wf h' m /\ mps_view h' m = mps_view h m /\ forall x, x < length (objs h) -> denote h' x = denote h x.
Proof.
  intros Hwf Hm [W K]. pose proof (keeps_nil_denote h h' Hwf K) as F.
  split; [exact W|]. split; [apply (mps_wf_keeps h h' m _ _ K Hm)|]. split; [|exact F].
  apply mps_view_ext. intros c Hc. apply F, (mps_wf_In h m c Hm Hc).
Qed.

Lemma keeps_meas_op h0 h o : keeps h0 h [] [] -> meas_op_ok (length (objs h0)) o -> keeps h0 (fst (exec h o)) [] [].
Proof.
  intros K Hok. unfold meas_op_ok in Hok.
  apply (keeps_trans _ _ _ _ _ _ _ K (exec_keeps h o)); unfold written, rebound;
    (destruct (inplace_receiver o) as [r|]; [destruct Hok as [-> Hr]|]); try solve [intros i []].
  intros x [<-|[]]. right. exact Hr.
Qed.

Definition got (h : heap) (hr : heap * nat) : Prop :=
  wf (fst hr) /\ live (fst hr) (snd hr) /\ keeps h (fst hr) [] [].

Lemma exec_got h0 h o : wf h -> keeps h0 h [] [] -> op_ok h o -> meas_op_ok (length (objs h0)) o -> got h0 (exec h o).
Proof. intros W K Ho Hm. exact (conj (wf_exec h o W Ho) (conj (res_live h o Ho) (keeps_meas_op h0 h o K Hm))). Qed.

Lemma scale_step_spec sc h hr sv d : got h hr ->
  got h (scale_step sc hr sv d) /\ (scale_step sc hr sv d = hr \/ length (objs h) <= snd (scale_step sc hr sv d)).
Proof.
  intros (Hwf & Hl & K). unfold scale_step. destruct (Z.eqb d 0).
  - split; [exact (conj Hwf (conj Hl K))|left; reflexivity].
  - split; [exact (exec_got h _ (OScaleAxis _ _) Hwf K Hl I)|right; pose proof (keeps_objs_le _ _ _ _ K); cbn [exec rebind snd]; lia].
Qed.

Lemma get_B_got sc h m i fm cp hr : wf h -> mps_wf h m -> i < length (sites m) ->
  get_B sc h m i fm cp = Some hr ->
  got h hr /\ ((hr = (h, site m i) /\ cp = false) \/ length (objs h) <= snd hr).
Proof.
  intros Hwf Hm Hi. pose proof (site_live h m i Hm Hi) as Hl. unfold get_B.
  set (hr0 := if cp then exec h (OCopy true (site m i)) else (h, site m i)).
  assert (P0 : got h hr0 /\ ((hr0 = (h, site m i) /\ cp = false) \/ length (objs h) <= snd hr0)).
  { unfold hr0. destruct cp.
    - split; [exact (exec_got h h (OCopy true _) Hwf (keeps_refl h _ _) Hl I)|right; apply le_n].
    - split; [|left; split; reflexivity]. split; [exact Hwf|]. split; [exact Hl|apply keeps_refl]. }
  clearbody hr0. destruct P0 as [G0 C0].
  destruct fm as [[nl nr]|].
  - destruct (nth i (forms m) None) as [[pl pr]|]; [|discriminate]. intros Heq. injection Heq as <-.
    destruct (scale_step_spec sc h hr0 (nth i (svs m) []) (Z.sub nl pl) G0) as [G1 C1].
    destruct (scale_step_spec sc h _ (nth (S i) (svs m) []) (Z.sub nr pr) G1) as [G2 C2].
    split; [exact G2|]. destruct C2 as [C2|C2]; [rewrite C2|right; exact C2].
    destruct C1 as [C1|C1]; [rewrite C1|right; exact C1]. exact C0.
  - intros Heq. injection Heq as <-. split; assumption.
Qed.

Lemma get_B_frame sc h m i fm cp h' r : wf h -> mps_wf h m -> i < length (sites m) ->
  get_B sc h m i fm cp = Some (h', r) ->
  wf h' /\ mps_wf h' m /\ mps_view h' m = mps_view h m /\
  (forall x, x < length (objs h) -> denote h' x = denote h x) /\ live h' r /\
  (cp = true -> length (objs h) <= r /\ ~ In r (sites m)).
Proof.
  intros Hwf Hm Hi Hg.
  destruct (get_B_got sc h m i fm cp _ Hwf Hm Hi Hg) as [(W1 & Lr & K1) C]. cbn [fst snd] in *.
  destruct (mps_keeps h h' m Hwf Hm (conj W1 K1)) as (_ & M1 & V1 & F1).
  split; [exact W1|]. split; [exact M1|]. split; [exact V1|]. split; [exact F1|]. split; [exact Lr|].
  intros ->. destruct C as [[_ C]|C]; [discriminate|]. split; [exact C|].
  intros Hin. pose proof (mps_wf_In h m r Hm Hin) as Hs. unfold live in Hs. lia.
Qed.

Lemma get_B_noconv sc h m i fm cp : form_matches m i fm ->
  get_B sc h m i fm cp = Some (if cp then exec h (OCopy true (site m i)) else (h, site m i)).
Proof.
  intros [->|[Hn Hf]]; [reflexivity|].
  unfold get_B. destruct fm as [[nl nr]|]; [|congruence]. rewrite <- Hf.
  rewrite !Z.sub_diag. reflexivity.
Qed.

Lemma meas_keeps sc h0 m prog : forall h, wf h -> mps_wf h m -> keeps h0 h [] [] ->
  meas_ok sc (length (objs h0)) h m prog ->
  wf (run_meas sc h m prog) /\ keeps h0 (run_meas sc h m prog) [] [].
Proof.
  induction prog as [|st t IH]; intros h Hwf Hm K Hok; cbn [run_meas meas_ok] in *; [split; assumption|].
  destruct st as [i fm cp|o].
  - destruct Hok as [Hi Hok]. destruct (get_B sc h m i fm cp) as [hr|] eqn:Eg; [|split; assumption].
    destruct (get_B_got sc h m i fm cp hr Hwf Hm Hi Eg) as [(W1 & _ & K1) _].
    apply IH; [exact W1|apply (mps_wf_keeps h _ m _ _ K1 Hm)|apply (keeps_then _ _ _ _ _ K K1)|exact Hok].
  - destruct Hok as (Ho & Hmo & Hok).
    apply IH; [apply wf_exec; assumption|apply (mps_wf_keeps h _ m _ _ (exec_keeps h o) Hm)|
               apply keeps_meas_op; assumption|exact Hok].
Qed.

Lemma meas_frame sc h m prog : wf h -> mps_wf h m -> meas_ok sc (length (objs h)) h m prog ->
  wf (run_meas sc h m prog) /\ mps_wf (run_meas sc h m prog) m /\
  mps_view (run_meas sc h m prog) m = mps_view h m /\
  forall x, x < length (objs h) -> denote (run_meas sc h m prog) x = denote h x.
Proof.
  intros Hwf Hm Hok. exact (mps_keeps h _ m Hwf Hm (meas_keeps sc h m prog h Hwf Hm (keeps_refl h _ _) Hok)).
Qed.

Lemma set_B_spec h m i b fm perm : wf h -> mps_wf h m -> live h b -> perm_ok h b perm -> i < length (sites m) ->
  wf (fst (set_B h m i b fm perm)) /\ mps_wf (fst (set_B h m i b fm perm)) (snd (set_B h m i b fm perm)) /\
  site (snd (set_B h m i b fm perm)) i = b /\ nth i (forms (snd (set_B h m i b fm perm))) None = fm /\
  (forall j, j <> i -> site (snd (set_B h m i b fm perm)) j = site m j /\
                       nth j (forms (snd (set_B h m i b fm perm))) None = nth j (forms m) None) /\
  nrm (snd (set_B h m i b fm perm)) = nrm m /\ svs (snd (set_B h m i b fm perm)) = svs m /\
  length (sites (snd (set_B h m i b fm perm))) = length (sites m) /\
  (forall x, x < length (objs h) -> x <> b -> denote (fst (set_B h m i b fm perm)) x = denote h x).
Proof.
  intros Hwf [Hs Hf] Hb Hp Hi. unfold set_B, site. cbn [fst snd sites forms nrm svs].
  split; [apply wf_exec; [exact Hwf|split; assumption]|].
  split.
  { apply (mps_wf_keeps h _ _ _ _ (exec_keeps h _)).
    split; cbn [sites forms]; [apply Forall_upd; assumption|rewrite !upd_length; exact Hf]. }
  split; [apply nth_upd_same, Hi|]. split; [apply nth_upd_same; lia|].
  split; [intros j Hj; split; apply nth_upd_other; exact Hj|].
  split; [reflexivity|]. split; [reflexivity|]. split; [apply upd_length|].
  intros x. exact (frame_rebinding h (OMeta b _ perm) b x Hwf eq_refl eq_refl).
Qed.

Lemma alias_inplace_frame h m i o : wf h -> mps_wf h m -> mps_sep h m -> i < length (sites m) ->
  inplace_receiver o = Some (site m i) ->
  forall j, j < length (sites m) -> j <> i -> denote (fst (exec h o)) (site m j) = denote h (site m j).
Proof.
  intros Hwf Hm [Hnd Hsep] Hi Ho j Hj Hne.
  pose proof (site_live h m j Hm Hj) as Lj.
  assert (Hd : site m j <> site m i).
  { unfold site. intros He. apply Hne. apply (proj1 (NoDup_nth (sites m) 0) Hnd j i Hj Hi He). }
  apply (inplace_frame h o (site m i) (site m j) Hwf Ho Lj Hd).
  apply Hsep; [unfold site; apply nth_In, Hj|unfold site; apply nth_In, Hi|exact Hd].
Qed.

Definition fresh_site (h h' : heap) (c : nat) : Prop :=
  length (objs h) <= c < length (objs h') /\ owns_fresh h h' c /\ NoDup (blk (obj h' c)).

Lemma init_site_spec h b perm : wf h -> live h b -> perm_ok h b perm ->
  wf (fst (init_site h (b, perm))) /\ keeps h (fst (init_site h (b, perm))) [] [] /\
  fresh_site h (fst (init_site h (b, perm))) (snd (init_site h (b, perm))) /\
  denote (fst (init_site h (b, perm))) (snd (init_site h (b, perm))) = transpose_value perm (denote h b).
Proof.
  intros Hwf Hb Hp. unfold init_site. cbn [fst snd].
  destruct (exec_got h h (OCopy true b) Hwf (keeps_refl h _ _) Hb I) as (W1 & Lc & K1).
  change (snd (exec h (OCopy true b))) with (length (objs h)) in *.
  set (c := length (objs h)) in *. set (h1 := fst (exec h (OCopy true b))) in *.
  assert (O1c : obj h1 c = snd (deep_copy h (obj h b))) by (apply obj_add_new; reflexivity).
  assert (Ok1 : op_ok h1 (OMeta c (perm_cols perm) perm)).
  { split; [exact Lc|]. unfold perm_ok. rewrite O1c. exact Hp. }
  (* the transposition is in-place on the copy, a tensor allocated after h *)
  destruct (exec_got h h1 _ W1 K1 Ok1 (conj eq_refl (le_n c))) as (W2 & L2 & K2).
  change (snd (exec h1 (OMeta c (perm_cols perm) perm))) with c in *.
  split; [exact W2|]. split; [exact K2|]. split.
  - split; [split; [apply le_n|exact L2]|].
    unfold owns_fresh. cbn [exec fst]. rewrite obj_set_same by exact Lc. cbn [blk]. rewrite O1c.
    split; [apply fresh_ge, le_n|apply seq_NoDup].
  - rewrite meta_observed by apply Ok1. unfold h1, c. rewrite deep_copy_same_value. reflexivity.
Qed.

Definition inputs_ok (h : heap) (Bs : list (nat * list nat)) : Prop :=
  Forall (fun bp => live h (fst bp) /\ perm_ok h (fst bp) (snd bp)) Bs.

(* with h1 the heap after the first input and c its site: c is a tensor of h1 that keeps its record, every later site is
   fresh with respect to h1, so old_fresh_unshared separates c from them; fresh_site is stated relative to the start
   heap h, to which the later sites are carried by owns_fresh_later *)
Lemma init_sites_spec Bs : forall h, wf h -> inputs_ok h Bs ->
  wf (fst (init_sites h Bs)) /\ keeps h (fst (init_sites h Bs)) [] [] /\
  length (snd (init_sites h Bs)) = length Bs /\
  (Forall (fresh_site h (fst (init_sites h Bs))) (snd (init_sites h Bs)) /\
   sep_refs (fst (init_sites h Bs)) (snd (init_sites h Bs))) /\
  forall j, j < length Bs ->
    denote (fst (init_sites h Bs)) (nth j (snd (init_sites h Bs)) 0) =
    transpose_value (snd (nth j Bs (0, []))) (denote h (fst (nth j Bs (0, [])))).
Proof.
  induction Bs as [|[b perm] t IH]; intros h Hwf Hin; cbn [init_sites fst snd].
  - split; [exact Hwf|]. split; [apply keeps_refl|]. split; [reflexivity|].
    split; [split; [constructor|split; [constructor|intros x y []]]|]. cbn [length]. intros j Hj. lia.
  - inversion Hin as [|bp t' [Hb Hp] Ht]; subst. cbn [fst snd] in Hb, Hp.
    destruct (init_site_spec h b perm Hwf Hb Hp) as (W1 & K1 & Fc & Vc).
    set (h1 := fst (init_site h (b, perm))) in *. set (c := snd (init_site h (b, perm))) in *.
    assert (Hin1 : inputs_ok h1 t).
    { eapply Forall_impl; [|exact Ht]. intros [b' p'] [Hb' Hp']. cbn [fst snd] in *.
      split; [apply (keeps_live _ _ _ _ b' K1 Hb')|]. unfold perm_ok. rewrite (keeps_obj _ _ _ _ b' K1 Hb' (in_nil (a:=b'))). exact Hp'. }
    destruct (IH h1 W1 Hin1) as (W2 & K2 & Len & (F2 & ND2 & D2) & V2).
    set (h2 := fst (init_sites h1 t)) in *. set (cs := snd (init_sites h1 t)) in *.
    pose proof (keeps_bufs_le _ _ _ _ K1) as B1. pose proof (keeps_objs_le _ _ _ _ K1) as L1.
    pose proof (keeps_objs_le _ _ _ _ K2) as L2.
    destruct Fc as [[Lc Uc] [Fb Nb]].
    assert (Oc : obj h2 c = obj h1 c) by (apply (keeps_obj _ _ _ _ c K2 Uc), in_nil).
    rewrite Forall_forall in F2.
    split; [exact W2|]. split; [apply (keeps_then _ _ _ _ _ K1 K2)|].
    split; [cbn [length]; rewrite Len; reflexivity|].
    split; [split; [|split]|].
    + constructor.
      * split; [lia|]. split; [exact (owns_fresh_later h h h1 h2 c (le_n _) Oc Fb)|rewrite Oc; exact Nb].
      * apply Forall_forall. intros y Hy. destruct (F2 y Hy) as [[Ly Uy] [Fy Ny]].
        split; [lia|]. split; [exact (owns_fresh_later h h1 h2 h2 y B1 eq_refl Fy)|exact Ny].
    + constructor; [|exact ND2]. intros Hc. destruct (F2 c Hc) as [[Ly _] _]. lia.
    + intros x y [<-|Hx] [<-|Hy] Hne.
      * congruence.
      * apply (old_fresh_unshared h1 h2 c y W1 Uc Oc), (F2 y Hy).
      * apply (old_fresh_unshared h1 h2 c x W1 Uc Oc), (F2 x Hx).
      * exact (D2 x y Hx Hy Hne).
    + intros [|j] Hj; cbn [nth fst snd length] in *.
      * rewrite (keeps_nil_denote h1 h2 W1 K2 c Uc). exact Vc.
      * rewrite V2 by lia. f_equal.
        apply (keeps_nil_denote h h1 Hwf K1), (proj1 (Forall_nth _ _) Ht j (0, [])). lia.
Qed.

Lemma mps_init_spec h Bs fms n sv : wf h -> inputs_ok h Bs -> length fms = length Bs ->
  wf (fst (mps_init h Bs fms n sv)) /\ mps_wf (fst (mps_init h Bs fms n sv)) (snd (mps_init h Bs fms n sv)) /\
  mps_sep (fst (mps_init h Bs fms n sv)) (snd (mps_init h Bs fms n sv)) /\
  length (sites (snd (mps_init h Bs fms n sv))) = length Bs /\
  forms (snd (mps_init h Bs fms n sv)) = fms /\ nrm (snd (mps_init h Bs fms n sv)) = n /\
  svs (snd (mps_init h Bs fms n sv)) = sv /\
  (forall x, x < length (objs h) -> denote (fst (mps_init h Bs fms n sv)) x = denote h x) /\
  (forall j, j < length Bs ->
     length (objs h) <= site (snd (mps_init h Bs fms n sv)) j /\
     NoDup (blk (obj (fst (mps_init h Bs fms n sv)) (site (snd (mps_init h Bs fms n sv)) j))) /\
     denote (fst (mps_init h Bs fms n sv)) (site (snd (mps_init h Bs fms n sv)) j) =
     transpose_value (snd (nth j Bs (0, []))) (denote h (fst (nth j Bs (0, []))))) /\
  (forall o r j, inplace_receiver o = Some r -> r < length (objs h) -> j < length Bs ->
     denote (fst (exec (fst (mps_init h Bs fms n sv)) o)) (site (snd (mps_init h Bs fms n sv)) j) =
     denote (fst (mps_init h Bs fms n sv)) (site (snd (mps_init h Bs fms n sv)) j)) /\
  (forall o j x, inplace_receiver o = Some (site (snd (mps_init h Bs fms n sv)) j) -> j < length Bs ->
     x < length (objs h) ->
     denote (fst (exec (fst (mps_init h Bs fms n sv)) o)) x = denote (fst (mps_init h Bs fms n sv)) x).
Proof.
  intros Hwf Hin Hlen. unfold mps_init, site. cbn [fst snd sites forms nrm svs].
  destruct (init_sites_spec Bs h Hwf Hin) as (W2 & K & Len & (F2 & Sep) & V2).
  set (h2 := fst (init_sites h Bs)) in *. set (cs := snd (init_sites h Bs)) in *.
  assert (Hnth : forall j, j < length Bs -> fresh_site h h2 (nth j cs 0)).
  { intros j Hj. rewrite Forall_forall in F2. apply F2, nth_In. lia. }
  assert (Hind := fun j x Hj Hx => fresh_independent h h2 x (nth j cs 0) Hwf W2 K Hx (proj1 (Hnth j Hj)) (proj1 (proj2 (Hnth j Hj)))).
  pose proof (keeps_objs_le _ _ _ _ K) as L.
  split; [exact W2|].
  split; [split; [|cbn [sites forms]; lia]; eapply Forall_impl; [|exact F2]; intros c Fc; apply Fc|].
  split; [exact Sep|].
  split; [exact Len|]. split; [reflexivity|]. split; [reflexivity|]. split; [reflexivity|].
  split; [exact (keeps_nil_denote h h2 Hwf K)|].
  split; [intros j Hj; destruct (Hnth j Hj) as [[Lc _] [_ N]]; split; [exact Lc|split; [exact N|apply V2, Hj]]|].
  split.
  - intros o r j Ho Hr Hj. exact (proj1 (Hind j r Hj Hr) o Ho).
  - intros o j x Ho Hj Hx. exact (proj2 (Hind j x Hj Hx) o Ho).
Qed.

Lemma mps_sep_keeps h h' m : mps_wf h m -> keeps h h' [] [] -> mps_sep h m -> mps_sep h' m.
Proof.
  intros Hm K [Hnd Hsep]. split; [exact Hnd|].
  assert (Ho : forall c, In c (sites m) -> obj h' c = obj h c).
  { intros c Hc. exact (keeps_obj _ _ _ _ c K (mps_wf_In h m c Hm Hc) (in_nil (a:=c))). }
  intros x y Hx Hy Hne. unfold shares_buffer. rewrite (Ho x Hx), (Ho y Hy). exact (Hsep x y Hx Hy Hne).
Qed.

Lemma mps_step_frame sc h m p : wf h -> mps_wf h m -> mps_step_ok sc h m p ->
  wf (mps_step sc h m p) /\ mps_wf (mps_step sc h m p) m /\ mps_view (mps_step sc h m p) m = mps_view h m.
Proof.
  intros Hwf Hm Hok.
  assert (Hk : forall h', wf h' /\ keeps h h' [] [] -> wf h' /\ mps_wf h' m /\ mps_view h' m = mps_view h m).
  { intros h' WK. destruct (mps_keeps h h' m Hwf Hm WK) as (W & M & V & _). exact (conj W (conj M V)). }
  destruct p as [i fm cp|prog|o]; cbn [mps_step mps_step_ok] in *.
  - destruct (get_B sc h m i fm cp) as [hr|] eqn:Eg; [|apply Hk; split; [exact Hwf|apply keeps_refl]].
    destruct (get_B_got sc h m i fm cp hr Hwf Hm Hok Eg) as [(W1 & _ & K1) _]. apply Hk. split; assumption.
  - apply Hk, (meas_keeps sc h m prog h Hwf Hm (keeps_refl h _ _) Hok).
  - (* in-place methods are allowed here, on tensors that are no site and share no buffer with one *)
    destruct Hok as [Ho Hn]. split; [apply wf_exec; assumption|]. split; [apply (mps_wf_keeps h _ m _ _ (exec_keeps h o) Hm)|].
    apply mps_view_ext. intros c Hc. apply frame_may_change; [exact Hwf|apply (mps_wf_In h m c Hm Hc)|apply Hn, Hc].
Qed.

Lemma mps_history_frame sc m ps : forall h, wf h -> mps_wf h m -> mps_run_ok sc h m ps ->
  wf (mps_run sc h m ps) /\ mps_wf (mps_run sc h m ps) m /\ mps_view (mps_run sc h m ps) m = mps_view h m.
Proof.
  induction ps as [|p t IH]; intros h Hwf Hm Hok; cbn [mps_run mps_run_ok] in *.
  - split; [exact Hwf|]. split; [exact Hm|reflexivity].
  - destruct Hok as [Hp Ht]. destruct (mps_step_frame sc h m p Hwf Hm Hp) as (W1 & M1 & V1).
    rewrite <- V1. apply IH; assumption.
Qed.

Definition ex_h0 : heap :=
  fst (exec (fst (exec (mkHeap [] [] [dleg; dleg] []) (ONew 2 [0; 1; 0]))) (ONew 1 [0; 1; 1])).
Definition ex_Bs : list (nat * list nat) := [(0, [0; 1; 2]); (1, [2; 1; 0])].
Definition ex_sc (sv : list Z) (d : Z) (v : list Z) : list Z := map (Z.mul d) v.
Definition ex_hm : heap * mps := mps_init ex_h0 ex_Bs [form_B; form_A] 1%Z [[1%Z]; [1%Z; 2%Z]; [1%Z]].

