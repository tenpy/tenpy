(* Property C14, Suzuki-Trotter schedules: one four-part pattern (`shaped`) for the regenerated tables of all orders. *)
From TenpyV Require Import Base.Prelude Base.Lists Base.PyLib Model.Trotter Gen.G_trotter.
From Coq Require Import String.
Open Scope Z_scope.

Lemma repeat_nat_comm {A} (l : list A) n : repeat_nat l n ++ l = l ++ repeat_nat l n.
Proof. induction n as [|n IH]; cbn [repeat_nat]; [rewrite app_nil_r; reflexivity|]. rewrite <- app_assoc, IH. reflexivity. Qed.

Lemma repeat_nat_add {A} (l : list A) n m : repeat_nat l (n + m) = repeat_nat l n ++ repeat_nat l m.
Proof. induction n as [|n IH]; cbn [repeat_nat Nat.add app]; [reflexivity|]. rewrite IH, app_assoc. reflexivity. Qed.

Lemma concat_repeat {A} (l : list A) n : List.concat (repeat l n) = repeat_nat l n.
Proof. induction n as [|n IH]; cbn [repeat List.concat repeat_nat]; [reflexivity|]. rewrite IH. reflexivity. Qed.

Lemma rev_repeat_nat {A} (l : list A) n : rev (repeat_nat l n) = repeat_nat (rev l) n.
Proof.
  induction n as [|n IH]; cbn [repeat_nat]; [reflexivity|].
  rewrite rev_app_distr, IH. apply repeat_nat_comm.
Qed.

Lemma shift_repeat {A} (X : list A) c n : X ++ repeat_nat (c :: X) n = repeat_nat (X ++ [c]) n ++ X.
Proof.
  induction n as [|n IH]; cbn [repeat_nat]; [rewrite app_nil_r; reflexivity|].
  rewrite <- (app_assoc (X ++ [c])). rewrite <- IH. rewrite <- (app_assoc X [c]). cbn [app]. reflexivity.
Qed.

(* The N-step schedule of every order: an opening part p ++ X, then N - 1 times a middle part m ++ X, then a closing
   part E; one step is (p ++ X) ++ E.  Orders 2, 4, '4_opt': p = E = [a] with a half step a, and m = [c] where c is the
   two half steps at a seam in one entry.  Order 1 has nothing to close: E = [], m = p. *)
Definition shaped (o : pyorder) (p m X E : list (Z * Z)) : Prop :=
  forall N, 1 <= N -> decomposition_gen o N = Some ((p ++ X) ++ repeat_nat (m ++ X) (Z.to_nat (N - 1)) ++ E).

(* the tables as Gen/G_trotter.v (regenerated from tebd.py) has them; entries are (time-step index, parity) *)
Lemma shaped_1 : shaped (OInt 1) [(0, 1); (0, 0)] [(0, 1); (0, 0)] [] [].
Proof.
  intros [|p|p] HN; [lia| |lia].
  (* the table is the pattern repeated N times, with nothing merged at the seams: one copy is split off in front *)
  change (decomposition_gen (OInt 1) (Z.pos p)) with (Some (repeat_nat [(0, 1); (0, 0)] (Z.to_nat (Z.pos p)))).
  replace (Z.to_nat (Z.pos p)) with (S (Z.to_nat (Z.pos p - 1))) by lia. rewrite !app_nil_r. reflexivity.
Qed.

Lemma shaped_2 : shaped (OInt 2) [(0, 1)] [(1, 1)] [(1, 0)] [(0, 1)].
Proof. intros [|p|p] HN; [lia|reflexivity|lia]. Qed.

Lemma shaped_4 : shaped (OInt 4) [(0, 1)] [(1, 1)]
  [(1, 0); (1, 1); (1, 0); (2, 1); (3, 0); (2, 1); (1, 0); (1, 1); (1, 0)] [(0, 1)].
Proof. intros [|p|p] HN; [lia|reflexivity|lia]. Qed.

Lemma shaped_4opt : shaped (OStr "4_opt") [(0, 1)] [(6, 1)]
  [(1, 0); (2, 1); (3, 0); (4, 1); (5, 0); (4, 1); (3, 0); (2, 1); (1, 0)] [(0, 1)].
Proof. intros [|p|p] HN; [lia|reflexivity|lia]. Qed.

Lemma trotter_zero o : decomposition_gen o 0 = Some [].
Proof. reflexivity. Qed.

Lemma trotter_unknown_order : time_steps_gen (OInt 3) = None /\ decomposition_gen (OInt 3) 5 = None.
Proof. split; reflexivity. Qed.

Lemma pattern_rev {A} (a c : A) X n : rev X = X ->
  rev ((a :: X) ++ repeat_nat (c :: X) n ++ [a]) = (a :: X) ++ repeat_nat (c :: X) n ++ [a].
Proof.
  intros HX. rewrite !rev_app_distr. cbn [rev app]. rewrite rev_repeat_nat. cbn [rev].
  rewrite HX. f_equal. rewrite (app_assoc _ X [a]). rewrite <- shift_repeat.
  rewrite <- app_assoc. reflexivity.
Qed.

Lemma shaped_symmetric o a c X : shaped o [a] [c] X [a] -> rev X = X ->
  forall N, 1 <= N -> exists steps, decomposition_gen o N = Some steps /\ rev steps = steps.
Proof. intros Hs HX N HN. eexists. split; [apply Hs, HN|apply pattern_rev, HX]. Qed.

Lemma trotter_symmetric o : In o [OInt 2; OInt 4; OStr "4_opt"] ->
  forall N, 1 <= N -> exists steps, decomposition_gen o N = Some steps /\ rev steps = steps.
Proof.
  cbn [In]. intros [<-|[<-|[<-|[]]]].
  - exact (shaped_symmetric _ _ _ _ shaped_2 eq_refl).
  - exact (shaped_symmetric _ _ _ _ shaped_4 eq_refl).
  - exact (shaped_symmetric _ _ _ _ shaped_4opt eq_refl).
Qed.

Lemma arange2_In s n L i : In i (arange2 s n L) <-> exists j, (j < n /\ i = s + 2 * j /\ i < L)%nat.
Proof.
  revert s. induction n as [|n IH]; intros s; cbn [arange2].
  - split; [intros []|intros [j [Hj _]]; lia].
  - destruct (Nat.ltb_spec s L) as [Hs|Hs].
    + cbn [In]. rewrite IH. split.
      * intros [<-|[j [Hj [-> Hl]]]]; [exists 0%nat; lia|exists (S j); lia].
      * intros [[|j] [Hj [-> Hl]]]; [left; lia|right; exists j; lia].
    + split; [intros []|intros [j [Hj [-> Hl]]]; lia].
Qed.

Lemma arange2_NoDup s n L : NoDup (arange2 s n L).
Proof.
  revert s. induction n as [|n IH]; intros s; cbn [arange2]; [constructor|].
  destruct (Nat.ltb s L); [|constructor]. constructor; [|apply IH].
  rewrite arange2_In. intros [j [_ [Hj _]]]. lia.
Qed.

Lemma step_bonds_In L fin odd i :
  In i (step_bonds L fin odd) <-> (i < L /\ Nat.modulo i 2 = Nat.modulo odd 2 /\ (fin = true -> i <> 0))%nat.
Proof.
  unfold step_bonds. rewrite filter_In, arange2_In. split.
  - intros [[j [Hj [-> Hl]]] Hf]. split; [exact Hl|]. split; [lia|].
    intros ->. cbn [andb] in Hf. destruct (Nat.eqb_spec (odd mod 2 + 2 * j) 0); [discriminate|assumption].
  - intros [Hl [Hp Hf]]. split; [exists (i / 2)%nat; lia|].
    destruct fin; cbn [andb]; [|reflexivity].
    destruct (Nat.eqb_spec i 0) as [->|]; [exfalso; apply Hf; reflexivity|reflexivity].
Qed.

Lemma bond_coverage L fin :
  NoDup (step_bonds L fin 1 ++ step_bonds L fin 0) /\
  forall i, In i (step_bonds L fin 1 ++ step_bonds L fin 0) <-> (i < L /\ (fin = true -> i <> 0))%nat.
Proof.
  split.
  - apply NoDup_app_disj.
    + unfold step_bonds. apply NoDup_filter, arange2_NoDup.
    + unfold step_bonds. apply NoDup_filter, arange2_NoDup.
    + intros i H1 H0. rewrite step_bonds_In in H1, H0. lia.
  - intros i. rewrite in_app_iff, !step_bonds_In. split; [tauto|]. intros [H1 H2].
    assert (H : (i mod 2 = 1 mod 2 \/ i mod 2 = 0 mod 2)%nat) by lia. tauto.
Qed.
