(* C02 / C01 over whole programs (Model/TensorProg.v): well-formedness at every intermediate step of every history of the modelled
   operations, and agreement of the block-sparse run with the dense (numpy-level) run of the same program. *)
From TenpyV Require Import Base.Prelude Base.Lists Model.Charge Model.Tensor Model.TensorOps Model.TensorDot Model.TakeSlice Model.TensorProg.
From TenpyV Require Import Proofs.TensorP Proofs.TensorP3 Proofs.TensorDotP Proofs.TakeSliceP.
From TenpyV Require Import Proofs.TensorProgP2.
Open Scope Z_scope.

Lemma Forall2_nth {A B} (R : A -> B -> Prop) l l' da db x : Forall2 R l l' -> (x < length l)%nat -> R (nth x l da) (nth x l' db).
Proof.
  intros HF. revert x. induction HF as [|a b l l' Hab HF IH]; intros x Hx; cbn [length] in Hx; [lia|].
  destruct x as [|x]; cbn [nth]; [exact Hab|]. apply IH. lia.
Qed.

Lemma get_wf ci e x : Forall (WF ci) e -> (x < length e)%nat -> WF ci (get e x).
Proof. intros HF Hx. exact (proj1 (Forall_nth _ e) HF x darr Hx). Qed.

Lemma Forall_store {A} (P : A -> Prop) dst r l : Forall P l -> P r -> Forall P (store dst r l).
Proof.
  intros HF Hr. destruct dst as [d|]; cbn [store].
  - apply Forall_replace_at; assumption.
  - apply Forall_app. split; [exact HF|]. constructor; [exact Hr|constructor].
Qed.

Lemma Forall2_store {A B} (R : A -> B -> Prop) dst r r' l l' :
  Forall2 R l l' -> R r r' -> Forall2 R (store dst r l) (store dst r' l').
Proof.
  intros HF Hr. destruct dst as [d|]; cbn [store].
  - apply Forall2_replace_at; assumption.
  - apply Forall2_app; [exact HF|]. constructor; [exact Hr|constructor].
Qed.

Lemma map_store {A B} (f : A -> B) dst r l : map f (store dst r l) = store dst (f r) (map f l).
Proof.
  destruct dst as [d|]; cbn [store]; [apply map_replace_at|]. rewrite map_app. reflexivity.
Qed.

Lemma run_app ci p1 p2 e : run ci (p1 ++ p2) e = run ci p2 (run ci p1 e).
Proof. revert e. induction p1 as [|ins p1 IH]; intros e; cbn [run app]; [reflexivity|]. apply IH. Qed.

Lemma applicable_prog_app ci p1 p2 e :
  applicable_prog ci (p1 ++ p2) e <-> applicable_prog ci p1 e /\ applicable_prog ci p2 (run ci p1 e).
Proof.
  revert e. induction p1 as [|ins p1 IH]; intros e; cbn [applicable_prog run app]; [tauto|].
  rewrite IH. tauto.
Qed.

Lemma step_wf ci o e : Forall (WF ci) e -> applicable ci o e -> WF ci (step ci o e).
Proof.
  intros HF Ha. pose proof (fun x => get_wf ci e x HF) as W.
  destruct o as [x p|x|x s|x y alpha|x y|x y k|x ax i|x i j|x ax newq newqc]; cbn [step applicable] in *.
  - destruct Ha as [Hx HP]. apply wf_transpose; auto.
  - apply wf_conj; auto.
  - apply wf_scale; auto.
  - destruct Ha as (Hx & Hy & Hl & Hq). apply wf_add; auto.
  - destruct Ha as [Hx Hy]. apply wf_outer; auto.
  - destruct Ha as (Hx & Hy & Hka & Hkb & Hc). apply wf_tensordot; auto.
  - destruct Ha as (Hx & Hax & Hi & Hc). apply wf_take_slice; auto.
  - destruct Ha as (Hx & Hi & Hj). apply wf_iswapaxes; auto.
  - destruct Ha as [Hx Hg]. apply wf_gauge; auto.
Qed.

Lemma step_qtot ci o e : qtot (step ci o e) = qtot_doc ci o e.
Proof.
  destruct o as [x p|x|x s|x y alpha|x y|x y k|x ax i|x i j|x ax newq newqc]; cbn [step qtot_doc]; try reflexivity.
  - apply scale_qtot.
  - unfold iswapaxes. destruct (i =? j)%nat; reflexivity.
Qed.

Lemma exec_wf ci ins e : Forall (WF ci) e -> applicable ci (fst ins) e -> Forall (WF ci) (exec ci ins e).
Proof. intros HF Ha. unfold exec. apply Forall_store; [exact HF|]. apply step_wf; assumption. Qed.

Lemma run_wf ci prog e : Forall (WF ci) e -> applicable_prog ci prog e -> Forall (WF ci) (run ci prog e).
Proof.
  revert e. induction prog as [|ins prog IH]; intros e HF Ha; cbn [run applicable_prog] in *; [exact HF|].
  destruct Ha as [Ha1 Ha2]. apply IH; [|exact Ha2]. apply exec_wf; assumption.
Qed.

Theorem history_wf ci prog e : Forall (WF ci) e -> applicable_prog ci prog e ->
  Forall (WF ci) (run ci prog e) /\
  forall n o dst, nth_error prog n = Some (o, dst) ->
    let en := run ci (firstn n prog) e in
    Forall (WF ci) en /\ applicable ci o en /\ WF ci (step ci o en) /\ qtot (step ci o en) = qtot_doc ci o en /\
    run ci (firstn (S n) prog) e = store dst (step ci o en) en.
Proof.
  intros HF Ha. split; [apply run_wf; assumption|].
  intros n o dst Hn en. destruct (nth_error_split _ _ Hn) as (p1 & p2 & -> & <-). subst en. rewrite firstn_app_len.
  apply applicable_prog_app in Ha. destruct Ha as [Ha1 [Ha2 _]]. cbn [fst] in Ha2.
  assert (Hen : Forall (WF ci) (run ci p1 e)) by (apply run_wf; assumption).
  split; [exact Hen|]. split; [exact Ha2|]. split; [apply step_wf; assumption|]. split; [apply step_qtot|].
  replace (S (length p1)) with (length p1 + 1)%nat by lia. rewrite firstn_app_2, run_app. reflexivity.
Qed.

Lemma deq_refl A : deq A A.
Proof. split; [reflexivity|]. intros idx _. reflexivity. Qed.

Lemma deq_trans A B D : deq A B -> deq B D -> deq A D.
Proof.
  intros [H1 H2] [H3 H4]. split; [congruence|]. intros idx Hl. rewrite H2 by exact Hl. apply H4. rewrite <- H1. exact Hl.
Qed.

Lemma dget_map e x : dget (map to_dense e) x = to_dense (get e x).
Proof. exact (map_nth to_dense e darr x). Qed.

Lemma to_dense_rank a : length (fst (to_dense a)) = rank a.
Proof. apply map_length. Qed.

Lemma transposed_dense p a b : Permutation p (seq 0 (rank a)) ->
  legs b = gather dleg p (legs a) ->
  (forall idx, length idx = rank a -> to_ndarray b (gather 0%nat p idx) = to_ndarray a idx) ->
  deq (to_dense b) (d_transpose p (to_dense a)).
Proof.
  intros HP Hs Hv. pose proof (perm_seq_length _ _ HP) as Hl.
  assert (Hsh : map ind_len (legs b) = gather 0%nat p (map ind_len (legs a))).
  { rewrite Hs. apply map_gather. intros k Hk. exact (perm_seq_lt p _ k HP Hk). }
  split; [exact Hsh|]. cbn [to_dense d_transpose fst snd]. intros idx Hidx. rewrite Hsh, gather_length in Hidx.
  rewrite <- (gather_inv_r p (rank a) idx HP) at 1 by lia. apply Hv. rewrite gather_length, invperm_length. exact Hl.
Qed.

Lemma step_dense ci o e : Forall (WF ci) e -> applicable ci o e ->
  deq (to_dense (step ci o e)) (d_step o (map to_dense e)).
Proof.
  intros HF Ha. pose proof (fun x => get_wf ci e x HF) as W.
  destruct o as [x p|x|x s|x y alpha|x y|x y k|x ax i|x i j|x ax newq newqc]; cbn [step d_step applicable] in *;
    rewrite ?dget_map.
  - destruct Ha as [Hx HP]. apply transposed_dense; [exact HP|reflexivity|intros idx _; apply transpose_dense; exact HP].
  - split; [cbn; rewrite map_map; reflexivity|]. intros idx _. apply conj_dense.
  - split; [cbn [to_dense d_scale fst]; rewrite scale_legs; reflexivity|]. intros idx _. apply scale_dense.
  - destruct Ha as (Hx & Hy & Hl & Hq). split; [reflexivity|]. intros idx _. apply (add_dense ci); auto.
  - destruct Ha as [Hx Hy]. split; [apply map_app|]. intros idx Hidx. cbn [d_outer to_dense fst snd]. rewrite map_length.
    apply outer_dense; auto. rewrite Hidx, to_dense_rank. unfold rank, outer. cbn [legs]. rewrite app_length. lia.
  - destruct Ha as (Hx & Hy & Hka & Hkb & Hc). unfold d_tdot. rewrite to_dense_rank. cbn [to_dense fst snd]. rewrite firstn_map, !skipn_map, <- map_app.
    split; [reflexivity|]. intros idx Hidx. apply tensordot_dense; auto.
    rewrite Hidx, to_dense_rank, tensordot_rank by assumption. lia.
  - destruct Ha as (Hx & Hax & Hi & Hc). split; [apply remove_at_map|]. intros idx Hidx.
    apply (take_slice_dense ci); auto.
    rewrite Hidx, to_dense_rank. unfold rank, take_slice. cbn [legs]. rewrite remove_at_length by exact Hax. unfold rank in Hax. lia.
  - destruct Ha as (Hx & Hi & Hj). rewrite to_dense_rank.
    apply transposed_dense; [apply swap_perm_perm; assumption|apply iswapaxes_legs|].
    exact (iswapaxes_dense i j _ Hi Hj).
  - destruct Ha as [Hx Hg].
    split; [apply (map_replace_at_same ind_len ax _ (legs (get e x)) dleg); reflexivity|]. intros idx _.
    apply gauge_dense.
Qed.

(* the dense run of a program starts from arrays that are only `deq` to the dense forms of the tensors (there is no functional
   extensionality), so every numpy-level operation has to respect deq *)
Lemma d_transpose_congr p A A' : length p = length (fst A) -> deq A A' -> deq (d_transpose p A) (d_transpose p A').
Proof.
  intros Hl [H1 H2]. split; cbn [d_transpose fst snd]; [rewrite H1; reflexivity|]. intros idx Hidx. apply H2.
  rewrite !gather_length, invperm_length in *. exact Hl.
Qed.

Lemma d_map_congr (g : C -> C) A A' : deq A A' -> deq (fst A, fun idx => g (snd A idx)) (fst A', fun idx => g (snd A' idx)).
Proof. intros [H1 H2]. split; [exact H1|]. cbn [fst snd]. intros idx Hidx. rewrite H2 by exact Hidx. reflexivity. Qed.

Lemma d_add_congr alpha A A' B B' : fst A = fst B -> deq A A' -> deq B B' -> deq (d_add alpha A B) (d_add alpha A' B').
Proof.
  intros Hs [H1 H2] [H3 H4]. split; [exact H1|]. cbn [d_add fst snd]. intros idx Hidx.
  rewrite H2, H4 by (rewrite <- ?Hs; exact Hidx). reflexivity.
Qed.

Lemma d_outer_congr A A' B B' : deq A A' -> deq B B' -> deq (d_outer A B) (d_outer A' B').
Proof.
  intros [H1 H2] [H3 H4]. split; cbn [d_outer fst snd]; [rewrite H1, H3; reflexivity|]. intros idx Hidx.
  rewrite app_length in Hidx. rewrite <- H1, H2, H4 by (rewrite ?firstn_length, ?skipn_length; lia). reflexivity.
Qed.

Lemma d_tdot_congr k A A' B B' : (k <= length (fst A))%nat -> (k <= length (fst B))%nat ->
  deq A A' -> deq B B' -> deq (d_tdot k A B) (d_tdot k A' B').
Proof.
  intros Hka Hkb [H1 H2] [H3 H4]. unfold d_tdot. rewrite <- H1, <- H3. split; [reflexivity|]. cbn [fst snd]. intros idx Hidx.
  rewrite app_length, firstn_length, skipn_length in Hidx.
  unfold d_tensordot. apply csum_ext. intros c Hc. apply multi_idx_length in Hc. rewrite skipn_length in Hc.
  rewrite H2, H4 by (rewrite app_length, ?firstn_length, ?skipn_length; lia). reflexivity.
Qed.

Lemma d_take_slice_congr ax i A A' : (ax < length (fst A))%nat -> deq A A' -> deq (d_take_slice ax i A) (d_take_slice ax i A').
Proof.
  intros Hax [H1 H2]. split; cbn [d_take_slice fst snd]; [rewrite H1; reflexivity|]. intros idx Hidx. apply H2.
  rewrite remove_at_length in Hidx by exact Hax. rewrite insert_at_length by lia. lia.
Qed.

Lemma d_step_congr ci o e E' : applicable ci o e -> Forall2 deq (map to_dense e) E' ->
  deq (d_step o (map to_dense e)) (d_step o E').
Proof.
  intros Ha HE.
  assert (Hg : forall x, (x < length e)%nat -> deq (dget (map to_dense e) x) (dget E' x)).
  { intros x Hx. unfold dget. apply Forall2_nth; [exact HE|]. rewrite map_length. exact Hx. }
  destruct o as [x p|x|x s|x y alpha|x y|x y k|x ax i|x i j|x ax newq newqc]; cbn [d_step applicable] in *.
  - destruct Ha as [Hx HP]. apply d_transpose_congr; [|auto]. rewrite dget_map, to_dense_rank. exact (perm_seq_length _ _ HP).
  - apply (d_map_congr cconj). auto.
  - apply (d_map_congr (cmul s)). auto.
  - destruct Ha as (Hx & Hy & Hl & Hq). apply d_add_congr; auto. rewrite !dget_map. cbn [to_dense fst]. rewrite Hl. reflexivity.
  - destruct Ha as [Hx Hy]. apply d_outer_congr; auto.
  - destruct Ha as (Hx & Hy & Hka & Hkb & _). apply d_tdot_congr; auto; rewrite dget_map, to_dense_rank; assumption.
  - destruct Ha as (Hx & Hax & _). apply d_take_slice_congr; [|auto]. rewrite dget_map, to_dense_rank. exact Hax.
  - destruct Ha as (Hx & _). rewrite <- (proj1 (Hg x Hx)). apply d_transpose_congr; [|auto]. apply swap_perm_length.
  - destruct Ha as (Hx & _). auto.
Qed.

Lemma run_dense_gen ci prog : forall e E', Forall (WF ci) e -> applicable_prog ci prog e ->
  Forall2 deq (map to_dense e) E' -> Forall2 deq (map to_dense (run ci prog e)) (d_run prog E').
Proof.
  induction prog as [|ins prog IH]; intros e E' HF Ha HE; cbn [run d_run applicable_prog] in *; [exact HE|].
  destruct Ha as [Ha1 Ha2]. apply IH; [apply exec_wf; assumption|exact Ha2|].
  unfold exec, d_exec. rewrite map_store. apply Forall2_store; [exact HE|].
  apply (deq_trans _ (d_step (fst ins) (map to_dense e))); [apply step_dense; assumption|].
  apply (d_step_congr ci); assumption.
Qed.

Theorem program_dense ci prog e : Forall (WF ci) e -> applicable_prog ci prog e ->
  Forall2 deq (map to_dense (run ci prog e)) (d_run prog (map to_dense e)).
Proof.
  intros HF Ha. apply (run_dense_gen ci prog e); try assumption.
  induction (map to_dense e); constructor; [apply deq_refl|assumption].
Qed.

Corollary program_dense_entry ci prog e x idx : Forall (WF ci) e -> applicable_prog ci prog e ->
  (x < length (run ci prog e))%nat ->
  map ind_len (legs (get (run ci prog e) x)) = fst (dget (d_run prog (map to_dense e)) x) /\
  (length idx = rank (get (run ci prog e) x) ->
   to_ndarray (get (run ci prog e) x) idx = snd (dget (d_run prog (map to_dense e)) x) idx).
Proof.
  intros HF Ha Hx. pose proof (program_dense ci prog e HF Ha) as H.
  pose proof (Forall2_nth deq _ _ ddense ddense x H) as Hn. rewrite map_length in Hn. specialize (Hn Hx).
  fold (dget (map to_dense (run ci prog e)) x) in Hn. rewrite dget_map in Hn. destruct Hn as [H1 H2]. split; [exact H1|].
  intros Hl. apply H2. rewrite to_dense_rank. exact Hl.
Qed.
