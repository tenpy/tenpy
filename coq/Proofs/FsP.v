(* C18, crash model Model/Fs.v.  The invariant `good_state t s`: s is one of the five disk shapes of a safe_write run in
   which checkpoint t (last completed write) is loadable.  From a good state whose output file is not Partial, every crash
   point of `init_ops` and of one save is good (the 16 disk states are enumerated), and traces concatenate. *)
From TenpyV Require Import Base.Prelude Model.Fs.

Lemma apply_ops_app a b st : apply_ops (a ++ b) st = apply_ops b (apply_ops a st).
Proof. unfold apply_ops. apply fold_left_app. Qed.

Fixpoint end_tag (ops : list op) (j : nat) : nat :=
  match ops with
  | [] => j
  | OpWrite _ k :: t => end_tag t k
  | _ :: t => end_tag t j
  end.

Lemma end_tag_app a b j : end_tag (a ++ b) j = end_tag b (end_tag a j).
Proof.
  revert j. induction a as [|o a IH]; intro j; [reflexivity|].
  destruct o; cbn [app end_tag]; apply IH.
Qed.

Lemma crash_points_app (P : nat * fs -> Prop) a b j st :
  Forall P (crash_points a j st) ->
  Forall P (crash_points b (end_tag a j) (apply_ops a st)) ->
  Forall P (crash_points (a ++ b) j st).
Proof.
  revert j st. induction a as [|o a IH]; intros j st Ha Hb.
  - exact Hb.
  - destruct o; cbn [app crash_points end_tag] in *;
      repeat match goal with H : Forall _ (_ :: _) |- _ => inversion H; subst; clear H end;
      repeat constructor; try assumption; apply IH; assumption.
Qed.

Lemma crash_points_tail o ops j st x :
  In x (crash_points ops (end_tag [o] j) (apply_op st o)) -> In x (crash_points (o :: ops) j st).
Proof. destruct o; cbn [crash_points end_tag]; intros H; repeat right; exact H. Qed.

Lemma crash_state_in_points ops : forall j st s inside, s <= length ops ->
  exists t, In (t, crash_state ops st s inside) (crash_points ops j st).
Proof.
  induction ops as [|o ops IH]; intros j st s inside Hs.
  - cbn in Hs. assert (s = 0) by lia. subst. exists j. unfold crash_state.
    cbn. destruct inside; left; reflexivity.
  - destruct s as [|s].
    + unfold crash_state. cbn [firstn apply_ops fold_left nth_error].
      destruct inside; [|exists j; destruct o; left; reflexivity].
      destruct o; try (exists j; left; reflexivity).
      exists j. right. left. reflexivity.
    + cbn [length] in Hs.
      destruct (IH (end_tag [o] j) (apply_op st o) s inside) as [t Ht]; [lia|].
      exists t. apply crash_points_tail. exact Ht.
Qed.

(* (out, bak) by the moment of save_results: (Complete t, Absent) between two saves; (Complete t, Marker) while the
   marker of __init__ stands under the backup name; (Absent, Complete t) after `output.rename(backup)`;
   (Partial _, Complete t) a torn write; (Complete t, Complete _) after the write, before `backup.unlink()` *)
Definition good_state (t : nat) (s : fs) : bool :=
  match f_out s, f_bak s with
  | Complete a, Absent => Nat.eqb a t
  | Complete a, Marker => Nat.eqb a t
  | Complete a, Complete _ => Nat.eqb a t
  | Absent, Complete b => Nat.eqb b t
  | Partial _, Complete b => Nat.eqb b t
  | _, _ => false
  end.

Definition out_not_partial (s : fs) : bool := negb (is_partial (f_out s)).

Definition good_point (x : nat * fs) : Prop := good_state (fst x) (snd x) = true.
Definition good_or_unstarted (x : nat * fs) : Prop := good_state (fst x) (snd x) = true \/ (fst x = 0 /\ loadable (snd x) = None).

Lemma good_state_spec t s : good_state t s = true -> has_complete s t /\ exists f, loadable s = Some (f, t).
Proof.
  destruct s as [o b]. unfold good_state, has_complete, loadable. cbn [f_out f_bak].
  destruct o, b; try discriminate; intro H; apply Nat.eqb_eq in H; subst; split; eauto.
Qed.

Ltac all_points_good :=
  repeat match goal with
         | |- Forall _ (_ :: _) => constructor
         | |- Forall _ [] => constructor
         end;
  unfold good_point, good_state; cbn [fst snd f_out f_bak setf apply_op getf fname_eqb];
  rewrite ?Nat.eqb_refl; try reflexivity; try assumption.

(* from (Partial _, Complete b) the save would unlink the only complete file (resumed_unsafe), which is why
   out_not_partial is required here and in init_good *)
Lemma save_good t s k : good_state t s = true -> out_not_partial s = true ->
  let ops := fst (save_ops true k s) in
  apply_ops ops s = mkFs (Complete k) Absent /\ end_tag ops t = k /\
  Forall good_point (crash_points ops t s).
Proof.
  destruct s as [o b]. unfold good_state, out_not_partial. cbn [f_out f_bak is_partial].
  destruct o as [| |a|a], b as [| |c|c]; try discriminate; intros Hg _;
    apply Nat.eqb_eq in Hg; subst;
    cbn; (split; [reflexivity|split; [reflexivity|]]); all_points_good.
Qed.

Lemma init_good t s : good_state t s = true -> out_not_partial s = true ->
  let ops := fst (init_ops true s) in
  good_state t (apply_ops ops s) = true /\ out_not_partial (apply_ops ops s) = true /\ end_tag ops t = t /\
  Forall good_point (crash_points ops t s).
Proof.
  destruct s as [o b]. unfold good_state, out_not_partial. cbn [f_out f_bak is_partial].
  destruct o as [| |a|a], b as [| |c|c]; try discriminate; intros Hg _;
    cbn; rewrite ?Hg; (split; [reflexivity|split; [reflexivity|split; [reflexivity|]]]); all_points_good.
Qed.

Lemma saves_ops_S safe k0 n st :
  fst (saves_ops safe k0 (S n) st) =
  fst (save_ops safe (k0 + 1) st) ++ fst (saves_ops safe (k0 + 1) n (snd (save_ops safe (k0 + 1) st))).
Proof.
  cbn [saves_ops]. destruct (save_ops safe (k0 + 1) st) as [o1 s1].
  cbn [fst snd]. destruct (saves_ops safe (k0 + 1) n s1) as [o2 s2]. reflexivity.
Qed.

Lemma run_prog_apply safe k p : forall st, snd (run_prog safe k p st) = apply_ops (fst (run_prog safe k p st)) st.
Proof.
  assert (Hc : forall c st, apply_ops (fst (eval_cond safe c st)) st = st).
  { induction c as [f| |a IHa b IHb|a IHa]; intro st; cbn [eval_cond].
    - reflexivity.
    - reflexivity.
    - specialize (IHa st). destruct (eval_cond safe a st) as [oa va]. destruct va.
      + specialize (IHb st). destruct (eval_cond safe b st) as [ob vb]. cbn [fst] in *.
        rewrite apply_ops_app, IHa. exact IHb.
      + exact IHa.
    - specialize (IHa st). destruct (eval_cond safe a st) as [oa va]. exact IHa. }
  induction p as [|a IHa b IHb|c a IHa b IHb|f|a b|f]; intro st; cbn [run_prog]; try reflexivity.
  - specialize (IHa st). destruct (run_prog safe k a st) as [oa s1].
    specialize (IHb s1). destruct (run_prog safe k b s1) as [ob s2]. cbn [fst snd] in *.
    rewrite apply_ops_app. subst s1. exact IHb.
  - specialize (Hc c st). destruct (eval_cond safe c st) as [oc v]. cbn [fst] in Hc.
    destruct v.
    + specialize (IHa st). destruct (run_prog safe k a st) as [ob s1]. cbn [fst snd] in *.
      rewrite apply_ops_app, Hc. exact IHa.
    + specialize (IHb st). destruct (run_prog safe k b st) as [ob s1]. cbn [fst snd] in *.
      rewrite apply_ops_app, Hc. exact IHb.
Qed.

Lemma save_ops_apply safe k st : snd (save_ops safe k st) = apply_ops (fst (save_ops safe k st)) st.
Proof. apply run_prog_apply. Qed.

(* tag and checkpoint counter are the one variable t: a run resumed from checkpoint t numbers its saves t+1, t+2, ...
   (Model/Fs.v resumed_points), so the last completed write is the counter *)
Lemma saves_good n : forall t s, good_state t s = true -> out_not_partial s = true ->
  Forall good_point (crash_points (fst (saves_ops true t n s)) t s).
Proof.
  induction n as [|n IH]; intros t s Hg Hp.
  - cbn. constructor; [exact Hg|constructor].
  - rewrite saves_ops_S.
    destruct (save_good t s (t + 1) Hg Hp) as [Hst [Htag Hpts]].
    apply crash_points_app; [exact Hpts|].
    rewrite Htag, save_ops_apply, Hst.
    apply IH; [|reflexivity].
    unfold good_state. cbn. apply Nat.eqb_refl.
Qed.

Lemma seg_ops_fst safe k0 n st :
  fst (seg_ops safe k0 n st) = fst (init_ops safe st) ++ fst (saves_ops safe k0 n (snd (init_ops safe st))).
Proof.
  unfold seg_ops. destruct (init_ops safe st) as [o0 s0]. cbn [fst snd].
  destruct (saves_ops safe k0 n s0) as [o1 s1]. reflexivity.
Qed.

Lemma init_ops_apply safe st : snd (init_ops safe st) = apply_ops (fst (init_ops safe st)) st.
Proof.
  unfold init_ops. destruct safe; [|reflexivity]. destruct (present (f_bak st)); reflexivity.
Qed.

Lemma resumed_good t n s : good_state t s = true -> out_not_partial s = true -> Forall good_point (resumed_points true t n s).
Proof.
  intros Hg Hp. unfold resumed_points. rewrite seg_ops_fst.
  destruct (init_good t s Hg Hp) as [Hg' [Hp' [Htag Hpts]]].
  apply crash_points_app; [exact Hpts|].
  rewrite Htag, init_ops_apply. apply saves_good; assumption.
Qed.

(* a fresh run starts from fs0, which is not good: tag 0, nothing loadable *)
Lemma fresh_good_or_unstarted n : Forall good_or_unstarted (fresh_points true n).
Proof.
  unfold fresh_points. rewrite seg_ops_fst.
  destruct n as [|n].
  - cbn. repeat (apply Forall_cons || apply Forall_nil); right; split; reflexivity.
  - rewrite saves_ops_S, app_assoc. apply crash_points_app.
    + cbn. repeat (apply Forall_cons || apply Forall_nil); unfold good_or_unstarted; cbn;
        first [left; reflexivity | right; split; reflexivity].
    + rewrite end_tag_app, apply_ops_app. cbn [init_ops fs0 present f_bak f_out fst snd].
      cbn -[saves_ops].
      eapply Forall_impl; [|apply saves_good; reflexivity].
      intros x Hx. left. exact Hx.
Qed.

Lemma good_or_unstarted_loadable j st : good_or_unstarted (j, st) -> 1 <= j -> has_complete st j /\ exists f, loadable st = Some (f, j).
Proof.
  intros [H|[H _]] Hj; cbn [fst snd] in H; [exact (good_state_spec j st H)|lia].
Qed.

(* python raises when it unlinks or renames a missing file (op_ok): the save that starts between two saves does not *)
Lemma save_all_ok_next j k : all_ok (fst (save_ops true k (mkFs (Complete j) Absent))) (mkFs (Complete j) Absent) = true.
Proof. reflexivity. Qed.

Lemma resumes_good h : forall cur j st, good_or_unstarted cur ->
  run_resumes true true h cur = Some (j, st) -> good_or_unstarted (j, st).
Proof.
  induction h as [|[n c] h IH]; intros cur j st Hq Hr.
  - cbn in Hr. inversion Hr; subst. exact Hq.
  - cbn [run_resumes] in Hr. destruct cur as [t s]. cbn [snd] in Hr.
    destruct (is_partial (f_out s)) eqn:Hp; cbn [andb] in Hr; [discriminate|].
    destruct Hq as [Hg|[_ Hl]]; cbn [fst snd] in *.
    + destruct (good_state_spec t s Hg) as [_ [f Hf]]. rewrite Hf in Hr.
      destruct (nth_error (resumed_points true t n s) c) as [nxt|] eqn:Hn; [|discriminate].
      apply (IH nxt j st); [|exact Hr].
      left. pose proof (resumed_good t n s Hg) as H. unfold out_not_partial in H. rewrite Hp in H.
      specialize (H eq_refl). rewrite Forall_forall in H. apply H. eapply nth_error_In. exact Hn.
    + rewrite Hl in Hr. discriminate.
Qed.

Lemma resumed_strict n0 c0 h j st : run_history true true n0 c0 h = Some (j, st) -> 1 <= j ->
  has_complete st j /\ exists f, loadable st = Some (f, j).
Proof.
  unfold run_history. intros Hr Hj.
  destruct (nth_error (fresh_points true n0) c0) as [cur|] eqn:Hn; [|discriminate].
  assert (Hq : good_or_unstarted cur).
  { pose proof (fresh_good_or_unstarted n0) as H. rewrite Forall_forall in H. apply H. eapply nth_error_In. exact Hn. }
  exact (good_or_unstarted_loadable j st (resumes_good h cur j st Hq Hr) Hj).
Qed.

(* fresh run with 2 saves killed inside the second write (crash point 12: out = Partial 2, bak = Complete 1); the first
   save of the run resumed from the backup is killed after its `backup.unlink()` (crash point 5) *)
Lemma resumed_unsafe : exists n0 c0 h j st,
  run_history true false n0 c0 h = Some (j, st) /\ 1 <= j /\ loadable st = None /\
  is_partial (f_out st) = true.
Proof.
  exists 2, 12, [(1, 5)], 1, (mkFs (Partial 2) Absent). vm_compute. repeat split; lia.
Qed.

(* ... and two partial files when the resumed run is killed inside its first write *)
Lemma resumed_unsafe_two_partials : exists n0 c0 h j,
  run_history true false n0 c0 h = Some (j, mkFs (Partial 2) (Partial 2)) /\ 1 <= j.
Proof. exists 2, 12, [(1, 7)], 1. vm_compute. split; [reflexivity|lia]. Qed.
