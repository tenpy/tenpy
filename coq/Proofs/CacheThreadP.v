(* Model/CacheThread.v (property C20: ThreadedStorage + Worker under every schedule).  No deadlock: under `Binv` a
   caller that cannot move can be helped by the worker (`progress`), whose steps decrease `mu`.  Linearizability:
   invariant `Linv`. *)
From TenpyV Require Import Base.Prelude Model.Cache Proofs.CacheP Model.CacheThread.
Open Scope Z_scope.

Definition run_of (s : wstatus) : list task := match s with WRun t => [t] | _ => [] end.
Lemma pending_eq st : pending st = run_of (t_status st) ++ t_queue st.
Proof. reflexivity. Qed.

Definition blocking (p : pcs) : bool :=
  match p with PPut _ _ | PLoadJ _ | PSaveJ _ _ => true | _ => false end.

Lemma worker_frame fail_at st st' : worker_step fail_at st = Some st' ->
  t_pc st' = t_pc st /\ t_prog st' = t_prog st.
Proof.
  unfold worker_step. destruct (t_status st).
  - destruct (t_queue st); [discriminate|]. intros [= <-]. split; reflexivity.
  - intros [= <-]. destruct (match fail_at with Some n => _ | None => _ end);
      [|destruct (exec_task _ _ _) as [[d l]|]]; split; reflexivity.
  - destruct (t_queue st); intros [= <-]; split; reflexivity.
  - discriminate.
Qed.

Lemma worker_step_dead fail_at st : t_status st = WDead -> worker_step fail_at st = None.
Proof. unfold worker_step. intros ->. reflexivity. Qed.

Lemma dead_WDead st : t_status st = WDead -> dead st = true.
Proof. unfold dead. intros ->. reflexivity. Qed.

Lemma do_put_dead qmax st t c : dead st = true -> do_put qmax st t c = finish st TWorkerDied.
Proof. unfold do_put. intros ->. reflexivity. Qed.

Lemma do_put_alive qmax st t c : dead st = false ->
  do_put qmax st t c = if has_space qmax st then continue (enqueue (set_pc st (PPut t c)) t) c
                       else set_pc st (PPut t c).
Proof.
  intros H. unfold do_put. rewrite H. destruct (has_space qmax st); [|reflexivity]. destruct st, c; reflexivity.
Qed.

Definition cframe (st st' : tstate) : Prop :=
  t_status st' = t_status st /\
  (t_unfinished st = length (pending st) -> t_unfinished st' = length (pending st')) /\
  (dead st = true -> blocking (t_pc st') = false).

Lemma cframe_quiet st st' : t_status st' = t_status st -> t_queue st' = t_queue st ->
  t_unfinished st' = t_unfinished st -> blocking (t_pc st') = false \/ dead st = false -> cframe st st'.
Proof.
  intros Hs Hq Hu Hb. unfold cframe, pending. rewrite Hs, Hq, Hu. split; [reflexivity|]. split; [exact id|].
  intros Hd. destruct Hb as [Hb|Hb]; [exact Hb|congruence].
Qed.

Lemma put_done_cframe st t c : cframe st (continue (enqueue st t) c).
Proof.
  split; [destruct c; reflexivity|]. split; [|destruct c; reflexivity].
  intros H. replace (pending (continue (enqueue st t) c)) with (pending st ++ [t]).
  - rewrite app_length, <- H. destruct c; cbn; lia.
  - destruct c; symmetry; apply app_assoc.
Qed.

Lemma do_put_cframe qmax st t c : cframe st (do_put qmax st t c).
Proof.
  unfold do_put. destruct (dead st) eqn:Ed; [apply cframe_quiet; auto|].
  destruct (has_space qmax st); [apply put_done_cframe|apply cframe_quiet; auto].
Qed.

Lemma finish_load_cframe st k : cframe st (finish_load st k).
Proof. unfold finish_load. destruct (d_get k (t_loaded st)); apply cframe_quiet; auto. Qed.

Lemma start_op_cframe qmax st op : cframe st (start_op qmax st op).
Proof.
  destruct op as [k|k|k v|k]; cbn [start_op].
  - destruct (_ && _); [exact (do_put_cframe qmax (set_loaded_waiting st _ _) _ _)|apply cframe_quiet; auto].
  - destruct (_ || _); [apply cframe_quiet; auto|exact (do_put_cframe qmax (set_loaded_waiting st _ _) _ _)].
  - destruct (ks_mem _ _); [|apply do_put_cframe]. destruct (dead st) eqn:Ed; apply cframe_quiet; auto.
  - apply do_put_cframe.
Qed.

Lemma caller_cframe qmax st st' : caller_step qmax st = Some st' -> cframe st st'.
Proof.
  unfold caller_step. destruct (t_pc st) as [|t c|k|k|k v].
  - destruct (t_prog st) as [|op rest]; [discriminate|]. intros [= <-].
    exact (start_op_cframe qmax (set_prog st rest) op).
  - destruct (has_space qmax st); [|discriminate]. intros [= <-]. apply put_done_cframe.
  - intros [= <-]. destruct (d_has _ _); [apply finish_load_cframe|].
    destruct (dead st) eqn:Ed; apply cframe_quiet; auto.
  - destruct (Nat.eqb _ 0); [|discriminate]. intros [= <-].
    destruct (dead st) eqn:Ed; [apply cframe_quiet; auto|apply finish_load_cframe].
  - destruct (Nat.eqb _ 0); [|discriminate]. intros [= <-].
    destruct (dead st) eqn:Ed; [apply cframe_quiet; auto|].
    destruct (d_get _ _); [exact (do_put_cframe qmax (set_loaded_waiting st _ _) _ _)|apply cframe_quiet; auto].
Qed.

(* a terminated worker has drained the queue; it can only be refilled by a caller that was already inside put, and that
   caller then no longer blocks *)
Definition Binv (st : tstate) : Prop :=
  t_unfinished st = length (pending st) /\
  (t_status st = WDead -> blocking (t_pc st) = true -> t_queue st = []).

Lemma Binv_init prog : Binv (init prog).
Proof. split; [reflexivity|]. intros H. discriminate. Qed.

Lemma caller_Binv qmax st st' : Binv st -> caller_step qmax st = Some st' -> Binv st'.
Proof.
  intros [HU HD] E. destruct (caller_cframe qmax st st' E) as (Hs & Hu & Hb).
  split; [exact (Hu HU)|]. intros Hd Hbl. rewrite Hs in Hd.
  rewrite (Hb (dead_WDead st Hd)) in Hbl. discriminate.
Qed.

(* every worker step decreases mu: taking a task turns a queued one (3) into the running one (2), which ends with the
   worker idle (0) or dying (1); a dying worker drops the queued tasks one by one and then terminates (1 to 0) *)
Definition mu (st : tstate) : nat :=
  3 * length (t_queue st) +
  match t_status st with WIdle => 0 | WRun _ => 2 | WDying => 1 | WDead => 0 end.

Lemma mu_bound st : (mu st <= 3 * length (t_queue st) + 2)%nat.
Proof. unfold mu. destruct (t_status st); lia. Qed.

Lemma worker_Binv_mu fail_at st st' : Binv st -> worker_step fail_at st = Some st' ->
  Binv st' /\ (mu st' < mu st)%nat.
Proof.
  intros [HU HD]. unfold worker_step, Binv, mu, pending in *.
  destruct (t_status st) as [|t| |] eqn:Es.
  - destruct (t_queue st) as [|t q] eqn:Eq; [discriminate|]. intros [= <-].
    cbn [set_worker t_status t_queue t_unfinished t_pc app length] in *.
    split; [split; [exact HU|discriminate]|lia].
  - intros [= <-]. cbn [app length] in HU.
    destruct (match fail_at with Some n => _ | None => _ end); [|destruct (exec_task _ _ _) as [[d l]|]];
      cbn [set_worker t_status t_queue t_unfinished t_pc app length]; (split; [split; [lia|discriminate]|lia]).
  - destruct (t_queue st) as [|t q] eqn:Eq; intros [= <-];
      cbn [set_worker t_status t_queue t_unfinished t_pc app length] in *.
    + split; [split; [exact HU|reflexivity]|lia].
    + split; [split; [lia|discriminate]|lia].
  - discriminate.
Qed.

Lemma step_Binv qmax fail_at st c : Binv st -> Binv (lts_step qmax fail_at st c).
Proof.
  intros H. unfold lts_step. destruct c.
  - destruct (caller_step qmax st) eqn:E; [|exact H]. eapply caller_Binv; eassumption.
  - destruct (worker_step fail_at st) eqn:E; [|exact H]. eapply worker_Binv_mu; eassumption.
Qed.

Lemma run_Binv qmax fail_at sched : forall st, Binv st -> Binv (lts_run qmax fail_at sched st).
Proof.
  unfold lts_run. induction sched as [|c t IH]; intros st H; cbn [fold_left]; [exact H|].
  apply IH, step_Binv, H.
Qed.

Lemma space_when_empty qmax st : t_queue st = [] -> has_space qmax st = true.
Proof. intros E. unfold has_space. rewrite E. destruct qmax; reflexivity. Qed.

Lemma progress qmax fail_at st : Binv st -> caller_finished st = false ->
  caller_step qmax st = None -> worker_step fail_at st <> None.
Proof.
  intros [HU HD] Hf Hc Hw.
  assert (Hr : run_of (t_status st) = [] /\ (t_queue st = [] \/ t_status st = WDead)).
  { unfold worker_step in Hw.
    destruct (t_status st); [|discriminate| |auto]; destruct (t_queue st); try discriminate; auto. }
  destruct Hr as [Hr Hq].
  assert (Eq : blocking (t_pc st) = true -> t_queue st = []) by (destruct Hq; auto).
  rewrite pending_eq, Hr in HU. unfold caller_finished, caller_step in *.
  destruct (t_pc st); cbn [blocking] in Eq.
  - destruct (t_prog st); discriminate.
  - rewrite (space_when_empty qmax st (Eq eq_refl)) in Hc. discriminate.
  - discriminate.
  - rewrite HU, (Eq eq_refl) in Hc. discriminate.
  - rewrite HU, (Eq eq_refl) in Hc. discriminate.
Qed.

Lemma no_deadlock_aux qmax fail_at : forall m st, mu st = m -> Binv st -> caller_finished st = false ->
  exists n, (n <= m)%nat /\ caller_step qmax (iter_worker fail_at n st) <> None.
Proof.
  induction m as [m IH] using lt_wf_ind. intros st Em HB Hf. destruct (caller_step qmax st) eqn:Ec.
  - exists 0%nat. split; [lia|]. cbn [iter_worker]. rewrite Ec. discriminate.
  - destruct (worker_step fail_at st) as [st'|] eqn:Ew; [|exfalso; exact (progress qmax fail_at st HB Hf Ec Ew)].
    destruct (worker_Binv_mu fail_at st st' HB Ew) as (HB' & Hlt).
    destruct (worker_frame fail_at st st' Ew) as (Hp1 & Hp2).
    destruct (IH (mu st') ltac:(lia) st' eq_refl HB') as (n & Hn & Hs).
    { unfold caller_finished in *. rewrite Hp1, Hp2. exact Hf. }
    exists (S n). split; [lia|]. cbn [iter_worker]. rewrite Ew. exact Hs.
Qed.

(* with a dead worker an operation that needs the worker raises WorkerDied (a load or preload has already noted its key
   in _waiting_for_load by then); the others are answered as usual *)
Lemma start_op_dead qmax st op : dead st = true ->
  start_op qmax st op =
  if needs_worker st op
  then finish (match op with
               | SLoad k | SPreload k => set_loaded_waiting st (t_loaded st) (ks_add k (t_waiting st))
               | _ => st
               end) TWorkerDied
  else match op with SLoad k => set_pc st (PLoadB k) | _ => finish st TOk end.
Proof.
  intros Hd. destruct op as [k|k|k v|k]; cbn [start_op needs_worker]; rewrite ?do_put_dead by exact Hd.
  - reflexivity.
  - destruct (d_has k (t_loaded st)), (ks_mem k (t_waiting st)); reflexivity.
  - rewrite Hd. destruct (ks_mem k (t_waiting st)); reflexivity.
  - reflexivity.
Qed.

Lemma dead_worker_raises : forall qmax st op, dead st = true -> needs_worker st op = true ->
  t_outs (start_op qmax st op) = TWorkerDied :: t_outs st /\ t_pc (start_op qmax st op) = PIdle.
Proof.
  intros qmax st op Hd Hn. rewrite start_op_dead, Hn by exact Hd. destruct op; split; reflexivity.
Qed.

Definition apply_task (t : task) (d : list (Z * Z)) : list (Z * Z) :=
  match t with TLoad _ => d | TSave k v => d_set k v d | TDelete k => d_del k d end.
Definition apply_tasks (l : list task) (d : list (Z * Z)) : list (Z * Z) :=
  fold_left (fun a t => apply_task t a) l d.
Definition is_load (k : Z) (t : task) : bool := match t with TLoad k' => k' =? k | _ => false end.
Definition nload (k : Z) (l : list task) : nat := length (filter (is_load k) l).

(* every key of _waiting_for_load is accounted for exactly once: by a load among the tasks T or by its value in
   _loaded *)
Definition Count (T : list task) (l : list (Z * Z)) (w : list Z) : Prop :=
  forall k, (nload k T + Nat.b2n (d_has k l) = Nat.b2n (ks_mem k w))%nat.

(* a pending load finds its key on the disk d of its turn, with the value it has in the final store m unless it
   has gone from m by then *)
Definition load_cond (m d : list (Z * Z)) (t : task) : Prop :=
  match t with
  | TLoad k => d_has k d = true /\ (d_has k m = true -> d_get k d = d_get k m)
  | _ => True
  end.
Fixpoint loads_ok (m d : list (Z * Z)) (l : list task) : Prop :=
  match l with
  | [] => True
  | t :: r => load_cond m d t /\ loads_ok m (apply_task t d) r
  end.

Definition agree (l m : list (Z * Z)) : Prop :=
  forall k v, d_get k l = Some v -> d_has k m = true -> d_get k m = Some v.

Lemma apply_tasks_snoc p t d : apply_tasks (p ++ [t]) d = apply_task t (apply_tasks p d).
Proof. unfold apply_tasks. rewrite fold_left_app. reflexivity. Qed.

Lemma nload_app k p q : nload k (p ++ q) = (nload k p + nload k q)%nat.
Proof. unfold nload. rewrite filter_app, app_length. reflexivity. Qed.

Lemma nload_cons k t p : nload k (t :: p) = (Nat.b2n (is_load k t) + nload k p)%nat.
Proof. unfold nload. cbn [filter]. destruct (is_load k t); reflexivity. Qed.

Lemma loads_ok_snoc m p t : forall d,
  loads_ok m d p -> load_cond m (apply_tasks p d) t -> loads_ok m d (p ++ [t]).
Proof.
  induction p as [|x r IH]; intros d Hp Ht; cbn [app loads_ok].
  - split; [exact Ht|exact I].
  - split; [apply Hp|]. apply IH; [apply Hp|exact Ht].
Qed.

Lemma loads_ok_off k m m' p : (forall k', k' <> k -> d_get k' m' = d_get k' m) ->
  nload k p = 0%nat \/ d_has k m' = false -> forall d, loads_ok m d p -> loads_ok m' d p.
Proof.
  intros Hoff. induction p as [|t r IH]; intros Hk d H; [exact I|]. destruct H as [H1 H2]. rewrite nload_cons in Hk. split.
  - destruct t as [k0|k0 v|k0]; try exact I. destruct H1 as [Ha Hb]. split; [exact Ha|]. intros Hm'.
    destruct (Z.eq_dec k0 k) as [->|Hne].
    + cbn [is_load] in Hk. rewrite Z.eqb_refl in Hk. destruct Hk; [discriminate|congruence].
    + rewrite (d_has_ext _ _ _ (Hoff k0 Hne)) in Hm'. rewrite (Hoff k0 Hne). exact (Hb Hm').
  - apply IH; [|exact H2]. destruct Hk; [left; lia|right; assumption].
Qed.

Lemma agree_at k l m l' m' : agree l m ->
  (forall k', k' <> k -> d_get k' l' = d_get k' l /\ d_get k' m' = d_get k' m) ->
  (forall v, d_get k l' = Some v -> d_has k m' = true -> d_get k m' = Some v) -> agree l' m'.
Proof.
  intros HA Hoff Hk k' v. destruct (Z.eq_dec k' k) as [->|Hne]; [apply Hk|].
  destruct (Hoff k' Hne) as [-> E]. rewrite E, (d_has_ext _ _ _ E). apply HA.
Qed.

(* An operation takes effect when the caller decides on the task it will put, not when Queue.put finds room: a caller
   waiting in put with task t is in the same abstract state as after the put.  So the invariant speaks of
     V      the tasks the worker has not finished followed by the task the caller holds (pcq),
     todo   the operation in progress, if it still has to return a value (cur_op), followed by the rest of the program,
     vouts  the results so far, with the TOk (Python's None) that a finished put will return. *)
Definition pcq (p : pcs) : list task := match p with PPut t _ => [t] | _ => [] end.

Definition cur_op (p : pcs) : list s_op :=
  match p with
  | PIdle | PPut _ KDone => []
  | PPut _ (KLoadB k) | PLoadB k | PLoadJ k => [SLoad k]
  | PSaveJ k v => [SSave k v]
  end.

Definition vouts (p : pcs) (outs : list t_out) : list t_out :=
  match p with PPut _ KDone => TOk :: outs | _ => outs end.

Definition pc_ok (w : list Z) (p : pcs) : Prop :=
  match p with
  | PPut _ (KLoadB k) | PLoadB k | PLoadJ k | PSaveJ k _ => ks_mem k w = true
  | _ => True
  end.

Ltac projs := cbn [continue finish set_pc set_prog set_loaded_waiting enqueue
                   t_unfinished t_status t_queue t_disk t_loaded t_waiting t_pc t_prog t_outs t_started].

Section Linv.
  Variable prog0 : list s_op.

  (* the key-value store the caller's calls amount to is the disk as it will be once the worker is through with V *)
  Record Linv (disk : list (Z * Z)) (V : list task) (l : list (Z * Z)) (w : list Z)
              (todo : list s_op) (outs : list t_out) : Prop := {
    L_count : Count V l w;
    L_loads : loads_ok (apply_tasks V disk) disk V;
    L_agree : agree l (apply_tasks V disk);
    L_outs : rev outs ++ spec_outs (apply_tasks V disk) todo = spec_outs [] prog0;
    L_wf : wf (apply_tasks V disk) todo = true }.

  Lemma Linv_run_task {disk t V l w todo outs} : Linv disk (t :: V) l w todo outs ->
    exists l', exec_task disk l t = Some (apply_task t disk, l') /\ Linv (apply_task t disk) V l' w todo outs.
  Proof.
    intros [HC [Hc HL] HA HJ Hwf].
    destruct t as [k|k v|k]; cbn [exec_task apply_task load_cond] in *.
    - destruct Hc as [Hd Hm]. destruct (d_hasP k disk) as [v E|E]; [rewrite E in *|discriminate].
      exists (d_set k v l). split; [reflexivity|]. split; try assumption.
      + intros k'. specialize (HC k'). rewrite nload_cons in HC. cbn [is_load] in HC. rewrite d_has_set, Z.eqb_sym.
        destruct (k =? k') eqn:E3; cbn [orb Nat.b2n] in *; [|exact HC].
        destruct (d_has k' l), (ks_mem k' w); cbn [Nat.b2n] in *; lia.
      + apply (agree_at k l _ _ _ HA).
        * intros k' Hne. split; [apply d_get_set_neq; exact Hne|reflexivity].
        * intros v'. rewrite d_get_set_eq. intros [= <-] Hh. symmetry. exact (Hm Hh).
    - exists l. split; [reflexivity|split; assumption].
    - exists l. split; [reflexivity|split; assumption].
  Qed.

  Lemma Linv_wf_head {disk V l w op todo outs} : Linv disk V l w (op :: todo) outs ->
    match op with SLoad k | SPreload k | SDelete k => d_has k (apply_tasks V disk) | SSave _ _ => true end = true.
  Proof. intros H. pose proof (L_wf _ _ _ _ _ _ H) as Hwf. apply andb_true_iff in Hwf. apply Hwf. Qed.

  Lemma Linv_return {disk V l w V' l' w'} op {todo outs} : Linv disk V l w (op :: todo) outs ->
    Count V' l' w' -> loads_ok (apply_tasks V' disk) disk V' -> agree l' (apply_tasks V' disk) ->
    apply_tasks V' disk = spec_m (apply_tasks V disk) op ->
    Linv disk V' l' w' todo (spec_out (apply_tasks V disk) op :: outs).
  Proof.
    intros [_ _ _ HJ Hwf] HC HL HA Em. split; try assumption; rewrite Em.
    - cbn [rev]. rewrite <- app_assoc. exact HJ.
    - apply andb_true_iff in Hwf. apply Hwf.
  Qed.

  Lemma Linv_finish {disk V l w} op {todo outs} : Linv disk V l w (op :: todo) outs ->
    spec_m (apply_tasks V disk) op = apply_tasks V disk ->
    Linv disk V l w todo (spec_out (apply_tasks V disk) op :: outs).
  Proof. intros H Hm. apply (Linv_return op H); try apply H. symmetry. exact Hm. Qed.

  Lemma Linv_finish_load {disk V l w k v todo outs} : Linv disk V l w (SLoad k :: todo) outs ->
    d_get k l = Some v -> Linv disk V (d_del k l) (ks_del k w) todo (TVal v :: outs).
  Proof.
    intros H Hg. pose proof H as [HC HL HA _ _].
    pose proof (d_get_has k l v Hg) as Hl.
    replace (TVal v) with (spec_out (apply_tasks V disk) (SLoad k))
      by (cbn [spec_out]; rewrite (HA k v Hg (Linv_wf_head H)); reflexivity).
    apply (Linv_return (SLoad k) H); try assumption; [| |reflexivity].
    - intros k'. specialize (HC k'). rewrite d_has_del, ks_mem_del.
      destruct (k' =? k) eqn:E; cbn [negb andb]; [|exact HC].
      replace k' with k in * by lia. rewrite Hl in HC. destruct (ks_mem k w); cbn [Nat.b2n] in *; lia.
    - apply (agree_at k l _ _ _ HA); [|intros v'; rewrite d_get_del, Z.eqb_refl; discriminate].
      intros k' Hne. split; [apply d_get_del_neq; exact Hne|reflexivity].
  Qed.

  Lemma Linv_put_load {disk V l w} k {todo outs} : Linv disk V l w todo outs ->
    d_has k (apply_tasks V disk) = true -> d_has k l = false -> ks_mem k w = false ->
    Linv disk (V ++ [TLoad k]) l (ks_add k w) todo outs.
  Proof.
    intros [HC HL HA HJ Hwf] Hk Hl Hw. split; rewrite ?apply_tasks_snoc; cbn [apply_task]; try assumption.
    - intros k'. specialize (HC k'). rewrite nload_app, nload_cons, ks_mem_add. cbn [is_load].
      destruct (k =? k') eqn:E; cbn [orb Nat.b2n]; [|rewrite Nat.add_0_r; exact HC].
      replace k' with k in * by lia. rewrite Hl, Hw in *. cbn [Nat.b2n] in *. cbn. lia.
    - apply loads_ok_snoc; [exact HL|]. split; [exact Hk|reflexivity].
  Qed.

  (* the caller decides on the task t of a write to key k.  The pending loads and _loaded stay consistent with the new
     store for one of two reasons: nothing of k is outstanding or loaded (save of a key that is not waiting), or k is
     gone from the store afterwards (delete): loads_ok and agree only speak of keys the final store has *)
  Lemma Linv_put_write {disk V l w} op t k {todo outs} : Linv disk V l w (op :: todo) outs ->
    apply_task t (apply_tasks V disk) = spec_m (apply_tasks V disk) op -> spec_out (apply_tasks V disk) op = TOk ->
    (forall k0, is_load k0 t = false) ->
    (forall k', k' <> k -> d_get k' (spec_m (apply_tasks V disk) op) = d_get k' (apply_tasks V disk)) ->
    nload k V = 0%nat /\ d_has k l = false \/ d_has k (spec_m (apply_tasks V disk) op) = false ->
    Linv disk (V ++ [t]) l w todo (TOk :: outs).
  Proof.
    intros H Em Eo Hnl Hoff Hgone. pose proof H as [HC HL HA _ _]. set (m := apply_tasks V disk) in *.
    assert (Em' : apply_tasks (V ++ [t]) disk = spec_m m op) by (rewrite apply_tasks_snoc; exact Em).
    rewrite <- Eo. apply (Linv_return op H); rewrite ?Em'; try reflexivity.
    - intros k'. rewrite nload_app, nload_cons, Hnl. cbn [Nat.b2n]. rewrite !Nat.add_0_r. apply HC.
    - apply loads_ok_snoc.
      + apply (loads_ok_off k m); [exact Hoff|destruct Hgone as [[Hn _]|Hg]; auto|exact HL].
      + destruct t as [k0|k0 v|k0]; try exact I. specialize (Hnl k0). cbn in Hnl. rewrite Z.eqb_refl in Hnl. discriminate.
    - apply (agree_at k l m _ _ HA); [intros k' Hne; split; [reflexivity|apply Hoff; exact Hne]|].
      intros v' Hg Hh. destruct Hgone as [[_ Hl]|Hgone]; [|congruence]. rewrite (d_get_has _ _ _ Hg) in Hl. discriminate.
  Qed.

  (* save of a key with an outstanding preload, after Queue.join has returned *)
  Lemma Linv_save_joined {disk l w k v todo outs} : Linv disk [] l w (SSave k v :: todo) outs -> d_has k l = true ->
    Linv disk [TSave k v] (d_set k v l) w todo (TOk :: outs).
  Proof.
    intros H Hl. pose proof H as [HC _ HA _ _].
    apply (Linv_return (SSave k v) H); cbn [apply_tasks fold_left apply_task spec_m] in *; [| | |reflexivity].
    - intros k'. specialize (HC k'). rewrite d_has_set. destruct (k' =? k) eqn:E; [|exact HC].
      replace k' with k in * by lia. rewrite Hl in HC. exact HC.
    - split; exact I.
    - apply (agree_at k l disk _ _ HA); [|intros v'; rewrite !d_get_set_eq; auto].
      intros k' Hne. split; apply d_get_set_neq; exact Hne.
  Qed.

  Definition StInv (st : tstate) : Prop :=
    Linv (t_disk st) (pending st ++ pcq (t_pc st)) (t_loaded st) (t_waiting st)
         (cur_op (t_pc st) ++ t_prog st) (vouts (t_pc st) (t_outs st)) /\
    pc_ok (t_waiting st) (t_pc st).
  Definition AliveInv (st : tstate) : Prop := dead st = false /\ StInv st.

  Lemma AliveInv_init : wf [] prog0 = true -> AliveInv (init prog0).
  Proof.
    intros Hwf. split; [reflexivity|]. split; [|exact I]. split; try exact I; try assumption; try reflexivity.
    - intros k. reflexivity.
    - intros k v H. discriminate.
  Qed.

  (* for fail_at = None only: a task that raises ends `dead st = false`, and Linv does not speak of the states after
     it *)
  Lemma worker_AliveInv st st' : AliveInv st -> worker_step None st = Some st' -> AliveInv st'.
  Proof.
    destruct st as [disk q u s n l w pc prog outs]. unfold AliveInv, StInv, worker_step, dead, pending.
    cbn [t_status t_queue t_unfinished t_started t_disk t_loaded t_waiting t_pc t_prog t_outs].
    intros (Hal & H & Hpc). destruct s as [|t| |]; try discriminate.
    - destruct q as [|t q']; [discriminate|]. intros [= <-]. split; [reflexivity|split; [exact H|exact Hpc]].
    - destruct (Linv_run_task H) as (l' & -> & H'). intros [= <-]. split; [reflexivity|split; [exact H'|exact Hpc]].
  Qed.

  Lemma put_done_StInv st t c : t_pc st = PPut t c -> StInv st -> StInv (continue (enqueue st t) c).
  Proof.
    unfold StInv. intros Epc H. rewrite Epc in H.
    destruct c; unfold pending in *; projs; cbn [pcq cur_op vouts pc_ok] in *; rewrite app_nil_r, app_assoc; exact H.
  Qed.

  Lemma put_StInv qmax st t c : dead st = false -> StInv (set_pc st (PPut t c)) -> StInv (do_put qmax st t c).
  Proof.
    intros Hal H. rewrite do_put_alive by exact Hal.
    destruct (has_space qmax st); [apply put_done_StInv; [reflexivity|exact H]|exact H].
  Qed.

  Lemma StInv_quiet st : pcq (t_pc st) = [] ->
    Linv (t_disk st) (pending st) (t_loaded st) (t_waiting st) (cur_op (t_pc st) ++ t_prog st)
         (vouts (t_pc st) (t_outs st)) -> pc_ok (t_waiting st) (t_pc st) -> StInv st.
  Proof. unfold StInv. intros -> H Hpc. rewrite app_nil_r. split; assumption. Qed.

  Lemma finish_load_StInv st k : Linv (t_disk st) (pending st) (t_loaded st) (t_waiting st) (SLoad k :: t_prog st) (t_outs st) ->
    d_has k (t_loaded st) = true -> StInv (finish_load st k).
  Proof.
    unfold finish_load. intros H Hl. destruct (d_hasP k (t_loaded st)) as [v Hg|Hg]; [rewrite Hg|discriminate].
    apply StInv_quiet; [reflexivity|exact (Linv_finish_load H Hg)|exact I].
  Qed.

  Lemma start_op_StInv qmax st op : dead st = false ->
    Linv (t_disk st) (pending st) (t_loaded st) (t_waiting st) (op :: t_prog st) (t_outs st) ->
    StInv (start_op qmax st op).
  Proof.
    intros Hal H. pose proof (Linv_wf_head H) as Hk. pose proof (L_count _ _ _ _ _ _ H) as HC.
    destruct op as [k|k|k v|k]; cbn [start_op].
    - destruct (negb _ && negb _) eqn:Ec.
      + apply andb_true_iff in Ec. destruct Ec as [E1 E2]. apply negb_true_iff in E1, E2.
        apply put_StInv; [exact Hal|]. split; [exact (Linv_put_load k H Hk E1 E2)|].
        projs. cbn [pc_ok]. rewrite ks_mem_add, Z.eqb_refl. reflexivity.
      + apply StInv_quiet; [reflexivity|exact H|]. projs. cbn [pc_ok]. specialize (HC k).
        destruct (d_has k (t_loaded st)), (ks_mem k (t_waiting st)); cbn in *; try reflexivity; try discriminate; lia.
    - destruct (_ || _) eqn:Ec.
      + apply StInv_quiet; [reflexivity|exact (Linv_finish (SPreload k) H eq_refl)|exact I].
      + apply orb_false_iff in Ec. destruct Ec as [E2 E1].
        apply put_StInv; [exact Hal|]. split; [|exact I].
        exact (Linv_finish (SPreload k) (Linv_put_load k H Hk E1 E2) eq_refl).
    - destruct (ks_mem k _) eqn:Ec.
      + rewrite Hal. apply StInv_quiet; [reflexivity|exact H|exact Ec].
      + apply put_StInv; [exact Hal|]. split; [|exact I].
        apply (Linv_put_write (SSave k v) (TSave k v) k H); try reflexivity; [intros; apply d_get_set_neq; assumption|].
        left. specialize (HC k). rewrite Ec in HC. destruct (d_has k (t_loaded st)); cbn [Nat.b2n] in HC; [lia|]. split; [lia|reflexivity].
    - apply put_StInv; [exact Hal|]. split; [|exact I].
      apply (Linv_put_write (SDelete k) (TDelete k) k H); try reflexivity; [intros; apply d_get_del_neq; assumption|].
      right. cbn [spec_m]. rewrite d_has_del, Z.eqb_refl. reflexivity.
  Qed.

  Lemma caller_StInv qmax st st' : t_unfinished st = length (pending st) -> dead st = false -> StInv st ->
    caller_step qmax st = Some st' -> StInv st'.
  Proof.
    intros HU Hal HI. assert (H := HI). destruct H as [H Hpc]. unfold caller_step. rewrite Hal.
    destruct (t_pc st) as [|t c|k|k|k v] eqn:Epc; cbn [pcq cur_op vouts pc_ok app] in H, Hpc;
      try rewrite app_nil_r in H.
    - destruct (t_prog st) as [|op rest] eqn:Epr; [discriminate|]. intros [= <-].
      apply start_op_StInv; [exact Hal|exact H].
    - destruct (has_space qmax st); [|discriminate]. intros [= <-]. apply put_done_StInv; assumption.
    - intros [= <-]. destruct (d_has k _) eqn:Ec; [apply finish_load_StInv; assumption|].
      apply StInv_quiet; [reflexivity|exact H|exact Hpc].
    - (* Queue.join has returned, so the value is there *)
      destruct (Nat.eqb _ 0) eqn:Eu; [|discriminate]. intros [= <-]. apply Nat.eqb_eq in Eu.
      apply finish_load_StInv; [exact H|]. pose proof (L_count _ _ _ _ _ _ H k) as HC.
      rewrite Eu in HU. symmetry in HU. apply length_zero_iff_nil in HU. rewrite HU, Hpc in HC.
      destruct (d_has k _); [reflexivity|discriminate].
    - destruct (Nat.eqb _ 0) eqn:Eu; [|discriminate]. intros [= <-]. apply Nat.eqb_eq in Eu.
      rewrite Eu in HU. symmetry in HU. apply length_zero_iff_nil in HU. rewrite HU in H.
      pose proof (L_count _ _ _ _ _ _ H k) as HC. rewrite Hpc in HC.
      destruct (d_hasP k (t_loaded st)) as [v0 Eg|Eg]; [rewrite Eg|discriminate].
      apply app_eq_nil in HU. destruct HU as [Er Eq].
      rewrite do_put_alive, space_when_empty by assumption.
      unfold StInv, pending in *. projs. cbn [pcq cur_op vouts pc_ok app]. rewrite Eq, app_nil_r.
      destruct (t_status st); try discriminate;
        (split; [|exact I]); exact (Linv_save_joined H (d_get_has _ _ _ Eg)).
  Qed.

  Lemma step_AliveInv qmax st c : Binv st -> AliveInv st -> AliveInv (lts_step qmax None st c).
  Proof.
    intros [HU _] [Hal H]. unfold lts_step. destruct c.
    - destruct (caller_step qmax st) as [st'|] eqn:E; [|split; assumption]. split.
      + unfold dead. rewrite (proj1 (caller_cframe qmax st st' E)). exact Hal.
      + exact (caller_StInv qmax st st' HU Hal H E).
    - destruct (worker_step None st) as [st'|] eqn:E; [|split; assumption].
      exact (worker_AliveInv st st' (conj Hal H) E).
  Qed.

  Lemma run_AliveInv qmax sched : forall st, Binv st -> AliveInv st -> AliveInv (lts_run qmax None sched st).
  Proof.
    unfold lts_run. induction sched as [|c t IH]; intros st HB H; cbn [fold_left]; [exact H|].
    apply IH; [apply step_Binv; exact HB|apply step_AliveInv; assumption].
  Qed.
End Linv.

Lemma threaded_linearizable : forall qmax prog sched, wf [] prog = true ->
  let st := lts_run qmax None sched (init prog) in
  dead st = false /\
  rev (t_outs st) = firstn (length (t_outs st)) (spec_outs [] prog) /\
  (caller_finished st = true -> rev (t_outs st) = spec_outs [] prog).
Proof.
  intros qmax prog sched Hwf st.
  assert (H : AliveInv prog st) by (apply run_AliveInv; [apply Binv_init|apply AliveInv_init; exact Hwf]).
  destruct H as [Hal [[_ _ _ HJ _] _]].
  split; [exact Hal|]. split.
  - assert (Ho : exists y, rev (vouts (t_pc st) (t_outs st)) = rev (t_outs st) ++ y).
    { destruct (t_pc st) as [|t [|k]| | |]; try (exists []; symmetry; apply app_nil_r). exists [TOk]. reflexivity. }
    destruct Ho as [y Ho]. rewrite Ho, <- app_assoc in HJ.
    rewrite <- HJ, <- rev_length, firstn_app, firstn_all, Nat.sub_diag. cbn [firstn]. rewrite app_nil_r. reflexivity.
  - unfold caller_finished. destruct (t_pc st) eqn:E1; try discriminate.
    destruct (t_prog st) eqn:E2; try discriminate. intros _.
    cbn [cur_op vouts app spec_outs] in HJ. rewrite app_nil_r in HJ. exact HJ.
Qed.

Lemma spec_outs_app a : forall m b,
  spec_outs m (a ++ b) = spec_outs m a ++ spec_outs (fold_left spec_m a m) b.
Proof.
  induction a as [|op t IH]; intros m b; cbn [app spec_outs fold_left]; [reflexivity|].
  rewrite IH. reflexivity.
Qed.

Lemma spec_no_write k mid : forallb (fun op => negb (s_writes k op)) mid = true ->
  forall m, d_get k (fold_left spec_m mid m) = d_get k m.
Proof.
  induction mid as [|op t IH]; intros H m; cbn [fold_left]; [reflexivity|].
  cbn [forallb] in H. apply andb_true_iff in H. destruct H as [H1 H2]. rewrite (IH H2).
  destruct op as [k'|k'|k' v'|k']; cbn [spec_m s_writes negb] in *; try reflexivity.
  - apply d_get_set_neq. destruct (k' =? k) eqn:E; [discriminate|lia].
  - apply d_get_del_neq. destruct (k' =? k) eqn:E; [discriminate|lia].
Qed.

(* spec_m is d_step of Model/Cache.v under other names for the operations and outputs: this and the two lemmas before
   it are dict_latest_write, d_run_no_write, d_run_app of CacheP.v over them *)
Lemma spec_latest_save pre k v mid : forallb (fun op => negb (s_writes k op)) mid = true ->
  last (spec_outs [] (pre ++ SSave k v :: mid ++ [SLoad k])) TOk = TVal v.
Proof.
  intros H. rewrite spec_outs_app. cbn [spec_outs]. rewrite spec_outs_app. cbn [spec_outs spec_out].
  rewrite (spec_no_write k mid H). cbn [spec_m]. rewrite d_get_set_eq.
  rewrite app_comm_cons, app_assoc. apply last_last.
Qed.

Lemma wf_app a : forall m b, wf m (a ++ b) = wf m a && wf (fold_left spec_m a m) b.
Proof.
  induction a as [|op t IH]; intros m b; cbn [app wf fold_left]; [reflexivity|].
  rewrite IH. rewrite andb_assoc. reflexivity.
Qed.

Definition LogInv (s : list (Z * Z) * list s_op) : Prop :=
  wf [] (snd s) = true /\ fold_left spec_m (snd s) [] = fst s.

Lemma log_snoc s op : LogInv s ->
  (match op with SLoad k | SPreload k | SDelete k => d_has k (fst s) = true | SSave _ _ => True end) ->
  LogInv (spec_m (fst s) op, snd s ++ [op]).
Proof.
  intros [H1 H2] Hop. unfold LogInv. cbn [fst snd]. rewrite wf_app, fold_left_app, H1, H2.
  cbn [fold_left wf andb]. split; [|reflexivity]. rewrite andb_true_r.
  destruct op; try exact Hop. reflexivity.
Qed.

(* the contract of Model/Cache.v asks a storage to behave only on stored keys; the log stays well-formed under exactly
   those calls, so it is an invariant in the sense of the contract and the refinement of CacheP.v carries it along *)
Lemma log_storage_ok : storage_ok log_storage (fun s k => d_get k (fst s)) LogInv.
Proof.
  apply (storage_ok_proj log_storage fst); cbn [log_storage s_load s_save s_delete s_preload fst snd].
  - reflexivity.
  - intros s k HL Hk. split; [exact (log_snoc s (SLoad k) HL Hk)|split; reflexivity].
  - intros s k v HL. split; [exact (log_snoc s (SSave k v) HL I)|reflexivity].
  - intros s k HL Hk. split; [exact (log_snoc s (SDelete k) HL Hk)|reflexivity].
  - intros s k HL Hk. split; [exact (log_snoc s (SPreload k) HL Hk)|reflexivity].
Qed.

Lemma dictcache_calls_wellformed : forall ops, wf [] (calls_of ops) = true.
Proof.
  intros ops. unfold calls_of.
  destruct (run_refines log_storage _ _ log_storage_ok ops (c_empty ([], [])) []) as (_ & _ & H & _).
  - apply Rel_empty. split; reflexivity.
  - apply H.
Qed.
