(* Model/TruncBook.v (property C15) over Q: the renormalisation of svd_theta / eigh_rho around ANY mask (svd_book_any,
   eigh_core: the laws of sumQ over select, then `field`), the same with the mask of truncate (sel_select: the two sums of
   Model/Truncate.v are the weights of the selected and of the other entries). *)
From TenpyV Require Import Base.Prelude Model.Truncate Model.TruncBook Proofs.TruncateP.
From Coq Require Import QArith.
Open Scope Q_scope.

Lemma Forall2_map_l {A B} (P : B -> A -> Prop) (f : A -> B) l :
  (forall x, P (f x) x) -> Forall2 P (map f l) l.
Proof. intros H. induction l as [|x t IH]; cbn [map]; constructor; [apply H|exact IH]. Qed.

Lemma Forall2_map_r {A B C} (P : A -> C -> Prop) (f : B -> C) l : forall k,
  Forall2 P l (map f k) -> Forall2 (fun a b => P a (f b)) l k.
Proof.
  induction l as [|a l IH]; intros [|b k] H; cbn [map] in H; inversion H; subst; constructor;
    [assumption|apply IH; assumption].
Qed.

Lemma select_map {A B} (f : A -> B) m : forall l, select m (map f l) = map f (select m l).
Proof.
  induction m as [|b m IH]; intros [|x t]; cbn [select map]; try reflexivity.
  destruct b; cbn [map]; rewrite IH; reflexivity.
Qed.

Lemma select_length_le {A} m : forall l : list A, (length (select m l) <= length l)%nat.
Proof.
  induction m as [|b m IH]; intros [|x t]; cbn [select length]; try lia.
  destruct b; cbn [length]; specialize (IH t); lia.
Qed.

Lemma sumQ_ext {A} (f g : A -> Q) l : (forall x, f x == g x) -> sumQ (map f l) == sumQ (map g l).
Proof. intros H. induction l as [|x t IH]; cbn [map sumQ]; [reflexivity|]. rewrite IH, H. reflexivity. Qed.

Lemma sumQ_app l1 l2 : sumQ (l1 ++ l2) == sumQ l1 + sumQ l2.
Proof. induction l1 as [|x t IH]; cbn [app sumQ]; [ring|]. rewrite IH. ring. Qed.

Lemma sumQ_scale c l : sumQ (map (fun x => x * c) l) == sumQ l * c.
Proof. induction l as [|x t IH]; cbn [map sumQ]; [ring|]. rewrite IH. ring. Qed.

Lemma sumQ_select_div m c l : sumQ (select m (map (fun x => x / c) l)) == sumQ (select m l) / c.
Proof. rewrite select_map. apply sumQ_scale. Qed.

Lemma sumQ_sq_scale c l : sumQ (map qsq (map (fun x => x * c) l)) == sumQ (map qsq l) * (c * c).
Proof. induction l as [|x t IH]; cbn [map sumQ]; [ring|]. rewrite IH. unfold qsq. ring. Qed.

Lemma sumQ_split m : forall l, length m = length l ->
  sumQ (select m l) + sumQ (select (nmask m) l) == sumQ l.
Proof.
  induction m as [|b m IH]; intros [|x t] H; cbn [length] in H; try discriminate;
    cbn [nmask map select sumQ]; [ring|].
  assert (IHt := IH t ltac:(lia)). unfold nmask in IHt.
  destruct b; cbn [negb sumQ]; rewrite <- IHt; ring.
Qed.

Lemma sumQ_inj l : sumQ (map inject_Z l) == inject_Z (sumZ l).
Proof.
  induction l as [|x t IH]; cbn [map sumQ sumZ]; [reflexivity|].
  rewrite inject_Z_plus, IH. reflexivity.
Qed.

Lemma qsq_inj x : qsq (inject_Z x) == inject_Z (sq x).
Proof. unfold qsq, sq. rewrite inject_Z_mult. reflexivity. Qed.

Lemma sumQ_sq_inj l : sumQ (map qsq (map inject_Z l)) == inject_Z (sumZ (map sq l)).
Proof.
  rewrite map_map, (sumQ_ext _ (fun x => inject_Z (sq x))) by (intros x; apply qsq_inj).
  rewrite <- (map_map sq inject_Z). apply sumQ_inj.
Qed.

Lemma inj_pos z : (0 < z)%Z -> 0 < inject_Z z.
Proof. intros H. change 0 with (inject_Z 0). rewrite <- Zlt_Qlt. exact H. Qed.

Lemma pos_neq0 q : 0 < q -> ~ q == 0.
Proof. intros H E. rewrite E in H. exact (Qlt_irrefl _ H). Qed.

Lemma share_neq0 a b : (0 < a)%Z -> (0 < b)%Z -> ~ inject_Z a / inject_Z b == 0.
Proof.
  intros Ha Hb. apply pos_neq0, Qlt_shift_div_l; [apply inj_pos, Hb|]. rewrite Qmult_0_l. apply inj_pos, Ha.
Qed.

Lemma sq_neq0 q : ~ q == 0 -> ~ q * q == 0.
Proof. intros H E. apply Qmult_integral in E. tauto. Qed.

Lemma svd_book_any S0 r mask nn :
  length mask = length S0 -> ~ r == 0 -> ~ nn == 0 ->
  r * r == sumQ (map qsq S0) ->
  nn * nn == sumQ (map qsq (select mask (map (fun x => x / r) S0))) ->
  let out := svd_theta_book S0 r mask nn in
  Forall2 (fun s x => s * so_renorm out == x) (so_S out) (select mask S0) /\
  sumQ (map qsq (so_S out)) == 1 /\
  so_eps out == sumQ (map qsq (select (nmask mask) S0)) / sumQ (map qsq S0) /\
  qsq (so_renorm out) == sumQ (map qsq (select mask S0)) /\
  so_eps out == 1 - qsq (so_renorm out) / (r * r).
Proof.
  intros Hlen Hr0 Hn0 Hr Hnn out.
  assert (E1 : Forall2 (fun s x => s * so_renorm out == x) (so_S out) (select mask S0)).
  { unfold out, svd_theta_book. cbn [so_S so_renorm]. rewrite select_map, map_map.
    apply Forall2_map_l. intros x. field. split; assumption. }
  assert (E2 : sumQ (map qsq (so_S out)) == 1).
  { unfold out, svd_theta_book. cbn [so_S]. unfold Qdiv at 1.
    rewrite (sumQ_sq_scale (/ nn)). rewrite <- Hnn. field. exact Hn0. }
  assert (E3 : so_eps out == sumQ (map qsq (select (nmask mask) S0)) / sumQ (map qsq S0)).
  { unfold out, svd_theta_book. cbn [so_eps]. unfold Qdiv at 1. rewrite select_map.
    rewrite (sumQ_sq_scale (/ r)). rewrite <- Hr. field. exact Hr0. }
  assert (E4 : qsq (so_renorm out) == sumQ (map qsq (select mask S0))).
  { unfold out, svd_theta_book. cbn [so_renorm]. unfold Qdiv in Hnn. rewrite select_map in Hnn.
    rewrite (sumQ_sq_scale (/ r)) in Hnn.
    setoid_replace (qsq (r * nn)) with (r * r * (nn * nn)) by (unfold qsq; ring).
    rewrite Hnn. field. exact Hr0. }
  split; [exact E1|]. split; [exact E2|]. split; [exact E3|]. split; [exact E4|].
  rewrite E3, E4, Hr.
  assert (Hs := sumQ_split mask (map qsq S0) ltac:(rewrite map_length; exact Hlen)).
  rewrite !select_map in Hs.
  assert (HT : ~ sumQ (map qsq S0) == 0) by (rewrite <- Hr; apply sq_neq0; exact Hr0).
  revert HT. rewrite <- Hs. intros HT. field. exact HT.
Qed.

Lemma sel_select (b : bool) mask : forall xs,
  sumZ (map (fun mb : bool * Z => if Bool.eqb (fst mb) b then sq (snd mb) else 0%Z) (combine mask xs))
  = sumZ (map sq (select (if b then mask else nmask mask) xs)).
Proof.
  induction mask as [|h m IH]; intros [|x t]; try (destruct b; reflexivity).
  specialize (IH t).
  destruct b, h; cbn [combine map sumZ fst snd Bool.eqb nmask negb select] in *; rewrite IH; reflexivity.
Qed.

Lemma norm2_Q xs o :
  sumQ (map qsq (select (r_mask (truncate xs o)) (map inject_Z xs))) == inject_Z (r_norm2 (truncate xs o)).
Proof. rewrite select_map, sumQ_sq_inj, <- (sel_select true). reflexivity. Qed.

Lemma eps_Q xs o :
  sumQ (map qsq (select (nmask (r_mask (truncate xs o))) (map inject_Z xs))) == inject_Z (r_eps (truncate xs o)).
Proof. rewrite select_map, sumQ_sq_inj, <- (sel_select false). reflexivity. Qed.

Lemma svd_book_truncate xs o r nn :
  let S0 := map inject_Z xs in
  let mask := r_mask (truncate xs o) in
  ~ r == 0 -> ~ nn == 0 ->
  r * r == inject_Z (sumZ (map sq xs)) ->
  nn * nn == sumQ (map qsq (select mask (map (fun x => x / r) S0))) ->
  let out := svd_theta_book S0 r mask nn in
  Forall2 (fun s x => s * so_renorm out == x) (so_S out) (select mask S0) /\
  sumQ (map qsq (so_S out)) == 1 /\
  so_eps out == inject_Z (r_eps (truncate xs o)) / inject_Z (sumZ (map sq xs)) /\
  qsq (so_renorm out) == inject_Z (r_norm2 (truncate xs o)) /\
  so_eps out == 1 - qsq (so_renorm out) / (r * r).
Proof.
  intros S0 mask Hr0 Hn0 Hr Hnn out.
  assert (Hlen : length mask = length S0) by (unfold mask, S0; rewrite mask_length, map_length; reflexivity).
  assert (Hr' : r * r == sumQ (map qsq S0)) by (unfold S0; rewrite sumQ_sq_inj; exact Hr).
  destruct (svd_book_any S0 r mask nn Hlen Hr0 Hn0 Hr' Hnn) as [E1 [E2 [E3 [E4 E5]]]].
  fold out in E1, E2, E3, E4, E5.
  split; [exact E1|]. split; [exact E2|]. split; [|split; [|exact E5]].
  - rewrite E3. unfold S0, mask. rewrite eps_Q, sumQ_sq_inj. reflexivity.
  - rewrite E4. unfold S0, mask. apply norm2_Q.
Qed.

Lemma svd_book_sq_ok xs mask : length mask = length xs ->
  (0 < sumZ (map sq xs))%Z -> (0 < sumZ (map sq (select mask xs)))%Z ->
  Forall2 (fun s x => s * snd (fst (svd_book_sq xs mask)) == inject_Z (sq x))
          (fst (fst (svd_book_sq xs mask))) (select mask xs) /\
  sumQ (fst (fst (svd_book_sq xs mask))) == 1 /\
  snd (svd_book_sq xs mask) == inject_Z (sumZ (map sq (select (nmask mask) xs))) / inject_Z (sumZ (map sq xs)) /\
  snd (fst (svd_book_sq xs mask)) == inject_Z (sumZ (map sq (select mask xs))).
Proof.
  intros Hlen HT HK. unfold svd_book_sq. cbn [fst snd].
  set (R2 := inject_Z (sumZ (map sq xs))).
  assert (HR : ~ R2 == 0) by (apply pos_neq0, inj_pos; exact HT).
  assert (Hsel : forall m, sumQ (select m (map (fun x => inject_Z (sq x) / R2) xs))
                           == inject_Z (sumZ (map sq (select m xs))) / R2).
  { intros m. rewrite <- (map_map (fun x => inject_Z (sq x)) (fun q => q / R2)), sumQ_select_div.
    rewrite <- (map_map sq inject_Z), !select_map, sumQ_inj. reflexivity. }
  set (nn2 := sumQ (select mask (map (fun x => inject_Z (sq x) / R2) xs))).
  assert (Hnn2 : nn2 == inject_Z (sumZ (map sq (select mask xs))) / R2) by apply Hsel.
  assert (Hn0 : ~ nn2 == 0) by (rewrite Hnn2; apply share_neq0; assumption).
  split; [|split; [|split]].
  - rewrite select_map, map_map.
    apply Forall2_map_l. intros x. field. split; assumption.
  - unfold Qdiv at 1. rewrite sumQ_scale. fold nn2. field. exact Hn0.
  - apply Hsel.
  - rewrite Hnn2. field. exact HR.
Qed.

(* n2 stands for new_norm**2; it is a variable because eigh_book_z_ok has an n2 that is not given as a square *)
Lemma eigh_core W0 mask n2 :
  length mask = length W0 -> ~ sumQ W0 == 0 -> ~ n2 == 0 ->
  n2 == sumQ (select mask (map (fun w => w / sumQ W0) W0)) ->
  let Wn := map (fun w => w / n2 * sumQ W0) (select mask (map (fun w => w / sumQ W0) W0)) in
  let e := sumQ (select (nmask mask) (map (fun w => w / sumQ W0) W0)) in
  sumQ Wn == sumQ W0 /\
  e == sumQ (select (nmask mask) W0) / sumQ W0 /\
  Forall2 (fun w w0 => w * (1 - e) == w0) Wn (select mask W0).
Proof.
  intros Hlen HR Hn0 Hn Wn e. set (R := sumQ W0) in *.
  assert (Hs := sumQ_split mask (map (fun w => w / R) W0) ltac:(rewrite map_length; exact Hlen)).
  fold e in Hs. rewrite <- Hn in Hs.
  assert (H1 : sumQ (map (fun w => w / R) W0) == 1).
  { unfold Qdiv. rewrite sumQ_scale. fold R. field. exact HR. }
  rewrite H1 in Hs.
  split; [|split].
  - unfold Wn. rewrite (sumQ_ext _ (fun w => w * (/ n2 * R))) by (intros w; field; exact Hn0).
    rewrite sumQ_scale, <- Hn. field. exact Hn0.
  - apply sumQ_select_div.
  - assert (He : 1 - e == n2) by (rewrite <- Hs; ring).
    unfold Wn. rewrite select_map, map_map.
    apply Forall2_map_l. intros w. rewrite He. field. split; assumption.
Qed.

Lemma eigh_book_any W0 mask nn :
  length mask = length W0 -> ~ sumQ W0 == 0 -> ~ nn == 0 ->
  nn * nn == sumQ (select mask (map (fun w => w / sumQ W0) W0)) ->
  let out := eigh_rho_book W0 mask nn in
  sumQ (eo_W out) == sumQ W0 /\
  eo_eps out == sumQ (select (nmask mask) W0) / sumQ W0 /\
  Forall2 (fun w w0 => w * (1 - eo_eps out) == w0) (eo_W out) (select mask W0).
Proof. intros Hlen HR Hn0. exact (eigh_core W0 mask (nn * nn) Hlen HR (sq_neq0 nn Hn0)). Qed.

Lemma eigh_book_z_ok ws mask :
  length mask = length ws -> (0 < sumZ ws)%Z -> (0 < sumZ (select mask ws))%Z ->
  sumQ (fst (eigh_book_z ws mask)) == inject_Z (sumZ ws) /\
  snd (eigh_book_z ws mask) == inject_Z (sumZ (select (nmask mask) ws)) / inject_Z (sumZ ws) /\
  Forall2 (fun w w0 => w * (1 - snd (eigh_book_z ws mask)) == inject_Z w0) (fst (eigh_book_z ws mask)) (select mask ws).
Proof.
  intros Hlen HT HK. unfold eigh_book_z. cbn [fst snd].
  set (W0 := map inject_Z ws).
  assert (HR : ~ sumQ W0 == 0) by (unfold W0; rewrite sumQ_inj; apply pos_neq0, inj_pos; exact HT).
  assert (Hl : length mask = length W0) by (unfold W0; rewrite map_length; exact Hlen).
  set (n2 := sumQ (select mask (map (fun w => w / sumQ W0) W0))).
  assert (Hn0 : ~ n2 == 0).
  { unfold n2, W0. rewrite sumQ_select_div, select_map, !sumQ_inj. apply share_neq0; assumption. }
  destruct (eigh_core W0 mask n2 Hl HR Hn0 ltac:(reflexivity)) as [E1 [E2 E3]].
  split; [|split].
  - rewrite E1. unfold W0. apply sumQ_inj.
  - rewrite E2. unfold W0. rewrite select_map, !sumQ_inj. reflexivity.
  - unfold W0 in E3. rewrite (select_map inject_Z mask ws) in E3. exact (Forall2_map_r _ inject_Z _ _ E3).
Qed.

Lemma eigh_book_truncate xs o nn :
  let W0 := map (fun x => inject_Z (sq x)) xs in
  let mask := r_mask (truncate xs o) in
  (0 < sumZ (map sq xs))%Z -> ~ nn == 0 ->
  nn * nn == sumQ (select mask (map (fun w => w / sumQ W0) W0)) ->
  let out := eigh_rho_book W0 mask nn in
  sumQ (eo_W out) == inject_Z (sumZ (map sq xs)) /\
  eo_eps out == inject_Z (r_eps (truncate xs o)) / inject_Z (sumZ (map sq xs)) /\
  Forall2 (fun w w0 => w * (1 - eo_eps out) == w0) (eo_W out) (select mask W0).
Proof.
  intros W0 mask HT Hn0 Hn out.
  assert (HW : sumQ W0 == inject_Z (sumZ (map sq xs))) by (unfold W0; rewrite <- (map_map sq inject_Z); apply sumQ_inj).
  assert (HR : ~ sumQ W0 == 0) by (rewrite HW; apply pos_neq0, inj_pos; exact HT).
  assert (Hlen : length mask = length W0) by (unfold mask, W0; rewrite mask_length, map_length; reflexivity).
  assert (HD : sumQ (select (nmask mask) W0) == inject_Z (r_eps (truncate xs o))).
  { unfold W0, mask. rewrite <- (map_map sq inject_Z), !select_map, sumQ_inj, <- (sel_select false). reflexivity. }
  destruct (eigh_book_any W0 mask nn Hlen HR Hn0 Hn) as [E1 [E2 E3]].
  split; [exact (Qeq_trans _ _ _ E1 HW)|]. split; [|exact E3].
  apply (Qeq_trans _ _ _ E2). rewrite HW, HD. reflexivity.
Qed.

Lemma te_fold_eps l : forall a, te_eps (fold_left te_add l a) == te_eps a + sumQ (map te_eps l).
Proof.
  induction l as [|x t IH]; intros a; cbn [fold_left map sumQ]; [ring|].
  rewrite IH. cbn [te_add te_eps]. ring.
Qed.

Lemma te_fold_ov l : forall a, te_ov (fold_left te_add l a) == te_ov a * prodQ (map te_ov l).
Proof.
  induction l as [|x t IH]; intros a; cbn [fold_left map prodQ]; [ring|].
  rewrite IH. cbn [te_add te_ov]. ring.
Qed.

Lemma te_sum_ok l :
  te_eps (te_sum l) == sumQ (map te_eps l) /\ te_ov (te_sum l) == prodQ (map te_ov l).
Proof.
  unfold te_sum. split; [rewrite te_fold_eps|rewrite te_fold_ov]; cbn [te_zero te_eps te_ov]; ring.
Qed.

Lemma te_sum_app l1 l2 :
  te_eps (te_sum (l1 ++ l2)) == te_eps (te_sum l1) + te_eps (te_sum l2).
Proof.
  destruct (te_sum_ok (l1 ++ l2)) as [-> _]. destruct (te_sum_ok l1) as [-> _]. destruct (te_sum_ok l2) as [-> _].
  rewrite map_app. apply sumQ_app.
Qed.

Lemma te_from_norm_from_S nn no disc :
  ~ no == 0 -> no * no == nn * nn + sumQ (map qsq disc) ->
  te_eps (te_from_norm nn no) == te_eps (te_from_S disc (Some no)) /\
  te_ov (te_from_norm nn no) == te_ov (te_from_S disc (Some no)).
Proof.
  intros H0 H. unfold te_from_norm, te_from_S.
  destruct (Qeq_bool no 0) eqn:E; [apply Qeq_bool_iff in E; contradiction|].
  assert (HD : sumQ (map qsq disc) == no * no - nn * nn) by (rewrite H; ring).
  assert (He : 1 - nn * nn / (no * no) == sumQ (map qsq disc) / (no * no)) by (rewrite HD; field; exact H0).
  cbn [te_make te_eps te_ov]. split; [exact He|]. rewrite He. reflexivity.
Qed.

(* normalised old state (norm_old = 1, the default of from_norm; from_S without norm_old) *)
Lemma te_from_norm_from_S_1 nn disc :
  1 == nn * nn + sumQ (map qsq disc) ->
  te_eps (te_from_norm nn 1) == te_eps (te_from_S disc None) /\
  te_ov (te_from_norm nn 1) == te_ov (te_from_S disc None).
Proof.
  intros H. unfold te_from_norm, te_from_S. cbn [te_make te_eps te_ov].
  assert (He : 1 - nn * nn / (1 * 1) == sumQ (map qsq disc)).
  { assert (HD : sumQ (map qsq disc) == 1 - nn * nn) by (rewrite H; ring). rewrite HD. field. }
  split; [exact He|]. rewrite He. reflexivity.
Qed.
