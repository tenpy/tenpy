(* Model/StoreMpsObj.v: the body of MPS._gauge_compatible_vL_vR is admissible for every object that existed before the
   call, because the copy gets its own list first (m._B = m._B[:], own_list_unshares). *)
From TenpyV Require Import Base.Prelude Model.Store Model.StoreMpsObj Proofs.StoreP.
Open Scope nat_scope.

Lemma lupd_upd {A} (l : list A) i v : lupd l i v = upd l i v.
Proof. reflexivity. Qed.

Lemma lref_lt h m : owf h -> m < length (mobj h) -> lref h m < length (lsts h).
Proof. intros Hwf Hm. apply (proj1 (Forall_nth _ _) Hwf m 0 Hm). Qed.

Lemma cwf_preserved h o : owf h -> cop_ok h o -> owf (cexec h o).
Proof.
  intros Hwf Hok. destruct o as [m|m|m i t|m ts|m ts]; cbn [cop_ok] in Hok; unfold owf in *; cbn [cexec lsts mobj]; rewrite ?lupd_upd.
  - apply Forall_app. split; [exact Hwf|]. constructor; [|constructor]. apply lref_lt; assumption.
  - rewrite app_length. cbn [length]. apply Forall_upd; [|lia].
    eapply Forall_impl; [|exact Hwf]. cbn beta. intros; lia.
  - rewrite upd_length. exact Hwf.
  - rewrite upd_length. exact Hwf.
  - rewrite app_length. cbn [length]. eapply Forall_impl; [|exact Hwf]. cbn beta. intros; lia.
Qed.

Lemma clen_mono h o : length (mobj h) <= length (mobj (cexec h o)).
Proof.
  destruct o; cbn [cexec mobj]; rewrite ?lupd_upd; try lia.
  - rewrite app_length. lia.
  - rewrite upd_length. lia.
Qed.

Lemma container_frame h o x : owf h -> cop_ok h o -> x < length (mobj h) ->
  match cwriter o with Some m => shares_list h x m = false | None => True end ->
  B_of (cexec h o) x = B_of h x.
Proof.
  intros Hwf Hok Hx Hsh. pose proof (lref_lt h x Hwf Hx) as Hr.
  destruct o as [m|m|m i t|m ts|m ts]; cbn [cop_ok cwriter] in *; unfold B_of, lref in *; cbn [cexec lsts mobj]; rewrite ?lupd_upd.
  - rewrite app_nth1 by exact Hx. reflexivity.
  - destruct (Nat.eq_dec x m) as [->|Hne].
    + rewrite nth_upd_same by exact Hok. rewrite app_nth2 by lia. rewrite Nat.sub_diag. reflexivity.
    + rewrite nth_upd_other by exact Hne. rewrite app_nth1 by exact Hr. reflexivity.
  - unfold shares_list, lref in Hsh. apply Nat.eqb_neq in Hsh. rewrite nth_upd_other by exact Hsh. reflexivity.
  - unfold shares_list, lref in Hsh. apply Nat.eqb_neq in Hsh. rewrite nth_upd_other by exact Hsh. reflexivity.
  - rewrite app_nth1 by exact Hr. reflexivity.
Qed.

Lemma chistory_frame : forall os h x, owf h -> x < length (mobj h) -> cadm h x os -> B_of (crun h os) x = B_of h x.
Proof.
  induction os as [|o t IH]; intros h x Hwf Hx Hadm; cbn [crun]; [reflexivity|].
  cbn [cadm] in Hadm. destruct Hadm as (Hok & Hsh & Ht).
  rewrite IH; [apply container_frame; assumption|apply cwf_preserved; assumption| |exact Ht].
  pose proof (clen_mono h o). lia.
Qed.

Lemma own_list_unshares h m x : owf h -> m < length (mobj h) -> x < length (mobj h) -> x <> m ->
  shares_list (cexec h (COwnList m)) x m = false.
Proof.
  intros Hwf Hm Hx Hne. unfold shares_list, lref. cbn [cexec mobj]. rewrite lupd_upd. apply Nat.eqb_neq.
  rewrite nth_upd_same by exact Hm. rewrite nth_upd_other by exact Hne.
  pose proof (lref_lt h x Hwf Hx) as Hr. unfold lref in Hr. lia.
Qed.

Lemma set_items_adm : forall writes h c x, c < length (mobj h) -> shares_list h x c = false -> cadm h x (set_items c writes).
Proof.
  induction writes as [|w t IH]; intros h c x Hc Hsh; cbn [set_items map cadm]; [exact I|].
  split; [exact Hc|]. split; [exact Hsh|]. apply IH; cbn [cexec mobj]; [exact Hc|].
  unfold shares_list, lref in *. cbn [cexec mobj]. exact Hsh.
Qed.

Lemma gauge_prog_adm h other writes x : owf h -> other < length (mobj h) -> x < length (mobj h) ->
  cadm h x (gauge_prog other (length (mobj h)) writes).
Proof.
  intros Hwf Ho Hx. unfold gauge_prog. cbn [cadm cwriter cop_ok].
  assert (Hwf1 : owf (cexec h (CShallow other))) by (apply cwf_preserved; assumption).
  assert (Hlen1 : length (mobj (cexec h (CShallow other))) = S (length (mobj h))).
  { cbn [cexec mobj]. rewrite app_length. cbn [length]. lia. }
  split; [exact Ho|]. split; [exact I|]. split; [lia|]. split; [exact I|].
  apply set_items_adm.
  - cbn [cexec mobj]. rewrite upd_length, app_length. cbn [length]. lia.
  - apply own_list_unshares; [exact Hwf1|lia|lia|lia].
Qed.
