(* The charge look-up of tensordot never drops a block: for well-formed operands the filter is the identity. *)
From TenpyV Require Import Base.Prelude Base.Lists Model.Charge Model.Tensor Model.TensorOps Model.TensorCheck Model.TensorDot Model.TensorDotFilter.
From TenpyV Require Import Proofs.TensorP Proofs.TensorDotP.
Open Scope Z_scope.

Lemma row_okb_ok ci ls qt r : row_okb ci ls qt r = true -> row_ok ci ls qt r.
Proof. apply row_okb_iff. Qed.

Theorem tensordot_filter_id ci k a b : WF ci a -> WF ci b -> (k <= rank a)%nat -> (k <= rank b)%nat ->
  Forall2 (contractible ci) (skipn (rank a - k) (legs a)) (firstn k (legs b)) ->
  tensordot_filtered ci k a b = tensordot ci k a b.
Proof.
  intros Wa Wb Hka Hkb HF. pose proof (wf_tensordot ci k a b Wa Wb Hka Hkb HF) as W.
  unfold tensordot_filtered. rewrite filter_all; [reflexivity|].
  intros blk Hblk. apply row_okb_iff, (wf_rule ci _ W), in_map, Hblk.
Qed.

(* an array violating the charge rule, on which the look-up drops a contribution *)
Definition nf_leg : leg := mkLeg [1%nat] [[0]] 1.
Definition nf_a : arr := mkArr [nf_leg; conj_leg nf_leg] [1] [([0%nat; 0%nat], fun _ => (1, 0))] true.
