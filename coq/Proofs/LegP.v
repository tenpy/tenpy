(* Model/Leg.v (C06).  A list of sizes >= 0 is a bijection between (block j, position w inside it) and the flat index
   offs j + w: `offs` / `locate`, from which get_qindex.  The lemmas of Proofs/ChargeP.v apply to the constants of
   Model/ChargeL.v by conversion (list_eqb_eq to `veqb`, the make_valid laws to ChargeL.make_valid). *)
From TenpyV Require Import Base.Prelude Base.Lists Model.ChargeL Model.Leg Model.PipeMaps Proofs.ChargeP.
Open Scope Z_scope.

Definition nonneg (szs : list Z) : Prop := Forall (fun s => 0 <= s) szs.

Lemma offs_nil j : offs [] j = 0.
Proof. destruct j; reflexivity. Qed.

Lemma offs_0 szs : offs szs 0 = 0.
Proof. destruct szs; reflexivity. Qed.

Lemma offs_cons s t j : offs (s :: t) (S j) = s + offs t j.
Proof. reflexivity. Qed.

Lemma offs_nonneg szs : nonneg szs -> forall j, 0 <= offs szs j.
Proof. induction 1 as [|s t Hs _ IH]; intros [|j]; cbn [offs]; [lia ..|]. specialize (IH j). lia. Qed.

Lemma offs_step szs : forall j, (j < length szs)%nat -> offs szs (S j) = offs szs j + nth j szs 0.
Proof.
  induction szs as [|s t IH]; intros [|j] Hj; cbn [length] in Hj; try lia.
  - rewrite offs_cons, !offs_0. cbn [nth]. lia.
  - rewrite !offs_cons, IH by lia. cbn [nth]. lia.
Qed.

Lemma offs_all szs : offs szs (length szs) = sumZ szs.
Proof. induction szs as [|s t IH]; [reflexivity|]. cbn [length]. rewrite offs_cons, IH. reflexivity. Qed.

Lemma offs_le_sum szs : nonneg szs -> forall j, offs szs j <= sumZ szs.
Proof.
  induction 1 as [|s t Hs Ht IH]; intros [|j]; cbn [offs sumZ]; [lia ..| |].
  - pose proof (sumZ_nonneg t Ht). lia.
  - specialize (IH j). lia.
Qed.

Lemma offs_block_le szs : nonneg szs -> forall j, (j < length szs)%nat -> offs szs j + nth j szs 0 <= sumZ szs.
Proof. intros H j Hj. rewrite <- offs_step by exact Hj. apply offs_le_sum, H. Qed.

Lemma offs_app_l a : forall b j, (j <= length a)%nat -> offs (a ++ b) j = offs a j.
Proof.
  induction a as [|x a IH]; intros b j Hj; cbn [length] in Hj.
  - assert (j = 0%nat) by lia. subst j. cbn [app]. destruct b; reflexivity.
  - destruct j as [|j]; [reflexivity|]. cbn [app]. rewrite !offs_cons. rewrite IH by lia. reflexivity.
Qed.

Lemma offs_app_r a : forall b j, (length a <= j)%nat -> offs (a ++ b) j = sumZ a + offs b (j - length a).
Proof.
  induction a as [|x a IH]; intros b j Hj; cbn [length] in Hj.
  - cbn [app sumZ length]. rewrite Nat.sub_0_r. lia.
  - destruct j as [|j]; [lia|]. cbn [app length sumZ]. rewrite offs_cons, IH by lia. cbn [Nat.sub]. lia.
Qed.

Lemma slices_of_nth szs j : (j <= length szs)%nat -> nth j (slices_of szs) 0 = offs szs j.
Proof. intros H. unfold slices_of. apply nth_map_seq. lia. Qed.

Lemma locate_complete szs : nonneg szs -> forall j w, (j < length szs)%nat -> 0 <= w < nth j szs 0 ->
  locate szs (offs szs j + w) = Some (j, w).
Proof.
  induction 1 as [|s t Hs Ht IH]; intros [|j] w Hj Hw; cbn [nth length] in *; try lia; cbn [locate].
  - rewrite offs_0, Z.add_0_l. replace (w <? s) with true by lia. reflexivity.
  - rewrite offs_cons. pose proof (offs_nonneg t Ht j).
    replace (s + offs t j + w <? s) with false by lia.
    replace (s + offs t j + w - s) with (offs t j + w) by lia. rewrite IH by lia. reflexivity.
Qed.

Lemma locate_some szs : nonneg szs -> forall k, 0 <= k < sumZ szs ->
  exists j w, locate szs k = Some (j, w) /\ (j < length szs)%nat /\ 0 <= w < nth j szs 0 /\ k = offs szs j + w.
Proof.
  induction 1 as [|s t Hs Ht IH]; intros k Hk; cbn [sumZ] in Hk; [lia|]. cbn [locate]. destruct (k <? s) eqn:E.
  - exists 0%nat, k. cbn [length nth offs]. repeat split; lia.
  - destruct (IH (k - s) ltac:(lia)) as (j & w & -> & H1 & H2 & H3). exists (S j), w.
    cbn [length nth]. rewrite offs_cons. repeat split; lia.
Qed.

Lemma locate_none szs : nonneg szs -> forall k, sumZ szs <= k -> locate szs k = None.
Proof.
  induction 1 as [|s t Hs Ht IH]; intros k Hk; [reflexivity|].
  cbn [locate]. cbn [sumZ] in Hk. pose proof (sumZ_nonneg t Ht).
  replace (k <? s) with false by lia. rewrite IH by lia. reflexivity.
Qed.

Lemma locate_sound szs : nonneg szs -> forall k j w, 0 <= k -> locate szs k = Some (j, w) ->
  (j < length szs)%nat /\ 0 <= w < nth j szs 0 /\ k = offs szs j + w.
Proof.
  intros Hn k j w Hk E. destruct (Z_lt_le_dec k (sumZ szs)) as [H|H].
  - destruct (locate_some szs Hn k (conj Hk H)) as (j' & w' & E' & R). rewrite E in E'. injection E' as -> ->. exact R.
  - rewrite (locate_none szs Hn k H) in E. discriminate.
Qed.

Lemma bsz_length l : length (bsz l) = nblocks l.
Proof. apply map_length. Qed.

Lemma bsz_nth l i : nth i (bsz l) 0 = fst (blk l i).
Proof. unfold bsz, blk. change 0 with (fst (0, @nil Z)). apply map_nth. Qed.

Lemma blk_overflow l i : (nblocks l <= i)%nat -> blk l i = (0, []).
Proof. apply nth_overflow. Qed.

Lemma blk_nonneg l i : nonneg (bsz l) -> 0 <= fst (blk l i).
Proof.
  intros Hn. destruct (Nat.lt_ge_cases i (nblocks l)) as [H|H]; [|rewrite blk_overflow by exact H; cbn [fst]; lia].
  rewrite <- bsz_nth. rewrite <- bsz_length in H. exact (proj1 (Forall_nth _ _) Hn i 0 H).
Qed.

Lemma map_blk_sizes_nonneg l perm : nonneg (bsz l) -> nonneg (map fst (map (blk l) perm)).
Proof. intros Hn. rewrite map_map. apply Forall_map, Forall_forall. intros i _. apply blk_nonneg, Hn. Qed.

Lemma map_blk_seq l : map (blk l) (seq 0 (nblocks l)) = blocks l.
Proof. apply (map_nth_seq (0, []) (blocks l)). Qed.

Lemma get_qindex_spec l i : nonneg (bsz l) ->
  (- ind_len l <= i < ind_len l ->
     exists q w, get_qindex l i = Some (q, w) /\ (q < nblocks l)%nat /\ 0 <= w < fst (blk l q) /\
                 (if i <? 0 then i + ind_len l else i) = offs (bsz l) q + w) /\
  (i < - ind_len l \/ ind_len l <= i -> get_qindex l i = None).
Proof.
  intros Hn. unfold get_qindex. cbv zeta. set (i' := if i <? 0 then i + ind_len l else i).
  split; intros Hi.
  - assert (Hi' : 0 <= i' < ind_len l) by (subst i'; destruct (i <? 0) eqn:E; lia).
    replace ((i' <? 0) || (ind_len l <=? i')) with false by lia.
    destruct (locate_some (bsz l) Hn i' Hi') as (q & w & E & H1 & H2 & H3).
    rewrite bsz_length in H1. rewrite bsz_nth in H2. exists q, w. auto.
  - pose proof (sumZ_nonneg _ Hn) as Hs. fold (ind_len l) in Hs.
    replace ((i' <? 0) || (ind_len l <=? i')) with true; [reflexivity|].
    subst i'. destruct (i <? 0) eqn:E; lia.
Qed.

Lemma get_qindex_inverse l q w : nonneg (bsz l) -> (q < nblocks l)%nat -> 0 <= w < fst (blk l q) ->
  get_qindex l (offs (bsz l) q + w) = Some (q, w) /\ 0 <= offs (bsz l) q + w < ind_len l.
Proof.
  intros Hn Hq Hw. rewrite <- bsz_length in Hq. rewrite <- bsz_nth in Hw.
  pose proof (offs_nonneg _ Hn q). pose proof (offs_block_le _ Hn q Hq).
  assert (R : 0 <= offs (bsz l) q + w < ind_len l) by (unfold ind_len; lia).
  split; [|exact R]. unfold get_qindex. cbv zeta.
  assert (E : (offs (bsz l) q + w <? 0) = false) by lia.
  assert (E2 : (ind_len l <=? offs (bsz l) q + w) = false) by lia.
  rewrite E. cbv iota. rewrite E, E2. apply locate_complete; assumption.
Qed.

Lemma phys_flip ci q c : phys ci (- q) (make_valid ci (vneg c)) = phys ci q c.
Proof. unfold phys. rewrite make_valid_vscale, vneg_scale, vscale_mul. replace (- q * -1) with q by lia. reflexivity. Qed.

Lemma all2_refl {A} (f : A -> A -> bool) l : (forall x, f x x = true) -> all2 f l l = true.
Proof. intros H. induction l as [|x l IH]; [reflexivity|]. cbn [all2]. rewrite H, IH. reflexivity. Qed.

Lemma leg_equal_same ci a b : blocks a = blocks b -> qc a = qc b -> leg_equal ci a b = true.
Proof.
  unfold leg_equal. intros -> ->. apply all2_refl. intros x. rewrite Z.eqb_refl, list_eqb_refl. reflexivity.
Qed.

Lemma flip_equal ci l : leg_equal ci l (flip_leg ci l) = true.
Proof.
  unfold leg_equal, flip_leg. cbn [blocks qc]. induction (blocks l) as [|b bs IH]; [reflexivity|].
  cbn [map all2 fst snd]. rewrite IH, Z.eqb_refl, phys_flip, list_eqb_refl. reflexivity.
Qed.

Lemma flip_bsz_qc ci l : map fst (blocks (flip_leg ci l)) = map fst (blocks l) /\ qc (flip_leg ci l) = - qc l.
Proof. unfold flip_leg. cbn [blocks qc]. rewrite map_map. cbn [fst]. auto. Qed.

Lemma conj_contractible ci l : contractible ci l (conj_leg l) = true.
Proof. apply leg_equal_same; [reflexivity|]. cbn [conj_leg qc]. lia. Qed.

Lemma conj_contractible_l ci l : contractible ci (conj_leg l) l = true.
Proof. apply leg_equal_same; reflexivity. Qed.

Lemma block_flat_add a b c : 0 <= a -> 0 <= b -> block_flat (a + b, c) = block_flat (a, c) ++ block_flat (b, c).
Proof. intros Ha Hb. unfold block_flat. cbn [fst snd]. rewrite Z2Nat.inj_add by assumption. apply repeat_app. Qed.

Lemma bunch_nonneg bs : nonneg (map fst bs) -> nonneg (map fst (bunch_blocks bs)).
Proof.
  induction bs as [|b t IH]; intros H; [constructor|]. cbn [map] in H. inversion H as [|? ? Hb Ht]; subst.
  specialize (IH Ht). cbn [bunch_blocks]. destruct (bunch_blocks t) as [|b' t']; [repeat constructor; exact Hb|].
  cbn [map] in IH. inversion IH as [|? ? Hb' Ht']; subst.
  destruct (veqb (snd b) (snd b')); cbn [map fst]; repeat constructor; assumption || lia.
Qed.

Lemma bunch_sum bs : sumZ (map fst (bunch_blocks bs)) = sumZ (map fst bs).
Proof.
  induction bs as [|b t IH]; [reflexivity|]. cbn [bunch_blocks map sumZ]. rewrite <- IH.
  destruct (bunch_blocks t) as [|b' t']; [reflexivity|].
  destruct (veqb (snd b) (snd b')); cbn [map sumZ fst]; lia.
Qed.

Lemma bunch_qflat bs : nonneg (map fst bs) -> qflat_blocks (bunch_blocks bs) = qflat_blocks bs.
Proof.
  unfold qflat_blocks. induction bs as [|b t IH]; intros H; [reflexivity|]. cbn [map] in H. inversion H as [|? ? Hb Ht]; subst.
  specialize (IH Ht). pose proof (bunch_nonneg t Ht) as Hn.
  cbn [bunch_blocks flat_map]. rewrite <- IH. destruct (bunch_blocks t) as [|[sb' cb'] t']; [reflexivity|].
  cbn [map] in Hn. inversion Hn as [|? ? Hb' Ht']; subst.
  destruct (veqb (snd b) (snd (sb', cb'))) eqn:V; [|reflexivity].
  apply list_eqb_eq in V. destruct b as [sb cb]. cbn [fst snd flat_map] in *. subst cb'.
  rewrite block_flat_add by assumption. symmetry. apply app_assoc.
Qed.

Fixpoint adj_distinct (bs : list block) : bool :=
  match bs with
  | b :: ((b' :: _) as t) => negb (veqb (snd b) (snd b')) && adj_distinct t
  | _ => true
  end.

Lemma bunch_distinct bs : adj_distinct (bunch_blocks bs) = true.
Proof.
  induction bs as [|b t IH]; [reflexivity|]. cbn [bunch_blocks].
  destruct (bunch_blocks t) as [|b' t'] eqn:E; [reflexivity|].
  destruct (veqb (snd b) (snd b')) eqn:V.
  - destruct t' as [|b'' t'']; [reflexivity|]. cbn [adj_distinct snd] in *.
    apply list_eqb_eq in V. rewrite V. exact IH.
  - cbn [adj_distinct]. rewrite V. exact IH.
Qed.

Lemma select_app {A} (m : list bool) : forall (a b : list A),
  select m (a ++ b) = select (firstn (length a) m) a ++ select (skipn (length a) m) b.
Proof.
  induction m as [|x m IH]; intros a b.
  - rewrite firstn_nil, skipn_nil. destruct a, b; reflexivity.
  - destruct a as [|y a]; [reflexivity|]. cbn [app select length firstn skipn].
    rewrite IH. destruct x; reflexivity.
Qed.

Lemma count_true_nonneg m : 0 <= count_true m.
Proof. induction m as [|[|] m IH]; cbn [count_true]; lia. Qed.

Lemma select_repeat {A} (c : A) : forall n m, select m (repeat c n) = repeat c (Z.to_nat (count_true (firstn n m))).
Proof.
  induction n as [|n IH]; intros [|x m]; try reflexivity. cbn [repeat select firstn count_true].
  pose proof (count_true_nonneg (firstn n m)). rewrite IH. destruct x; [|reflexivity].
  rewrite Z2Nat.inj_add by lia. reflexivity.
Qed.

Lemma project_qflat bs : forall mask,
  qflat_blocks (filter (fun b => negb (fst b =? 0)) (project_blocks bs mask)) = select mask (qflat_blocks bs).
Proof.
  unfold qflat_blocks. induction bs as [|b t IH]; intros mask; [destruct mask; reflexivity|].
  cbn [project_blocks flat_map filter fst]. unfold block_flat at 2. rewrite select_app, repeat_length, select_repeat.
  rewrite firstn_firstn, Nat.min_id, <- IH.
  destruct (count_true (firstn (Z.to_nat (fst b)) mask) =? 0) eqn:E; [|reflexivity].
  apply Z.eqb_eq in E. rewrite E. reflexivity.
Qed.

Lemma lex_leb_total a : forall b, lex_leb a b = false -> lex_leb b a = true.
Proof.
  induction a as [|x a IH]; intros [|y b] H; cbn [lex_leb] in *; try discriminate; try reflexivity.
  destruct (x <? y) eqn:E1; [discriminate|]. destruct (y <? x) eqn:E2; [reflexivity|]. auto.
Qed.

Lemma key_leb_total a b : key_leb a b = false -> key_leb b a = true.
Proof. apply lex_leb_total. Qed.

Lemma key_leb_refl a : key_leb a a = true.
Proof. destruct (key_leb a a) eqn:E; [reflexivity|]. rewrite <- E. exact (key_leb_total _ _ E). Qed.

Definition kle (x y : nat * block) : Prop := key_leb (snd (snd x)) (snd (snd y)) = true.

Lemma ssort_perm l : Permutation (ssort l) l.
Proof. exact (insertion_sort_perm (fun x y => key_leb (snd (snd x)) (snd (snd y))) sinsert (fun _ => eq_refl) (fun _ _ _ => eq_refl) l). Qed.

Lemma ssort_sorted l : Sorted kle (ssort l).
Proof. exact (insertion_sort_sorted _ sinsert (fun _ => eq_refl) (fun _ _ _ => eq_refl) kle (fun _ _ H => H) (fun x y => key_leb_total _ _) l). Qed.

Lemma sort_spec l :
  let s := ssort (combine (seq 0 (nblocks l)) (blocks l)) in
  Permutation (map fst s) (seq 0 (nblocks l)) /\
  map snd s = map (blk l) (map fst s) /\
  Sorted kle s.
Proof.
  intros s. pose proof (ssort_perm (combine (seq 0 (nblocks l)) (blocks l))) as P. fold s in P.
  split; [|split].
  - rewrite P. unfold nblocks. rewrite map_fst_combine by apply seq_length. reflexivity.
  - rewrite map_map. apply map_ext_in. intros ib Hin.
    destruct ib as [i b]. apply (Permutation_in _ P), combine_seq_In in Hin. rewrite Nat.sub_0_r in Hin.
    symmetry. apply nth_error_nth, Hin.
  - apply ssort_sorted.
Qed.

Lemma zrange_app a n : forall m, zrange a (n + m) = zrange a n ++ zrange (a + Z.of_nat n) m.
Proof.
  revert a. induction n as [|n IH]; intros a m.
  - cbn [Nat.add zrange app]. f_equal. lia.
  - cbn [Nat.add zrange app]. f_equal. rewrite IH. f_equal. f_equal. lia.
Qed.

Lemma map_zrange_const {A} (f : Z -> A) c n : forall a,
  (forall k, 0 <= k < Z.of_nat n -> f (a + k) = c) -> map f (zrange a n) = repeat c n.
Proof.
  induction n as [|n IH]; intros a H; [reflexivity|]. cbn [zrange map repeat]. f_equal.
  - rewrite <- (H 0) by lia. f_equal. lia.
  - apply IH. intros k Hk. replace (a + 1 + k) with (a + (1 + k)) by lia. apply H. lia.
Qed.

Lemma qflat_nth bs : nonneg (map fst bs) -> forall j w, (j < length bs)%nat -> 0 <= w < fst (nth j bs (0, [])) ->
  nth (Z.to_nat (offs (map fst bs) j + w)) (qflat_blocks bs) [] = snd (nth j bs (0, [])).
Proof.
  unfold qflat_blocks. induction bs as [|b t IH]; intros Hn j w Hj Hw; [cbn in Hj; lia|].
  destruct b as [sb cb]. cbn [map fst] in Hn. inversion Hn as [|? ? Hb Ht]; subst. cbn [flat_map].
  assert (L : length (block_flat (sb, cb)) = Z.to_nat sb) by (unfold block_flat; apply repeat_length).
  destruct j as [|j].
  - cbn [nth map fst snd] in *. rewrite offs_0. rewrite app_nth1 by (rewrite L; lia).
    unfold block_flat. cbn [fst snd]. eapply repeat_spec. apply nth_In. rewrite repeat_length. lia.
  - cbn [nth map length fst snd] in *. rewrite offs_cons.
    pose proof (offs_nonneg _ Ht j) as Ho.
    rewrite app_nth2 by (rewrite L; lia). rewrite L.
    replace (Z.to_nat (sb + offs (map fst t) j + w) - Z.to_nat sb)%nat
      with (Z.to_nat (offs (map fst t) j + w)) by lia.
    apply IH; [exact Ht|lia|exact Hw].
Qed.

Lemma block_take l i : nonneg (bsz l) ->
  block_flat (blk l i) = take_flat [] (qflat l) (zrange (offs (bsz l) i) (Z.to_nat (fst (blk l i)))).
Proof.
  intros Hn. unfold take_flat. destruct (Nat.lt_ge_cases i (nblocks l)) as [H|H].
  - unfold block_flat. symmetry. apply map_zrange_const. intros k Hk.
    unfold qflat, bsz, blk. apply qflat_nth; [exact Hn|exact H|]. change (0 <= k < fst (blk l i)). lia.
  - rewrite blk_overflow by exact H. reflexivity.
Qed.

Lemma perm_flat_take l perm : nonneg (bsz l) ->
  qflat_blocks (map (blk l) perm) = take_flat [] (qflat l) (perm_flat l perm).
Proof.
  intros Hn. unfold qflat_blocks, perm_flat, take_flat. induction perm as [|i perm IH]; [reflexivity|].
  cbn [map flat_map]. rewrite map_app, <- IH. f_equal. apply (block_take l i Hn).
Qed.

Lemma ranges_concat szs : nonneg szs -> forall a,
  flat_map (fun i => zrange (a + offs szs i) (Z.to_nat (nth i szs 0))) (seq 0 (length szs)) = zrange a (Z.to_nat (sumZ szs)).
Proof.
  induction 1 as [|s t Hs Ht IH]; intros a; [reflexivity|].
  cbn [length seq flat_map nth sumZ]. rewrite <- seq_shift, flat_map_concat_map, map_map, <- flat_map_concat_map.
  pose proof (sumZ_nonneg t Ht) as Hsum.
  rewrite Z2Nat.inj_add by lia. rewrite zrange_app. rewrite Z2Nat.id by lia.
  rewrite offs_0, Z.add_0_r. f_equal.
  rewrite <- IH. apply flat_map_ext. intros i. cbn [nth]. rewrite offs_cons. f_equal. lia.
Qed.

Lemma perm_flat_id l : nonneg (bsz l) -> perm_flat l (seq 0 (nblocks l)) = zrange 0 (Z.to_nat (ind_len l)).
Proof.
  intros Hn. unfold perm_flat, ind_len. rewrite <- (ranges_concat (bsz l) Hn 0). rewrite bsz_length.
  apply flat_map_ext. intros i. rewrite bsz_nth. f_equal.
Qed.

Lemma perm_flat_perm l perm : nonneg (bsz l) -> Permutation perm (seq 0 (nblocks l)) ->
  Permutation (perm_flat l perm) (zrange 0 (Z.to_nat (ind_len l))).
Proof.
  intros Hn P. rewrite <- perm_flat_id by exact Hn. unfold perm_flat. apply Permutation_flat_map. exact P.
Qed.

Theorem sort_full l bun : nonneg (bsz l) ->
  let s := ssort (combine (seq 0 (nblocks l)) (blocks l)) in
  let perm := fst (sort_leg bun l) in
  let sorted := snd (sort_leg bun l) in
  perm = map fst s /\
  Permutation perm (seq 0 (nblocks l)) /\
  map snd s = map (blk l) perm /\
  Sorted kle s /\
  blocks sorted = (if bun then bunch_blocks (map (blk l) perm) else map (blk l) perm) /\
  qc sorted = qc l /\
  qflat sorted = take_flat [] (qflat l) (perm_flat l perm) /\
  Permutation (perm_flat l perm) (zrange 0 (Z.to_nat (ind_len l))) /\
  ind_len sorted = ind_len l.
Proof.
  intros Hn s perm sorted. destruct (sort_spec l) as (P & E & Srt). fold s in P, E, Srt.
  assert (Hperm : perm = map fst s) by reflexivity.
  assert (Hb : blocks sorted = if bun then bunch_blocks (map (blk l) perm) else map (blk l) perm).
  { unfold sorted, sort_leg. cbn [snd blocks]. fold s. rewrite E, <- Hperm. reflexivity. }
  rewrite <- Hperm in P, E.
  pose proof (map_blk_sizes_nonneg l perm Hn) as Hnn.
  repeat split; try assumption.
  - unfold qflat. rewrite Hb. destruct bun; [rewrite bunch_qflat by exact Hnn|]; apply perm_flat_take, Hn.
  - apply perm_flat_perm; assumption.
  - unfold ind_len at 1. unfold bsz. rewrite Hb.
    assert (X : sumZ (map fst (map (blk l) perm)) = ind_len l).
    { rewrite (sumZ_perm _ _ (Permutation_map fst (Permutation_map (blk l) P))), map_blk_seq. reflexivity. }
    destruct bun; [rewrite bunch_sum|]; exact X.
Qed.
