From TenpyV Require Import Base.Prelude Base.Lists Model.Lattice Model.LatticeVals Proofs.LatticeP.
Open Scope Z_scope.

Lemma filter_combine_snd {A B} (P : B -> bool) : forall (l : list B) (ks : list A), length ks = length l ->
  map snd (filter (fun p => P (snd p)) (combine ks l)) = filter P l.
Proof.
  induction l as [|b l IH]; intros [|k ks] Hl; try discriminate; [reflexivity|].
  cbn [combine filter snd]. destruct (P b); cbn [map snd]; [f_equal|]; apply IH; cbn in Hl; lia.
Qed.

Lemma nth_error_map_inv {A B} (f : A -> B) l k b : nth_error (map f l) k = Some b ->
  exists a, nth_error l k = Some a /\ f a = b.
Proof.
  rewrite nth_error_map. destruct (nth_error l k) as [a|]; [|discriminate].
  cbn. intros H. inversion H. eauto.
Qed.

Lemma in_box_nth row : forall shape,
  in_box row shape <->
  (length row = length shape /\ forall j, (j < length shape)%nat -> 0 <= nth j row 0 < nth j shape 0).
Proof.
  unfold in_box. induction row as [|x row IH]; intros shape.
  - split.
    + intros H. inversion H. split; [reflexivity|]. intros j Hj. cbn in Hj. lia.
    + intros (Hl & _). destruct shape; [constructor|discriminate].
  - split.
    + intros H. inversion H as [|x' L row' r Hx Hr]; subst. apply IH in Hr. destruct Hr as (Hl & Hn).
      split; [cbn; now rewrite Hl|]. intros [|j] Hj; cbn [nth]; [exact Hx|]. apply Hn. cbn in Hj. lia.
    + intros (Hl & Hn). destruct shape as [|L r]; [discriminate|]. constructor.
      * apply (Hn O). cbn. lia.
      * apply IH. split; [cbn in Hl; lia|]. intros j Hj. apply (Hn (S j)). cbn. lia.
Qed.

Lemma nprod_perm l l' : Permutation l l' -> nprod l = nprod l'.
Proof.
  induction 1 as [|x l l' _ IH|x y l|l l' l'' _ IH1 _ IH2]; cbn [nprod].
  - reflexivity.
  - now rewrite IH.
  - ring.
  - congruence.
Qed.

Lemma index_of_nth perm : NoDup perm -> forall k d, (k < length perm)%nat -> index_of (nth k perm d) perm = k.
Proof.
  induction 1 as [|m t Hm Hnd IH]; intros k d Hk; [cbn in Hk; lia|].
  destruct k as [|k]; cbn [nth index_of].
  - now rewrite Nat.eqb_refl.
  - cbn in Hk. destruct (Nat.eqb_spec m (nth k t d)) as [E|E].
    + exfalso. apply Hm. rewrite E. apply nth_In. lia.
    + f_equal. apply IH. lia.
Qed.

Lemma nth_index_of perm j d : In j perm -> (index_of j perm < length perm)%nat /\ nth (index_of j perm) perm d = j.
Proof.
  induction perm as [|m t IH]; intros Hin; [destruct Hin|].
  cbn [index_of]. destruct (Nat.eqb_spec m j) as [E|E].
  - split; [cbn; lia|exact E].
  - destruct Hin as [Hin|Hin]; [contradiction|]. destruct (IH Hin) as (Hl & Hn). split; [cbn; lia|exact Hn].
Qed.

Section Priority.
Variable n : nat.
Variable perm : list nat.
Hypothesis Hperm : Permutation perm (seq 0 n).

Definition unperm (row : list Z) : list Z := map (fun j => nth (index_of j perm) row 0) (seq 0 n).

Lemma perm_nodup : NoDup perm.
Proof. eapply Permutation_NoDup; [apply Permutation_sym, Hperm|apply seq_NoDup]. Qed.

Lemma perm_length : length perm = n.
Proof. exact (perm_seq_length _ _ Hperm). Qed.

Lemma perm_in m : In m perm <-> (m < n)%nat.
Proof.
  split; intros H.
  - exact (perm_seq_lt _ _ _ Hperm H).
  - apply (Permutation_in _ (Permutation_sym Hperm)). apply in_seq. lia.
Qed.

Lemma perm_nth_lt k : (k < n)%nat -> (nth k perm O < n)%nat.
Proof. intros H. apply perm_in. apply nth_In. rewrite perm_length. exact H. Qed.

Lemma unperm_length row : length (unperm row) = n.
Proof. unfold unperm. now rewrite map_length, seq_length. Qed.

Lemma unperm_nth row j : (j < n)%nat -> nth j (unperm row) 0 = nth (index_of j perm) row 0.
Proof.
  intros H. unfold unperm.
  rewrite (nth_map_default (fun j => nth (index_of j perm) row 0) (seq 0 n) j O 0) by (now rewrite seq_length).
  rewrite seq_nth by exact H. reflexivity.
Qed.

Lemma pick_length {A} (d : A) l : length (pick d perm l) = n.
Proof. unfold pick. now rewrite map_length, perm_length. Qed.

Lemma pick_nth {A} (d : A) l k : (k < n)%nat -> nth k (pick d perm l) d = nth (nth k perm O) l d.
Proof.
  intros H. unfold pick. apply (nth_map_default (fun m => nth m l d) perm k O d). now rewrite perm_length.
Qed.

Lemma pick_unperm row : length row = n -> pick 0 perm (unperm row) = row.
Proof.
  intros Hl. apply (nth_ext _ _ 0 0); [now rewrite pick_length|]. intros k Hk. rewrite pick_length in Hk.
  rewrite pick_nth by exact Hk. rewrite unperm_nth by (now apply perm_nth_lt).
  rewrite index_of_nth; [reflexivity|apply perm_nodup|now rewrite perm_length].
Qed.

Lemma unperm_pick row : length row = n -> unperm (pick 0 perm row) = row.
Proof.
  intros Hl. apply (nth_ext _ _ 0 0); [now rewrite unperm_length|]. intros j Hj. rewrite unperm_length in Hj.
  rewrite unperm_nth by exact Hj.
  destruct (nth_index_of perm j O (proj2 (perm_in j) Hj)) as (Hi & Hn). rewrite perm_length in Hi.
  rewrite pick_nth by exact Hi. now rewrite Hn.
Qed.

Variable shape : list Z.
Hypothesis Hn : length shape = n.

Lemma unperm_box row : in_box row (pick 0 perm shape) -> in_box (unperm row) shape.
Proof.
  intros H. apply in_box_nth in H. destruct H as (Hl & Hb). rewrite pick_length in Hl, Hb.
  apply in_box_nth. rewrite Hn. split; [apply unperm_length|]. intros j Hj.
  rewrite unperm_nth by exact Hj.
  destruct (nth_index_of perm j O (proj2 (perm_in j) Hj)) as (Hi & Hnj). rewrite perm_length in Hi.
  specialize (Hb _ Hi). rewrite pick_nth in Hb by exact Hi. now rewrite Hnj in Hb.
Qed.

Lemma pick_box row : in_box row shape -> in_box (pick 0 perm row) (pick 0 perm shape).
Proof.
  intros H. apply in_box_nth in H. destruct H as (Hl & Hb). rewrite Hn in Hl, Hb.
  apply in_box_nth. rewrite !pick_length. split; [reflexivity|]. intros k Hk.
  rewrite !pick_nth by exact Hk. apply Hb. now apply perm_nth_lt.
Qed.

Lemma pick_shape_perm : Permutation (pick 0 perm shape) shape.
Proof.
  unfold pick. eapply Permutation_trans; [apply Permutation_map, Hperm|].
  rewrite <- Hn. rewrite map_nth_seq. apply Permutation_refl.
Qed.

End Priority.

Lemma get_order_priority_perm shape flags perm : Permutation perm (seq 0 (length shape)) ->
  NoDup (get_order shape flags perm) /\
  (forall row, In row (get_order shape flags perm) <-> in_box row shape) /\
  length (get_order shape flags perm) = nprod shape.
Proof.
  intros Hperm. set (n := length shape) in *.
  assert (Hgo : get_order shape flags perm =
                map (unperm n perm) (snake (pick false perm flags) (pick 0 perm shape))) by reflexivity.
  destruct (get_order_perm (pick false perm flags) (pick 0 perm shape)) as (Hnd & Hin & Hlen).
  rewrite Hgo. split; [|split].
  - apply NoDup_map_in; [|exact Hnd]. intros a b Ha Hb He.
    apply Hin in Ha. apply Hin in Hb. apply in_box_nth in Ha. apply in_box_nth in Hb.
    destruct Ha as (Hla & _). destruct Hb as (Hlb & _). rewrite (pick_length n perm Hperm) in Hla, Hlb.
    rewrite <- (pick_unperm n perm Hperm a Hla), <- (pick_unperm n perm Hperm b Hlb). now rewrite He.
  - intros row. rewrite in_map_iff. split.
    + intros (r' & <- & Hr'). apply (unperm_box n perm Hperm shape eq_refl). now apply Hin.
    + intros Hb. exists (pick 0 perm row). split.
      * apply (unperm_pick n perm Hperm). apply in_box_nth in Hb. tauto.
      * apply Hin. now apply (pick_box n perm Hperm shape eq_refl).
  - rewrite map_length, Hlen. apply nprod_perm. apply (pick_shape_perm n perm Hperm shape eq_refl).
Qed.

Lemma zlist_eqb_spec a b : zlist_eqb a b = true <-> a = b.
Proof. exact (forall2b_eq_spec Z.eqb Z.eqb_eq a b). Qed.

Lemma site_eqb_spec a b : site_eqb a b = true <-> a = b.
Proof.
  destruct a as [[x0 xr] u], b as [[y0 yr] v]. cbn [site_eqb].
  rewrite !andb_true_iff, zlist_eqb_spec, !Z.eqb_eq.
  split; [intros ((-> & ->) & ->); reflexivity|intros H; inversion H; auto].
Qed.

(* the invariant of the scatter loop, in which later rows overwrite earlier ones: when every remaining row equal to s
   carries the index k, the result is k if such a row remains or k is what has been written so far *)
Lemma scatter_spec s k : forall rows acc,
  (forall k', In (k', s) rows -> k' = k) -> (In (k, s) rows \/ acc = Some k) ->
  scatter rows s acc = Some k.
Proof.
  induction rows as [|[k1 r1] t IH]; intros acc Hu Hin; cbn [scatter].
  - destruct Hin as [[]|Hacc]. exact Hacc.
  - assert (Hu' : forall k', In (k', s) t -> k' = k) by (intros k' H; apply Hu; now right).
    destruct (site_eqb r1 s) eqn:E.
    + apply site_eqb_spec in E. subst r1. apply IH; [exact Hu'|]. right. f_equal. apply Hu. now left.
    + apply IH; [exact Hu'|]. destruct Hin as [[Hin|Hin]|Hacc]; [|now left|now right].
      inversion Hin; subst. exfalso. assert (site_eqb s s = true) by (now apply site_eqb_spec). congruence.
Qed.

Lemma scatter_lookup_nth rows n s : NoDup rows -> nth_error rows n = Some s ->
  scatter_lookup rows s = Some (Z.of_nat n).
Proof.
  intros Hnd Hn. unfold scatter_lookup. apply scatter_spec.
  - intros k' Hin. apply in_zenum in Hin. destruct Hin as (n' & -> & Hn'). f_equal.
    apply (proj1 (NoDup_nth_error rows) Hnd); [exact (nth_error_some_lt _ _ _ Hn')|congruence].
  - left. apply in_zenum. eauto.
Qed.

Lemma take_scatter_nth {V} rows (a : list V) n s : NoDup rows -> nth_error rows n = Some s -> (n < length a)%nat ->
  exists v, nth_error a n = Some v /\
    match scatter_lookup rows s with Some k => nth_error a (Z.to_nat k) | None => None end = Some v.
Proof.
  intros Hnd Hn Hl. rewrite (scatter_lookup_nth _ _ _ Hnd Hn), Nat2Z.id.
  destruct (nth_error a n) as [v|] eqn:Ev; [eauto|]. apply nth_error_None in Ev. lia.
Qed.

Section Values.
Variable lat : lattice.
Hypothesis Hwf : wf lat.

Let N := nsites lat.

Lemma values_nth {V} (a : list V) n s : length a = length (lorder lat) -> nth_error (lorder lat) n = Some s ->
  exists v, nth_error a n = Some v /\ mps2lat lat (Z.of_nat n) = Some s /\ mps2lat_values lat a s = Some v.
Proof.
  intros Hl Hn. destruct (take_scatter_nth _ a _ _ (wf_nodup lat Hwf) Hn) as (v & Hv & Hval).
  { rewrite Hl. exact (nth_error_some_lt _ _ _ Hn). }
  exists v. split; [exact Hv|]. split; [now apply m2l_nth|exact Hval].
Qed.

Lemma values_reshape {V} (a : list V) : length a = length (lorder lat) ->
  (forall i, 0 <= i < N -> exists s v,
     mps2lat lat i = Some s /\ nth_error a (Z.to_nat i) = Some v /\ mps2lat_values lat a s = Some v) /\
  (forall s, In s (lorder lat) -> exists i v,
     0 <= i < N /\ lat2mps lat s = Some i /\ nth_error a (Z.to_nat i) = Some v /\
     mps2lat_values lat a s = Some v).
Proof.
  intros Hl. split.
  - intros i Hi. destruct (nth_total lat i Hi) as (s & Es).
    destruct (values_nth a _ _ Hl Es) as (v & Hv & Hm & Hval). rewrite Z2Nat.id in Hm by lia. eauto.
  - intros s Hs. apply In_nth_error in Hs. destruct Hs as (n & Hn).
    destruct (values_nth a _ _ Hl Hn) as (v & Hv & Hm & Hval).
    exists (Z.of_nat n), v. rewrite Nat2Z.id. split; [exact (nth_bound lat _ _ Hn)|].
    split; [apply (index_inverse lat Hwf); exact Hm|auto].
Qed.

Lemma order_fix_u_eq u :
  order_fix_u lat u = map snd (filter (fun ks : Z * site => snd (snd ks) =? u) (zenum (lorder lat))).
Proof.
  unfold order_fix_u, zenum. symmetry.
  apply (filter_combine_snd (fun s : site => snd s =? u)). now rewrite map_length, seq_length.
Qed.

Lemma values_reshape_u {V} u (a : list V) : length a = length (mps_fix_u lat u) ->
  forall k i, nth_error (mps_fix_u lat u) k = Some i -> exists x0 xr v,
    0 <= i < N /\ mps2lat lat i = Some (x0, xr, u) /\ nth_error a k = Some v /\
    mps2lat_values_u lat u a x0 xr = Some v.
Proof.
  intros Hl k i Hk. unfold mps_fix_u in Hk, Hl.
  set (F := filter (fun ks : Z * site => snd (snd ks) =? u) (zenum (lorder lat))) in *.
  apply nth_error_map_inv in Hk. destruct Hk as ([i' [[x0 xr] u']] & HF & Hi). cbn in Hi. subst i'.
  pose proof (nth_error_In _ _ HF) as Hin. apply filter_In in Hin. destruct Hin as (Hz & Hu).
  cbn in Hu. assert (u' = u) by lia. subst u'.
  apply in_zenum in Hz. destruct Hz as (n & -> & Hn).
  pose proof (nth_bound lat _ _ Hn) as Hb.
  assert (Hk' : nth_error (order_fix_u lat u) k = Some (x0, xr, u)).
  { assert (HF' : nth_error F k = Some (Z.of_nat n, (x0, xr, u))) by exact HF.
    rewrite order_fix_u_eq. fold F. rewrite nth_error_map, HF'. reflexivity. }
  destruct (take_scatter_nth _ a _ _ (NoDup_filter _ (wf_nodup lat Hwf)) Hk') as (v & Hv & Hval).
  { rewrite Hl, map_length. exact (nth_error_some_lt _ _ _ HF). }
  exists x0, xr, v. split; [exact Hb|]. split; [now apply m2l_nth|split; [exact Hv|exact Hval]].
Qed.

End Values.
