(* Model/Truncate.v (property C15), whatever the cut: the stable sort by value; truncate discards the part of the sorted
   spectrum below the cut, so no discarded value exceeds a kept one (threshold) and eps / norm are the weights of the two
   parts (sel_sorted). *)
From TenpyV Require Import Base.Prelude Base.Lists Model.Truncate.
Open Scope Z_scope.

Lemma in_firstn_skipn {A} n (l : list A) x : In x l <-> In x (firstn n l) \/ In x (skipn n l).
Proof. rewrite <- in_app_iff, firstn_skipn. reflexivity. Qed.

Lemma combine_map_seq {A B} (f : nat -> B) (xs : list A) k :
  combine (map f (seq k (length xs))) xs = map (fun vi => (f (snd vi), fst vi)) (combine xs (seq k (length xs))).
Proof.
  revert k; induction xs as [|x t IH]; intros k; cbn [length seq map combine fst snd]; [reflexivity|].
  f_equal. apply IH.
Qed.

Definition le_fst (a b : Z * nat) : Prop := fst a <= fst b.

Lemma isort_perm l : Permutation (isort l) l.
Proof. exact (Lists.insertion_sort_perm (fun x y => fst x <=? fst y) insert (fun _ => eq_refl) (fun _ _ _ => eq_refl) l). Qed.

Lemma isort_sorted l : StronglySorted le_fst (isort l).
Proof.
  apply (Lists.insertion_sort_ss (fun x y => fst x <=? fst y) insert (fun _ => eq_refl) (fun _ _ _ => eq_refl));
    unfold le_fst; lia.
Qed.

Lemma sorted_map_fst sl : StronglySorted le_fst sl -> StronglySorted Z.le (map fst sl).
Proof. apply ss_map. intros x y H. exact H. Qed.

Lemma sorted_pairs_nth xs vi : In vi (sorted_pairs xs) ->
  (snd vi < length xs)%nat /\ nthZ xs (snd vi) = fst vi.
Proof.
  intros H. apply (Permutation_in _ (isort_perm _)) in H.
  destruct (In_nth _ _ (0, 0%nat) H) as (k & Hk & <-).
  rewrite combine_length, seq_length, Nat.min_id in Hk.
  rewrite combine_nth by (rewrite seq_length; reflexivity). rewrite seq_nth by exact Hk.
  split; [exact Hk|reflexivity].
Qed.

Lemma piv_perm xs : Permutation (map snd (sorted_pairs xs)) (seq 0 (length xs)).
Proof.
  unfold sorted_pairs. rewrite <- (map_snd_combine xs (seq 0 (length xs)) (eq_sym (seq_length _ _))) at 2.
  apply Permutation_map, isort_perm.
Qed.

Lemma spectrum_perm xs : Permutation (map fst (sorted_pairs xs)) xs.
Proof.
  unfold sorted_pairs. eapply perm_trans; [apply Permutation_map, isort_perm|].
  rewrite map_fst_combine by (symmetry; apply seq_length). apply Permutation_refl.
Qed.

Lemma sorted_pairs_length xs : length (sorted_pairs xs) = length xs.
Proof. rewrite <- (map_length fst). apply Permutation_length, spectrum_perm. Qed.

Lemma sorted_values_perm xs ys : Permutation xs ys ->
  map fst (sorted_pairs xs) = map fst (sorted_pairs ys).
Proof.
  intros P. apply sorted_perm_eq.
  - apply sorted_map_fst, isort_sorted.
  - apply sorted_map_fst, isort_sorted.
  - eapply perm_trans; [apply spectrum_perm|]. eapply perm_trans; [exact P|]. apply Permutation_sym, spectrum_perm.
Qed.

(* the let-chain of final_good under names, one per constraint *)
Section Stages.
  Variable ss : list Z.
  Variable o : opts.
  Let n := length ss.
  Definition st0 := map (fun _ : Z => true) ss.
  Definition st1 := opt_apply (chi_max o) (good_chi_max n) st0.
  Definition st2 := match chi_min o with
            | Some m => if 1 <? m then combine_constraints st1 (good_chi_min n m) else st1
            | None => st1 end.
  Definition st3 := opt_apply (deg_tol o) (fun pq => good_deg ss (fst pq) (snd pq)) st2.
  Definition st4 := opt_apply (svd_min o) (good_svd_min ss) st3.
  Definition st5 := opt_apply (trunc_cut2 o) (good_trunc_cut ss) st4.

  Definition cut := first_true st5.
End Stages.

Section Trunc.
  Variable xs : list Z.
  Variable o : opts.
  Hypothesis nonempty : xs <> [].
  Let sl := sorted_pairs xs.
  Let ss := map fst sl.
  Let piv := map snd sl.
  Let c := cut ss o.
  Let n := length xs.

  Lemma spectrum_len : length ss = n.
  Proof using Type. apply Permutation_length, spectrum_perm. Qed.
  Lemma spectrum_nonempty : ss <> [].
  Proof using nonempty. intros E. apply nonempty, length_zero_iff_nil. change (n = 0%nat). rewrite <- spectrum_len, E. reflexivity. Qed.
  Lemma spectrum_sorted : StronglySorted Z.le ss.
  Proof using Type. apply sorted_map_fst. apply isort_sorted. Qed.

  Lemma mask_length : length (r_mask (truncate xs o)) = n.
  Proof using Type. cbn [truncate r_mask]. rewrite map_length. apply seq_length. Qed.

  Lemma mask_nth i : (i < n)%nat ->
    nth i (r_mask (truncate xs o)) false = existsb (Nat.eqb i) (skipn c piv).
  Proof using Type. intros H. cbn [truncate r_mask]. rewrite nth_map_seq by exact H. reflexivity. Qed.

  Lemma kept_eq : r_kept (truncate xs o) = skipn c ss.
  Proof using Type. reflexivity. Qed.

  Lemma keep_firstn vi : In vi (firstn c sl) -> existsb (Nat.eqb (snd vi)) (skipn c piv) = false.
  Proof using Type.
    intros H. destruct (existsb _ _) eqn:E; [|reflexivity]. exfalso.
    apply existsb_eqb_In in E.
    assert (ND : NoDup (firstn c piv ++ skipn c piv)).
    { rewrite firstn_skipn. apply (Permutation_NoDup (Permutation_sym (piv_perm xs))), seq_NoDup. }
    apply (NoDup_app_In _ _ (snd vi) ND); [|exact E]. unfold piv. rewrite firstn_map. apply in_map, H.
  Qed.

  Lemma keep_skipn vi : In vi (skipn c sl) -> existsb (Nat.eqb (snd vi)) (skipn c piv) = true.
  Proof using Type. intros H. apply existsb_eqb_In. unfold piv. rewrite skipn_map. apply in_map. exact H. Qed.

  Lemma piv_In i : (i < n)%nat -> exists vi, snd vi = i /\ In vi sl.
  Proof using Type.
    intros H. apply in_map_iff. apply (Permutation_in _ (Permutation_sym (piv_perm xs))), in_seq. exact (conj (Nat.le_0_l i) H).
  Qed.

  Lemma threshold i j : (i < n)%nat -> (j < n)%nat ->
    nth i (r_mask (truncate xs o)) false = true ->
    nth j (r_mask (truncate xs o)) false = false ->
    nthZ xs j <= nthZ xs i.
  Proof using Type.
    intros Hi Hj Mi Mj. rewrite mask_nth in Mi, Mj by assumption.
    destruct (piv_In i Hi) as (vi & <- & Hvi). destruct (piv_In j Hj) as (vj & <- & Hvj).
    destruct (sorted_pairs_nth xs vi Hvi) as [_ ->]. destruct (sorted_pairs_nth xs vj Hvj) as [_ ->].
    apply (in_firstn_skipn c) in Hvi, Hvj.
    destruct Hvi as [Hvi|Hvi]; [rewrite (keep_firstn vi Hvi) in Mi; discriminate|].
    destruct Hvj as [Hvj|Hvj]; [|rewrite (keep_skipn vj Hvj) in Mj; discriminate].
    apply (ss_app_inv le_fst (firstn c sl) (skipn c sl)); [|exact Hvj|exact Hvi].
    rewrite firstn_skipn. apply isort_sorted.
  Qed.

  (* the two sums `sel true`, `sel false` of truncate.  Summed over the sorted pairs instead of the original positions
     (isort_perm), the list splits at the cut into the part where the mask is false and the part where it is true. *)
  Lemma sel_sorted (b : bool) :
    sumZ (map (fun mb : bool * Z => if Bool.eqb (fst mb) b then sq (snd mb) else 0)
              (combine (r_mask (truncate xs o)) xs))
    = sumZ (map sq (if b then skipn c ss else firstn c ss)).
  Proof using Type.
    change (r_mask (truncate xs o)) with (map (fun i => existsb (Nat.eqb i) (skipn c piv)) (seq 0 (length xs))).
    rewrite combine_map_seq, map_map. cbn [fst snd].
    rewrite (sumZ_perm _ _ (Permutation_map _ (Permutation_sym (isort_perm _)))).
    fold (sorted_pairs xs). fold sl. rewrite <- (firstn_skipn c sl) at 1. rewrite map_app, sumZ_app.
    rewrite (map_ext_in _ (fun vi => if Bool.eqb false b then sq (fst vi) else 0) (firstn c sl))
      by (intros vi H; rewrite (keep_firstn vi H); reflexivity).
    rewrite (map_ext_in _ (fun vi => if Bool.eqb true b then sq (fst vi) else 0) (skipn c sl))
      by (intros vi H; rewrite (keep_skipn vi H); reflexivity).
    unfold ss. rewrite firstn_map, skipn_map.
    destruct b; cbn [Bool.eqb]; rewrite map_map.
    - rewrite (sumZ_map_zero _ (firstn c sl)) by reflexivity. lia.
    - rewrite (sumZ_map_zero _ (skipn c sl)) by reflexivity. lia.
  Qed.

  Lemma eps_sorted : r_eps (truncate xs o) = sumZ (map sq (firstn c ss)).
  Proof using Type. exact (sel_sorted false). Qed.

  Lemma norm_sorted : r_norm2 (truncate xs o) = sumZ (map sq (skipn c ss)).
  Proof using Type. exact (sel_sorted true). Qed.

  Lemma total_split : r_eps (truncate xs o) + r_norm2 (truncate xs o) = sumZ (map sq xs).
  Proof using Type.
    rewrite eps_sorted, norm_sorted. rewrite <- sumZ_app, <- map_app, firstn_skipn.
    apply sumZ_perm, Permutation_map, spectrum_perm.
  Qed.
End Trunc.

Lemma insert_fst x l : map fst (insert x l) =
  (fix ins (v : Z) (l : list Z) := match l with [] => [v] | y :: t => if v <=? y then v :: l else y :: ins v t end)
    (fst x) (map fst l).
Proof. induction l as [|y t IH]; cbn [insert map]; [reflexivity|]. destruct (fst x <=? fst y); cbn [map]; [reflexivity|]. f_equal. exact IH. Qed.
