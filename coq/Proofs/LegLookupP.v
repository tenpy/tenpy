(* LegCharge.get_qindex_of_charges (Model/LegLookup.v) inverts get_charge on legs blocked by charge, so the one-block vector
   FlatLinearOperator.flat_to_npc builds by hand is well-formed; the factor qconj is needed. *)
From TenpyV Require Import Base.Prelude Model.Charge Model.Tensor Model.TakeSlice Model.LegLookup.
From TenpyV Require Import Proofs.ChargeP Proofs.TensorP Proofs.TakeSliceP.
Open Scope Z_scope.

Lemma find_rows_absent c : forall rows i, ~ In c rows -> find_rows c rows i = [].
Proof.
  induction rows as [|r rows IH]; intros i H; cbn [find_rows]; [reflexivity|].
  destruct (list_eqb c r) eqn:E.
  - apply list_eqb_iff in E. subst. exfalso. apply H. left. reflexivity.
  - apply IH. intro Hin. apply H. right. exact Hin.
Qed.

Lemma find_rows_unique : forall rows q i, NoDup rows -> (q < length rows)%nat ->
  find_rows (nth q rows []) rows i = [(i + q)%nat].
Proof.
  induction rows as [|r rows IH]; intros q i Hnd Hq; cbn [length] in Hq; [lia|].
  inversion Hnd as [|? ? Hnotin Hnd']; subst.
  destruct q as [|q]; cbn [nth find_rows].
  - rewrite list_eqb_refl. rewrite (find_rows_absent r rows (S i) Hnotin). f_equal. lia.
  - destruct (list_eqb (nth q rows []) r) eqn:E.
    + apply list_eqb_iff in E. exfalso. apply Hnotin. rewrite <- E. apply nth_In. lia.
    + rewrite (IH q (S i) Hnd'); [|lia]. f_equal. lia.
Qed.

Lemma find_rows_sound c : forall rows i k, In k (find_rows c rows i) -> (i <= k)%nat /\ nth (k - i) rows [] = c /\ (k - i < length rows)%nat.
Proof.
  induction rows as [|r rows IH]; intros i k H; cbn [find_rows] in H; [contradiction|].
  destruct (list_eqb c r) eqn:E; [destruct H as [H|H]|].
  2,3: apply IH in H; destruct H as [H1 [H2 H3]]; replace (k - i)%nat with (S (k - S i)) by lia; cbn [nth length];
    repeat split; [lia|exact H2|lia].
  subst k. replace (i - i)%nat with 0%nat by lia. cbn [nth length]. apply list_eqb_iff in E. subst. repeat split; lia.
Qed.

Lemma lookup_inverse ci l q : leg_ok ci l -> blocked l -> (q < length (bch l))%nat ->
  qindex_of_charges ci l (leg_charge l q) = Some q.
Proof.
  intros [Hqc Hval] Hb Hq. unfold qindex_of_charges, leg_charge.
  rewrite vscale_involutive by (destruct Hqc as [-> | ->]; reflexivity).
  rewrite make_valid_of_valid.
  - rewrite (find_rows_unique (bch l) q 0 Hb Hq). reflexivity.
  - rewrite Forall_forall in Hval. apply Hval. apply nth_In. exact Hq.
Qed.

Lemma lookup_sound ci l c q : leg_ok ci l -> qindex_of_charges ci l c = Some q ->
  (q < length (bch l))%nat /\ make_valid ci (leg_charge l q) = make_valid ci c.
Proof.
  intros [Hqc _] H. unfold qindex_of_charges in H.
  destruct (find_rows (make_valid ci (vscale (qc l) c)) (bch l) 0) as [|k [|k' rest]] eqn:E; try discriminate.
  injection H as H. subst k.
  assert (Hin : In q (find_rows (make_valid ci (vscale (qc l) c)) (bch l) 0)) by (rewrite E; left; reflexivity).
  apply find_rows_sound in Hin. destruct Hin as [_ [Hn Hl]]. replace (q - 0)%nat with q in * by lia.
  split; [exact Hl|].
  unfold leg_charge. rewrite Hn, make_valid_vscale, vscale_involutive by (destruct Hqc as [-> | ->]; reflexivity). reflexivity.
Qed.

Lemma compact_vector_wf ci l sector q : leg_ok ci l -> check_valid ci sector = true ->
  qindex_of_charges ci l sector = Some q -> WF ci (compact_vector l sector q).
Proof.
  intros Hok Hsec Hq.
  pose proof (check_valid_length _ _ Hsec) as Hlen.
  destruct (lookup_sound ci l sector q Hok Hq) as [Hql Hch].
  rewrite (make_valid_of_valid ci sector Hsec) in Hch.
  assert (Hrow : length (leg_charge l q) = length ci).
  { destruct Hok as [_ Hval]. rewrite Forall_forall in Hval. apply vscale_len, check_valid_length, Hval, nth_In, Hql. }
  apply wf_of_ssorted; unfold rows_shape, charge_rule; cbn [compact_vector qtot legs rows blks map fst].
  - exact Hlen.
  - intros r [<-|[]]. reflexivity.
  - split; [intros x []|exact I].
  - intros r [<-|[]] j Hj. rewrite row_charge_cons, <- Hch. autorewrite with vnth. rewrite nth_leg_charge. f_equal. apply Z.add_0_r.
Qed.

Definition lk_leg : leg := mkLeg [2%nat; 3%nat; 2%nat] [[-1]; [0]; [1]] (-1).

Lemma lookup_qconj_needed :
  valid_ci [1] /\ leg_ok [1] lk_leg /\ blocked lk_leg /\ leg_charge lk_leg 0 = [1] /\
  qindex_of_charges_noconj [1] lk_leg (leg_charge lk_leg 0) = Some 2%nat /\
  ~ charge_rule [1] (compact_vector lk_leg [1] 2) /\
  qindex_of_charges [1] lk_leg (leg_charge lk_leg 0) = Some 0%nat /\
  WF [1] (compact_vector lk_leg [1] 0).
Proof.
  assert (Hci : valid_ci [1]) by (constructor; [lia|constructor]).
  assert (Hok : leg_ok [1] lk_leg).
  { split; [right; reflexivity|]. repeat constructor. }
  split; [exact Hci|]. split; [exact Hok|].
  split. { unfold blocked, lk_leg. cbn [bch]. repeat constructor; cbn; intros H; repeat (destruct H as [H|H]; try discriminate); exact H. }
  split; [reflexivity|]. split; [reflexivity|].
  split.
  - intro H. specialize (H [2%nat] (or_introl eq_refl) 0%nat (Nat.lt_0_1)). vm_compute in H. discriminate.
  - split; [reflexivity|]. apply compact_vector_wf; [exact Hok|reflexivity|reflexivity].
Qed.
