(* Isometry of assembled block matrices whose blocks sit at pairwise distinct row blocks and pairwise distinct column blocks that
   cover the column leg.  The Gram matrix is computed by the product theorem of Proofs/FactorDenseP2.v. *)
From TenpyV Require Import Base.Prelude Base.Lists Model.FactorDense Model.FactorDense2 Model.FactorDense3
  Proofs.FactorDenseP Proofs.FactorDenseP2.
Open Scope Z_scope.

(* Props/C05.v writes these two out (sumn ... = delta a b, the coverage formula); its theorems are closed through conversion *)
Definition orthonormal_cols (n m : nat) (D : dmat) : Prop :=
  forall t t', (t < m)%nat -> (t' < m)%nat -> gram n D t t' = delta t t'.
Definition covers (ns qs : list nat) : Prop := forall x, (x < length ns)%nat -> (0 < bsize ns x)%nat -> In x qs.

Lemma cover_entry ns (es : list bent) m t :
  covers ns (map ecol es) -> inblk ns m t = true -> exists e, In e es /\ ecol e = m.
Proof.
  intros Cov Hm. pose proof (inblk_bounds ns m t Hm) as [_ L]. apply inblk_iff in Hm.
  destruct (proj1 (in_map_iff ecol es m) (Cov m L ltac:(lia))) as [e [E Hin]]. exists e. split; assumption.
Qed.

Lemma gram_blocks rs ns (es : list bent) t t' : NoDup (map erow es) ->
  gram (list_sum rs) (dense rs ns es) t t'
  = dense ns ns (map (fun e => (ecol e, ecol e, mmul (bsize rs (erow e)) (mT (emat e)) (emat e))) es) t t'.
Proof.
  intros NR. unfold gram. rewrite <- (matched_product ecol erow ecol (fun e => mT (emat e)) emat ns rs ns es t t') by exact NR.
  apply sumn_ext. intros r _. f_equal; [apply dense_tent|]. f_equal.
  rewrite <- (map_id es) at 1. apply map_ext. intros [[i j] E]. reflexivity.
Qed.

(* column t' lies in one block m, and m is the column block of exactly one entry e (coverage, NoDup), which is diagonal: for a row t
   of block m the value is delta of the local indices, which is delta t t' (delta_shift); a row outside block m gives 0 and t <> t' *)
Lemma dense_diag_identity ns (es : list bent) :
  NoDup (map ecol es) -> covers ns (map ecol es) ->
  (forall e, In e es -> erow e = ecol e /\
     forall a b, (a < bsize ns (ecol e))%nat -> (b < bsize ns (ecol e))%nat -> emat e a b = delta a b) ->
  forall t t', (t < list_sum ns)%nat -> (t' < list_sum ns)%nat -> dense ns ns es t t' = delta t t'.
Proof.
  intros NC Cov Hd t t' _ Ht'. destruct (inblk_ex ns t' Ht') as [m Hm].
  destruct (cover_entry ns es m t' Cov Hm) as [e [Ie Ee]]. destruct (Hd e Ie) as [Er HG].
  rewrite (dense_col_single ns ns es e t t' NC Ie) by (rewrite Ee; exact Hm).
  rewrite bval_eq, Er, Ee, Hm, andb_true_r. destruct (inblk ns m t) eqn:Et.
  - apply inblk_iff in Et. apply inblk_iff in Hm. rewrite HG by (rewrite Ee; lia).
    rewrite <- (delta_shift (boff ns m)). f_equal; lia.
  - unfold delta. destruct (Nat.eqb t t') eqn:E; [|reflexivity]. apply Nat.eqb_eq in E. congruence.
Qed.

Theorem ents_isometry rs ns (es : list bent) :
  NoDup (map erow es) -> NoDup (map ecol es) -> covers ns (map ecol es) ->
  (forall e, In e es -> orthonormal_cols (bsize rs (erow e)) (bsize ns (ecol e)) (emat e)) ->
  orthonormal_cols (list_sum rs) (list_sum ns) (dense rs ns es).
Proof.
  intros NR NC Cov Hiso t t'. rewrite (gram_blocks rs ns es t t' NR). apply dense_diag_identity.
  - rewrite map_map. exact NC.
  - rewrite map_map. exact Cov.
  - intros e' He'. apply in_map_iff in He'. destruct He' as [e [<- He]]. split; [reflexivity|exact (Hiso e He)].
Qed.

Corollary ents_isometry_map {A} (fr fc : A -> nat) (fmat : A -> dmat) rs ns (fs : list A) :
  NoDup (map fr fs) -> NoDup (map fc fs) -> covers ns (map fc fs) ->
  (forall s, In s fs -> orthonormal_cols (bsize rs (fr s)) (bsize ns (fc s)) (fmat s)) ->
  orthonormal_cols (list_sum rs) (list_sum ns) (dense rs ns (map (fun s => (fr s, fc s, fmat s)) fs)).
Proof.
  intros NR NC Cov Hiso. apply ents_isometry.
  - rewrite map_map. exact NR.
  - rewrite map_map. exact NC.
  - rewrite map_map. exact Cov.
  - intros e He. apply in_map_iff in He. destruct He as [s [<- Hs]]. exact (Hiso s Hs).
Qed.

Lemma orthonormal_rows_tent n m ns cs (es : list bent) :
  orthonormal_cols n m (dense cs ns (map tent es)) -> orthonormal_cols n m (mT (dense ns cs es)).
Proof.
  intros H t t' Ht Ht'. rewrite <- (H t t' Ht Ht'). unfold gram. apply sumn_ext. intros c _. unfold mT. rewrite !(dense_tent ns cs). reflexivity.
Qed.

Corollary ents_isometry_map_T {A} (fr fc : A -> nat) (fmat : A -> dmat) ns cs (fs : list A) :
  NoDup (map fr fs) -> NoDup (map fc fs) -> covers ns (map fr fs) ->
  (forall s, In s fs -> orthonormal_cols (bsize cs (fc s)) (bsize ns (fr s)) (mT (fmat s))) ->
  orthonormal_cols (list_sum cs) (list_sum ns) (mT (dense ns cs (map (fun s => (fr s, fc s, fmat s)) fs))).
Proof.
  intros NR NC Cov Hiso. apply orthonormal_rows_tent. rewrite map_map.
  exact (ents_isometry_map fc fr (fun s => mT (fmat s)) cs ns fs NC NR Cov Hiso).
Qed.

(* svd, reduced mode: the column block of an entry is its position, so the new leg is covered *)
Theorem asm_isometry rs (frow : sblock -> nat) (fblk : sblock -> dmat) ks :
  NoDup (map frow ks) ->
  (forall e, In e ks -> orthonormal_cols (bsize rs (frow e)) (f_n (sb_fac e)) (fblk e)) ->
  orthonormal_cols (list_sum rs) (list_sum (inner_sizes ks))
    (dense rs (inner_sizes ks) (asm (fun _ e => frow e) (fun m _ => m) (fun _ e => fblk e) 0 ks)).
Proof.
  intros ND Hiso. rewrite asm_map. apply (ents_isometry_map (fun me => frow (snd me)) fst (fun me => fblk (snd me))).
  - rewrite <- (map_map snd frow), indexed_snd. exact ND.
  - rewrite indexed_fst. apply seq_NoDup.
  - intros x Hx _. rewrite indexed_fst. apply in_seq. unfold inner_sizes in Hx. rewrite map_length in Hx. lia.
  - intros me Hin. rewrite (bsize_inner ks me Hin). destruct me as [m e]. apply Hiso, (in_combine_r _ _ _ _ Hin).
Qed.

Theorem asm_isometry_T cs (fcol : sblock -> nat) (fblk : sblock -> dmat) ks :
  NoDup (map fcol ks) ->
  (forall e, In e ks -> orthonormal_cols (bsize cs (fcol e)) (f_n (sb_fac e)) (mT (fblk e))) ->
  orthonormal_cols (list_sum cs) (list_sum (inner_sizes ks))
    (mT (dense (inner_sizes ks) cs (asm (fun m _ => m) (fun _ e => fcol e) (fun _ e => fblk e) 0 ks))).
Proof.
  intros ND Hiso. apply orthonormal_rows_tent. rewrite asm_map, map_map.
  pose proof (asm_isometry cs fcol (fun e => mT (fblk e)) ks ND Hiso) as H. rewrite asm_map in H. exact H.
Qed.

Lemma pairs_L_rows ps : map erow (pairs_L ps) = map p_i ps.
Proof. unfold pairs_L. rewrite map_map. reflexivity. Qed.
Lemma pairs_L_cols ps : map ecol (pairs_L ps) = map p_x ps.
Proof. unfold pairs_L. rewrite map_map. reflexivity. Qed.

Lemma qr_fill_spec n stored q : In q (qr_fill n stored) <-> (q < n)%nat /\ ~ In q stored.
Proof.
  unfold qr_fill. rewrite filter_In, in_seq. split.
  - intros [H1 H2]. split; [lia|]. intros HI. apply existsb_eqb_In in HI. rewrite HI in H2. discriminate.
  - intros [H1 H2]. split; [lia|]. destruct (existsb (Nat.eqb q) stored) eqn:E; [|reflexivity].
    exfalso. apply H2. apply existsb_eqb_In, E.
Qed.

Lemma qr_fill_NoDup n stored : NoDup (qr_fill n stored).
Proof. unfold qr_fill. apply NoDup_filter, seq_NoDup. Qed.

Lemma eye_isometry n a b : (a < n)%nat -> gram n delta a b = delta a b.
Proof.
  intros Ha. unfold gram. rewrite (sumn_ext _ _ (fun x => delta a x * delta x b)) by (intros x _; rewrite (delta_sym x a); reflexivity).
  exact (sumn_delta n a (fun x => delta x b) Ha).
Qed.

Theorem qr_complete_isometry rs ps :
  (forall p, In p ps -> p_x p = p_i p) -> NoDup (map p_i ps) ->
  (forall p, In p ps -> orthonormal_cols (bsize rs (p_i p)) (bsize rs (p_i p)) (p_A p)) ->
  orthonormal_cols (list_sum rs) (list_sum rs) (dense rs rs (qr_complete_Q rs ps)).
Proof.
  intros Hx NI Hiso.
  assert (Px : map p_x ps = map p_i ps) by (apply map_ext_in; exact Hx).
  assert (R : map erow (qr_complete_Q rs ps) = map p_i ps ++ qr_fill (length rs) (map p_i ps)).
  { unfold qr_complete_Q. rewrite map_app, pairs_L_rows, map_map. f_equal. apply map_id. }
  assert (C : map ecol (qr_complete_Q rs ps) = map p_i ps ++ qr_fill (length rs) (map p_i ps)).
  { unfold qr_complete_Q. rewrite map_app, pairs_L_cols, Px, map_map. f_equal. apply map_id. }
  assert (ND : NoDup (map p_i ps ++ qr_fill (length rs) (map p_i ps))).
  { apply NoDup_app_disj; [exact NI|apply qr_fill_NoDup|]. intros q H1 H2. apply qr_fill_spec in H2. tauto. }
  apply ents_isometry.
  - rewrite R. exact ND.
  - rewrite C. exact ND.
  - intros x Lx _. rewrite C. apply in_or_app. destruct (in_dec Nat.eq_dec x (map p_i ps)) as [Hin|NI'].
    + left. exact Hin.
    + right. apply qr_fill_spec. split; assumption.
  - intros e He. unfold qr_complete_Q in He. apply in_app_or in He. destruct He as [He|He].
    + unfold pairs_L in He. apply in_map_iff in He. destruct He as [p [<- Hp]].
      unfold erow, ecol, emat. cbn [fst snd]. rewrite (Hx p Hp). exact (Hiso p Hp).
    + apply in_map_iff in He. destruct He as [q [<- Hq]]. unfold erow, ecol, emat. cbn [fst snd].
      intros a b Ha Hb. apply eye_isometry, Ha.
Qed.

(* premise and conclusion keep the conjunction under the indices, as T05_svd_full_unitary states them;
   orthonormal_cols .. /\ orthonormal_cols (mT ..) has it outside *)
Theorem diag_unitary {A} (fq : A -> nat) (fmat : A -> dmat) qs (l : list A) :
  NoDup (map fq l) -> covers qs (map fq l) ->
  (forall s, In s l -> forall a b, (a < bsize qs (fq s))%nat -> (b < bsize qs (fq s))%nat ->
     gram (bsize qs (fq s)) (fmat s) a b = delta a b /\ gram (bsize qs (fq s)) (mT (fmat s)) a b = delta a b) ->
  let D := dense qs qs (map (fun s => (fq s, fq s, fmat s)) l) in
  forall t t', (t < list_sum qs)%nat -> (t' < list_sum qs)%nat ->
  gram (list_sum qs) D t t' = delta t t' /\ gram (list_sum qs) (mT D) t t' = delta t t'.
Proof.
  intros ND Cov H D t t' Ht Ht'. split.
  - apply (ents_isometry_map fq fq fmat qs qs l ND ND Cov); [|exact Ht|exact Ht']. intros s Hs a b Ha Hb. apply (H s Hs a b Ha Hb).
  - apply (ents_isometry_map_T fq fq fmat qs qs l ND ND Cov); [|exact Ht|exact Ht']. intros s Hs a b Ha Hb. apply (H s Hs a b Ha Hb).
Qed.
