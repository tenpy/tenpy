(* Soundness of the correspondence checker Model/MpsAddCheck.v: when check_add_case accepts an observed call of MPS.add, the
   OBSERVED tensors of the sum denote the linear combination of the observed inputs.  Only four of its nine tests are
   needed: the two length tests, 2 <= length and eq_tchain. *)
From TenpyV Require Import Base.Prelude Base.Lists Model.MpsAdd Model.MpsAddCheck Proofs.MpsAddP.
Open Scope Z_scope.

Fixpoint agree (rows : nat) (R C : chain) : Prop :=
  match R, C with
  | [], [] => True
  | (c, A) :: R', (c', A') :: C' =>
      c = c' /\ (forall i j, (i < rows)%nat -> (j < c)%nat -> A i j = A' i j) /\ agree c R' C'
  | _, _ => False
  end.

Definition dmat : mat := fun _ _ => 0.
Definition last_cols (R : chain) : nat := fst (last R (0%nat, dmat)).

Lemma chain_prod_agree : forall R C rows, agree rows R C ->
  forall i j, (i < rows)%nat -> (j < last_cols C)%nat -> chain_prod R i j = chain_prod C i j.
Proof.
  induction R as [|[c A] R' IH]; intros C rows H i j Hi Hj.
  - destruct C; [reflexivity|contradiction].
  - destruct C as [|[c' A'] C']; [contradiction|]. cbn [agree] in H. destruct H as [<- [HA HR]].
    destruct R' as [|x R''].
    + destruct C' as [|y C'']; [|contradiction].
      cbn [chain_prod]. apply HA; [exact Hi|exact Hj].
    + destruct C' as [|y C'']; [destruct x; contradiction|].
      rewrite !chain_prod_cons by (cbn [length]; lia).
      apply mmul_ext.
      * intros k Hk. apply HA; [exact Hi|exact Hk].
      * intros k Hk. apply (IH (y :: C'') c HR); [exact Hk|exact Hj].
Qed.

Lemma eq_mat_spec r c m l : eq_mat r c m l = true ->
  forall i j, (i < r)%nat -> (j < c)%nat -> m i j = lmat l i j.
Proof.
  unfold eq_mat. intros H i j Hi Hj.
  rewrite forallb_forall in H. specialize (H i). rewrite in_seq in H.
  assert (Hi' : (0 <= i < 0 + r)%nat) by lia. specialize (H Hi').
  rewrite forallb_forall in H. specialize (H j). rewrite in_seq in H.
  assert (Hj' : (0 <= j < 0 + c)%nat) by lia. specialize (H Hj').
  apply Z.eqb_eq. exact H.
Qed.

Definition in_pdim (p : nat) (x : ltens) : Prop := (p < pdim_of x)%nat.

Lemma eq_tchain_agree : forall (R : tchain) (obs : list ltens) (rows : nat) (ps : list nat),
  eq_tchain rows R obs = true -> Forall2 in_pdim ps obs ->
  agree rows (select R ps) (select (tchain_of obs) ps).
Proof.
  induction R as [|[c t] R' IH]; intros obs rows ps H HF.
  - destruct obs as [|x obs']; [|discriminate]. inversion HF; subst. exact I.
  - destruct obs as [|[[r' c'] t'] obs']; [discriminate|].
    inversion HF as [|p x ps' obs'' Hp HF']; subst.
    cbn [eq_tchain] in H.
    apply andb_prop in H. destruct H as [H Hrest].
    apply andb_prop in H. destruct H as [H Hent].
    apply andb_prop in H. destruct H as [H _].
    apply andb_prop in H. destruct H as [Hr Hc].
    apply Nat.eqb_eq in Hr. apply Nat.eqb_eq in Hc. subst r' c'.
    cbn [tchain_of map select agree]. split; [reflexivity|]. split.
    + intros i j Hi Hj. rewrite forallb_forall in Hent. specialize (Hent p).
      unfold in_pdim, pdim_of in Hp. cbn [snd] in Hp.
      assert (Hin : In p (seq 0 (length t'))) by (rewrite in_seq; lia).
      apply (eq_mat_spec _ _ _ _ (Hent Hin)); [exact Hi|exact Hj].
    + apply (IH obs' c ps' Hrest HF').
Qed.

Definition dltens : ltens := (0%nat, 0%nat, []).

Lemma last_cols_select : forall (T : list ltens) ps, length ps = length T ->
  last_cols (select (tchain_of T) ps) = cols_of (last T dltens).
Proof.
  induction T as [|[[r c] t] T IH]; intros [|p ps] Hl; try discriminate; [reflexivity|].
  destruct T as [|y T']; [destruct ps; [reflexivity|discriminate]|].
  destruct ps as [|q ps']; [discriminate|].
  change (last ((r, c, t) :: y :: T') dltens) with (last (y :: T') dltens). rewrite <- (IH (q :: ps')) by (cbn [length] in *; lia).
  destruct y as [[r2 c2] t2]. reflexivity.
Qed.

Theorem add_check_sound : forall (alpha nA beta nB : Z) (TA TB TC : list ltens),
  check_add_case (alpha, nA, beta, nB, TA, TB, TC) = true ->
  length TA = length TB /\ length TC = length TA /\ (2 <= length TA)%nat /\
  forall (ps : list nat) (i j : nat),
    Forall2 in_pdim ps TC ->
    (i < rows_of (hd dltens TA))%nat -> (j < cols_of (last TC dltens))%nat ->
    amplitude (tchain_of TC) ps i j =
      (alpha * nA) * amplitude (tchain_of TA) ps i j + (beta * nB) * amplitude (tchain_of TB) ps i j.
Proof.
  intros alpha nA beta nB TA TB TC H.
  unfold check_add_case in H.
  destruct TA as [|a TA']; [discriminate|]. destruct TB as [|b TB']; [discriminate|].
  rewrite !andb_true_iff in H. destruct H as [[[[[[[[_ _] _] HlenB] H2] _] _] HlenC] Heq].
  apply Nat.eqb_eq in HlenB. apply Nat.leb_le in H2. apply Nat.eqb_eq in HlenC.
  split; [exact HlenB|]. split; [exact HlenC|]. split; [exact H2|].
  intros ps i j HF Hi Hj. cbn [hd] in Hi.
  assert (Hlp : length ps = length TC) by (apply (Forall2_length _ _ _ HF)).
  pose proof (eq_tchain_agree _ _ _ _ Heq HF) as Hag.
  unfold amplitude.
  rewrite <- (chain_prod_agree _ _ _ Hag i j Hi).
  - apply tadd_linear.
    + unfold tchain_of. rewrite !map_length. exact HlenB.
    + unfold tchain_of. rewrite map_length. exact H2.
    + unfold tchain_of. rewrite map_length. congruence.
  - rewrite (last_cols_select TC ps Hlp). exact Hj.
Qed.
