(* C18, Model/ResumeProto.v.  A resume with everything restored (resume_full) is the uninterrupted run one (GS) or two
   (TE) steps further (GS needs that the stopping test was false at the checkpoint: gs_not_stopped).  The actual resume
   differs from it only in the accumulated error, on which control, times and grouping do not depend (same_up_to_err). *)
From TenpyV Require Import Base.Prelude Model.ResumeProto.

Lemma iter_add c a : forall b s, p_iter c (a + b) s = p_iter c b (p_iter c a s).
Proof. induction a as [|a IH]; intros b s; [reflexivity|]. cbn [Nat.add p_iter]. apply IH. Qed.

Lemma iter_step c k : forall s, p_step c (p_iter c k s) = p_iter c (S k) s.
Proof. induction k as [|k IH]; intro s; [reflexivity|]. cbn [p_iter] in *. apply IH. Qed.

Lemma done_step c s : is_done s = true -> p_step c s = s.
Proof.
  destruct s as [pc t a r g]. unfold is_done. cbn [s_pc]. destruct pc; try discriminate.
  intros _. unfold p_step. destruct (c_kind c); reflexivity.
Qed.

Lemma done_iter c n : forall s, is_done s = true -> p_iter c n s = s.
Proof. induction n as [|n IH]; intros s H; [reflexivity|]. cbn [p_iter]. rewrite (done_step c s H). apply IH, H. Qed.

Lemma iter_after_done c m n s : is_done (p_iter c m s) = true -> m <= n -> p_iter c n s = p_iter c m s.
Proof.
  intros H Hle. replace n with (m + (n - m)) by lia. rewrite iter_add. apply done_iter, H.
Qed.

Lemma iter_inv c (P : pst -> Prop) : (forall s, P s -> P (p_step c s)) -> forall k s, P s -> P (p_iter c k s).
Proof. intros Hstep. induction k as [|k IH]; intros s H; [exact H|]. cbn [p_iter]. apply IH, Hstep, H. Qed.

Definition gs_not_stopped (c : pcfg) (s : pst) : Prop :=
  match c_kind c, s_pc s with
  | GS, PCkpt => (c_T c <? s_t s) = false
  | GS, PSaved => (c_T c <? s_t s) = false
  | _, _ => True
  end.

Lemma gs_not_stopped_step c s : gs_not_stopped c s -> gs_not_stopped c (p_step c s).
Proof.
  destruct s as [pc t a r g]. unfold gs_not_stopped, p_step. cbn [s_pc s_t].
  destruct (c_kind c); destruct pc; cbn [s_pc s_t]; intro H;
    repeat match goal with |- context [if ?b then _ else _] => destruct b eqn:? end;
    cbn [s_pc s_t]; try exact I; try assumption.
Qed.

Lemma gs_not_stopped_run c k : gs_not_stopped c (p_iter c k p_init).
Proof. apply iter_inv; [apply gs_not_stopped_step|]. unfold gs_not_stopped, p_init. cbn. destruct (c_kind c); exact I. Qed.

(* a psi loaded from a checkpoint (already grouped group_sites times) is NOT grouped again *)
Lemma g_enter_idem gs : g_enter true gs (g_enter false gs []) = g_enter false gs [].
Proof.
  unfold g_enter. destruct (1 <? gs) eqn:E; [|reflexivity].
  cbn [negb orb prod_nat fold_right].
  rewrite Nat.mul_1_r, Nat.ltb_irrefl. reflexivity.
Qed.

Lemma g_enter_fresh_prod gs : 1 <= gs -> prod_nat (g_enter false gs []) = gs.
Proof.
  intro H. unfold g_enter. destruct (1 <? gs) eqn:E; cbn [negb orb prod_nat fold_right].
  - lia.
  - apply Nat.ltb_ge in E. lia.
Qed.

Lemma g_split_fresh gs : g_split gs (g_enter false gs []) = [].
Proof. unfold g_split, g_enter. destruct (1 <? gs); reflexivity. Qed.

Definition grouping_inv (c : pcfg) (s : pst) : Prop :=
  match s_pc s with
  | PInit => s_g s = []
  | PDone => s_g s = []
  | _ => s_g s = g_enter false (c_group c) []
  end.

Lemma grouping_inv_step c s : grouping_inv c s -> grouping_inv c (p_step c s).
Proof.
  destruct s as [pc t a r g]. unfold grouping_inv, p_step. cbn [s_pc s_g].
  destruct (c_kind c); destruct pc; cbn [s_pc s_g]; intro H;
    repeat match goal with |- context [if ?b then _ else _] => destruct b eqn:? end;
    cbn [s_pc s_g]; try exact I; try assumption; try (rewrite H; reflexivity);
    try (rewrite H; apply g_split_fresh).
Qed.

Lemma grouping_inv_run c k : grouping_inv c (p_iter c k p_init).
Proof. apply iter_inv; [apply grouping_inv_step|reflexivity]. Qed.

Lemma grouping_inv_done c s : grouping_inv c s -> is_done s = true -> s_g s = [].
Proof. unfold grouping_inv, is_done. destruct (s_pc s); try discriminate. intros H _. exact H. Qed.

Lemma snapshot_pc c s : at_snapshot c s = true -> s_pc s = PMeasured \/ s_pc s = PSaved.
Proof. unfold at_snapshot. destruct (c_kind c); destruct (s_pc s); try discriminate; auto. Qed.

Lemma snapshot_g c s : grouping_inv c s -> at_snapshot c s = true -> s_g s = g_enter false (c_group c) [].
Proof. intros Hg Hs. unfold grouping_inv in Hg. destruct (snapshot_pc c s Hs) as [E|E]; rewrite E in Hg; exact Hg. Qed.

Lemma resume_g c s : grouping_inv c s -> at_snapshot c s = true -> g_enter true (c_group c) (s_g s) = s_g s.
Proof. intros Hg Hs. rewrite (snapshot_g c s Hg Hs). apply g_enter_idem. Qed.

Definition resume_full (s : pst) : pst := mkSt (PHead true) (s_t s) (s_acc s) (s_recs s) (s_g s).

Lemma resume_full_step c s : gs_not_stopped c s -> at_snapshot c s = true ->
  p_step c (resume_full s) = match c_kind c with TE => p_step c (p_step c s) | GS => p_step c s end.
Proof.
  destruct s as [pc t a r g]. unfold gs_not_stopped, at_snapshot, resume_full, p_step. cbn [s_pc s_t s_acc s_recs s_g].
  destruct (c_kind c); destruct pc; try discriminate; intros Hi _.
  - reflexivity.
  - rewrite Hi. reflexivity.
Qed.

Lemma init_not_done : is_done p_init = false.
Proof. reflexivity. Qed.

Lemma resume_full_equal c k m :
  at_snapshot c (p_iter c k p_init) = true ->
  is_done (p_iter c m p_init) = true ->
  p_iter c m (resume_full (p_iter c k p_init)) = p_iter c m p_init.
Proof.
  intros Hs Hd. destruct m as [|m]; [cbn in Hd; discriminate|].
  cbn [p_iter]. rewrite (resume_full_step c _ (gs_not_stopped_run c k) Hs).
  (* one or two steps further along the uninterrupted run, which is done after S m steps *)
  destruct (c_kind c); (rewrite !iter_step, <- iter_add; apply (iter_after_done c (S m)); [exact Hd|lia]).
Qed.

Definition same_up_to_err (s1 s2 : pst) : Prop :=
  s_pc s1 = s_pc s2 /\ s_t s1 = s_t s2 /\ times s1 = times s2 /\ s_g s1 = s_g s2.

Lemma same_up_to_err_step c s1 s2 : same_up_to_err s1 s2 -> same_up_to_err (p_step c s1) (p_step c s2).
Proof.
  destruct s1 as [pc1 t1 a1 r1 g1], s2 as [pc2 t2 a2 r2 g2]. unfold same_up_to_err, times. cbn [s_pc s_t s_recs s_g].
  intros [Hpc [Ht [Hr Hg]]]. subst pc2 t2 g2. unfold p_step.
  destruct (c_kind c); destruct pc1; cbn [s_pc s_t s_recs s_g];
    repeat match goal with |- context [if ?b then _ else _] => destruct b end;
    cbn [s_pc s_t s_recs s_g]; rewrite ?map_app, ?Hr; repeat split; reflexivity.
Qed.

Lemma same_up_to_err_iter c n : forall s1 s2, same_up_to_err s1 s2 -> same_up_to_err (p_iter c n s1) (p_iter c n s2).
Proof. induction n as [|n IH]; intros s1 s2 H; [exact H|]. cbn [p_iter]. apply IH, same_up_to_err_step, H. Qed.

Lemma same_up_to_err_resume c s : grouping_inv c s -> at_snapshot c s = true -> same_up_to_err (p_resume c s) (resume_full s).
Proof.
  intros Hg Hs. unfold same_up_to_err, p_resume, resume_full, times. cbn [s_pc s_t s_recs s_g].
  rewrite (resume_g c s Hg Hs). repeat split.
Qed.

Lemma resume_restored c s : grouping_inv c s -> at_snapshot c s = true -> c_restore c = true -> p_resume c s = resume_full s.
Proof. intros Hg Hs H. unfold p_resume, resume_full. rewrite H, (resume_g c s Hg Hs). reflexivity. Qed.

Lemma resume_measurements c k m :
  at_snapshot c (p_iter c k p_init) = true ->
  is_done (p_iter c m p_init) = true ->
  let r := p_iter c m (p_resume c (p_iter c k p_init)) in
  is_done r = true /\ s_t r = s_t (p_iter c m p_init) /\ times r = times (p_iter c m p_init) /\
  s_g r = s_g (p_iter c m p_init) /\
  (c_restore c = true -> r = p_iter c m p_init).
Proof.
  intros Hs Hd r.
  pose proof (grouping_inv_run c k) as Hgi.
  pose proof (same_up_to_err_iter c m _ _ (same_up_to_err_resume c (p_iter c k p_init) Hgi Hs)) as [Hpc [Ht [Htm Hg]]].
  rewrite (resume_full_equal c k m Hs Hd) in Hpc, Ht, Htm, Hg.
  fold r in Hpc, Ht, Htm, Hg.
  split; [|split; [exact Ht|split; [exact Htm|split; [exact Hg|]]]].
  - unfold is_done in *. rewrite Hpc. exact Hd.
  - intro Hr. unfold r. rewrite (resume_restored c _ Hgi Hs Hr). apply resume_full_equal; assumption.
Qed.

Lemma resume_grouping c k m :
  at_snapshot c (p_iter c k p_init) = true ->
  is_done (p_iter c m p_init) = true ->
  let s := p_iter c k p_init in
  s_g (p_resume c s) = s_g s /\ s_g s = g_enter false (c_group c) [] /\
  (1 <= c_group c -> prod_nat (s_g (p_resume c s)) = c_group c) /\
  s_g (p_iter c m p_init) = [] /\ s_g (p_iter c m (p_resume c s)) = [].
Proof.
  intros Hs Hd s.
  pose proof (grouping_inv_run c k) as Hgi. fold s in Hgi, Hs.
  pose proof (grouping_inv_done c _ (grouping_inv_run c m) Hd) as Hfin.
  split; [|split; [|split; [|split]]].
  - unfold p_resume. cbn [s_g]. apply (resume_g c s Hgi Hs).
  - apply (snapshot_g c s Hgi Hs).
  - intro H1. unfold p_resume. cbn [s_g]. rewrite (resume_g c s Hgi Hs), (snapshot_g c s Hgi Hs).
    apply g_enter_fresh_prod, H1.
  - exact Hfin.
  - destruct (resume_measurements c k m Hs Hd) as [_ [_ [_ [Hg _]]]]. fold s in Hg. rewrite Hg. exact Hfin.
Qed.

Lemma te_finishes : is_done (p_iter (mkCfg TE 3 2 (fun _ => 1) true true 1) 12 p_init) = true /\
                    times (p_iter (mkCfg TE 3 2 (fun _ => 1) true true 1) 12 p_init) = [0; 2; 4].
Proof. split; reflexivity. Qed.

Lemma te_grouped_finishes :
  let c := mkCfg TE 3 2 (fun _ => 1) true false 2 in
  is_done (p_iter c 12 p_init) = true /\ times (p_iter c 12 p_init) = [2; 4] /\ s_g (p_iter c 12 p_init) = [] /\
  at_snapshot c (p_iter c 6 p_init) = true /\ s_g (p_iter c 6 p_init) = [2].
Proof. repeat split; reflexivity. Qed.
