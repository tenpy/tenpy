(* The sign table of MPS.swap_sites(swap_op='auto') (Model/SwapSign.v): n_prod is the row-major outer product of the two lists
   of JW exponents (n_prod_cons), so entry a * dR + b of the diagonal is sign_ab; the Fock-space sign is the parity of the
   inversions of the word 1^na 0^nb. *)
From TenpyV Require Import Base.Prelude Base.Lists Model.Perms Proofs.AdjSwapsP Model.SwapSign.
Open Scope Z_scope.

Lemma combine_const_mul x (l : list Z) :
  map (fun p : Z * Z => fst p * snd p) (combine (map (fun _ => x) l) l) = map (fun y => x * y) l.
Proof. induction l as [|z l IHl]; cbn [map combine fst snd]; [reflexivity|]. rewrite IHl. reflexivity. Qed.

Lemma odd_of_nat n : Z.odd (Z.of_nat n) = Nat.odd n.
Proof.
  induction n as [|n IH]; [reflexivity|].
  rewrite Nat2Z.inj_succ, Z.odd_succ, Nat.odd_succ, <- Z.negb_odd, <- Nat.negb_odd, IH. reflexivity.
Qed.

Lemma n_i_length jwL jwR : length (n_i jwL jwR) = (length jwL * length jwR)%nat.
Proof.
  unfold n_i. induction jwL as [|x jwL IH]; cbn [flat_map length]; [reflexivity|].
  rewrite app_length, map_length, IH. lia.
Qed.

Lemma n_prod_cons x jwL jwR : n_prod (x :: jwL) jwR = map (fun y => x * y) jwR ++ n_prod jwL jwR.
Proof.
  unfold n_prod, n_i, n_j. cbn [flat_map].
  rewrite combine_app2 by (rewrite map_length; reflexivity).
  rewrite map_app, combine_const_mul. reflexivity.
Qed.

Lemma n_prod_length jwL jwR : length (n_prod jwL jwR) = (length jwL * length jwR)%nat.
Proof.
  induction jwL as [|x jwL IH]; [reflexivity|]. rewrite n_prod_cons, app_length, map_length, IH. cbn [length]. lia.
Qed.

Lemma swap_diag_length jwL jwR : length (swap_diag jwL jwR) = (length jwL * length jwR)%nat.
Proof. unfold swap_diag. rewrite map_length. apply n_prod_length. Qed.

Lemma n_prod_nth jwL jwR : forall a b, (a < length jwL)%nat -> (b < length jwR)%nat ->
  nth (a * length jwR + b) (n_prod jwL jwR) 0 = nth a jwL 0 * nth b jwR 0.
Proof.
  induction jwL as [|x jwL IH]; intros a b Ha Hb; [cbn [length] in Ha; lia|].
  rewrite n_prod_cons. destruct a as [|a].
  - cbn [Nat.mul Nat.add]. rewrite app_nth1 by (rewrite map_length; exact Hb).
    apply nth_map_default, Hb.
  - cbn [length] in Ha.
    replace (Datatypes.S a * length jwR + b)%nat with (length jwR + (a * length jwR + b))%nat by lia.
    rewrite app_nth2 by (rewrite map_length; lia).
    rewrite map_length.
    replace (length jwR + (a * length jwR + b) - length jwR)%nat with (a * length jwR + b)%nat by lia.
    rewrite IH by lia. reflexivity.
Qed.

Lemma n_prod_Forall (P : Z -> Prop) jwL jwR :
  Forall P (n_prod jwL jwR) <->
  (forall a b, (a < length jwL)%nat -> (b < length jwR)%nat -> P (nth a jwL 0 * nth b jwR 0)).
Proof.
  induction jwL as [|x jwL IH]; [split; [intros _ a b Ha; cbn [length] in Ha; lia|constructor]|].
  rewrite n_prod_cons, Forall_app, Forall_map, IH, Forall_forall. split.
  - intros [H1 H2] [|a] b Ha Hb; cbn [nth length] in *; [apply H1, nth_In; exact Hb|apply H2; lia].
  - intros H. split.
    + intros y Hy. destruct (In_nth _ _ 0 Hy) as [b [Hb <-]]. apply (H 0%nat b); cbn [length]; lia.
    + intros a b Ha Hb. apply (H (Datatypes.S a) b); cbn [length]; lia.
Qed.

Lemma pow_m1_mul x y : pow_m1 (x * y) = if Z.odd x && Z.odd y then -1 else 1.
Proof. unfold pow_m1. rewrite Z.odd_mul. reflexivity. Qed.

Lemma swap_diag_nth jwL jwR a b : (a < length jwL)%nat -> (b < length jwR)%nat ->
  nth (a * length jwR + b) (swap_diag jwL jwR) 0 = sign_ab jwL jwR a b.
Proof.
  intros Ha Hb. unfold swap_diag. rewrite (nth_map_default pow_m1 _ _ 0) by (rewrite n_prod_length; nia).
  rewrite n_prod_nth, pow_m1_mul by assumption. reflexivity.
Qed.

Lemma countb_repeat_gt x y n : countb (fun z => (z <? x)%nat) (repeat y n) = if (y <? x)%nat then n else 0%nat.
Proof.
  induction n as [|n IH]; cbn [repeat countb]; [destruct (y <? x)%nat; reflexivity|].
  rewrite IH. destruct (y <? x)%nat; lia.
Qed.

Lemma ginv_repeat_zero n : ginv (fun x y => (y <? x)%nat) (repeat 0%nat n) = 0%nat.
Proof.
  induction n as [|n IH]; cbn [repeat ginv]; [reflexivity|].
  rewrite IH, countb_repeat_gt. reflexivity.
Qed.

Lemma exchange_inversions na nb : ginv (fun x y => (y <? x)%nat) (exchange_word na nb) = (na * nb)%nat.
Proof.
  unfold exchange_word. induction na as [|na IH]; cbn [repeat app].
  - apply ginv_repeat_zero.
  - cbn [ginv]. rewrite IH, countb_app, !countb_repeat_gt. cbn. lia.
Qed.

Lemma fock_exchange_sign_spec na nb :
  fock_exchange_sign na nb = if Nat.odd na && Nat.odd nb then -1 else 1.
Proof.
  unfold fock_exchange_sign. rewrite exchange_inversions, Nat2Z.inj_mul, pow_m1_mul, !odd_of_nat. reflexivity.
Qed.

Lemma sign_ab_m1 jwL jwR a b :
  sign_ab jwL jwR a b = -1 <-> Z.odd (nth a jwL 0) = true /\ Z.odd (nth b jwR 0) = true.
Proof. unfold sign_ab. destruct (Z.odd (nth a jwL 0)), (Z.odd (nth b jwR 0)); cbn [andb]; intuition discriminate. Qed.

Lemma swap_entry_fock jwL jwR a b na nb : (a < length jwL)%nat -> (b < length jwR)%nat ->
  Nat.odd na = Z.odd (nth a jwL 0) -> Nat.odd nb = Z.odd (nth b jwR 0) ->
  nth (a * length jwR + b) (swap_diag jwL jwR) 0 = fock_exchange_sign na nb.
Proof.
  intros Ha Hb Hna Hnb. rewrite swap_diag_nth by assumption.
  rewrite fock_exchange_sign_spec, Hna, Hnb. reflexivity.
Qed.

Lemma swap_diag_identity_iff jwL jwR :
  Forall (fun x => x = 1) (swap_diag jwL jwR) <-> no_odd_pair jwL jwR.
Proof.
  unfold swap_diag, no_odd_pair. rewrite Forall_map, n_prod_Forall.
  split; intros H a b Ha Hb; specialize (H a b Ha Hb); rewrite pow_m1_mul in *;
    destruct (Z.odd (nth a jwL 0) && Z.odd (nth b jwR 0)); congruence.
Qed.

Lemma np_any_false l : np_any l = false <-> Forall (fun x => x = 0) l.
Proof.
  unfold np_any. induction l as [|x l IH]; cbn [existsb]; [split; [constructor|reflexivity]|].
  rewrite orb_false_iff, IH, negb_false_iff, Z.eqb_eq. split; [intros [H1 H2]; constructor; assumption|].
  intros H. inversion H; auto.
Qed.

Lemma is_parity_nth jw a : is_parity jw -> nth a jw 0 = 0 \/ nth a jw 0 = 1.
Proof. intros H. exact (Forall_nth_d _ jw a 0 H (or_introl eq_refl)). Qed.

Lemma swap_op_none_sound jwL jwR : swap_op_auto jwL jwR = None -> no_odd_pair jwL jwR.
Proof.
  unfold swap_op_auto. destruct (np_any (n_prod jwL jwR)) eqn:E; [discriminate|]. intros _.
  rewrite np_any_false, n_prod_Forall in E. intros a b Ha Hb. specialize (E a b Ha Hb).
  rewrite <- Z.odd_mul, E. reflexivity.
Qed.

Lemma swap_op_none_iff jwL jwR : is_parity jwL -> is_parity jwR ->
  (swap_op_auto jwL jwR = None <-> no_odd_pair jwL jwR).
Proof.
  intros HL HR. split; [apply swap_op_none_sound|].
  intros Hno. unfold swap_op_auto.
  assert (E : np_any (n_prod jwL jwR) = false).
  { apply np_any_false, n_prod_Forall. intros a b Ha Hb. specialize (Hno a b Ha Hb).
    destruct (is_parity_nth jwL a HL) as [-> | Ea]; [lia|].
    destruct (is_parity_nth jwR b HR) as [-> | Eb]; [lia|].
    rewrite Ea, Eb in Hno. discriminate. }
  rewrite E. reflexivity.
Qed.

Lemma swap_op_some jwL jwR dg : swap_op_auto jwL jwR = Some dg -> dg = swap_diag jwL jwR.
Proof. unfold swap_op_auto. destruct (np_any _); intros H; inversion H. reflexivity. Qed.

Lemma swap_op_entry_spec jwL jwR a b a' b' :
  (a < length jwL)%nat -> (b < length jwR)%nat -> (a' < length jwL)%nat -> (b' < length jwR)%nat ->
  swap_op_entry jwL jwR b a a' b' = if ((a =? a') && (b =? b'))%nat then sign_ab jwL jwR a b else 0.
Proof.
  intros Ha Hb Ha' Hb'. unfold swap_op_entry, diag_reshape.
  destruct (a * length jwR + b =? a' * length jwR + b')%nat eqn:E.
  - apply Nat.eqb_eq in E. rewrite !(Nat.mul_comm _ (length jwR)) in E.
    destruct (Nat.div_mod_unique _ _ _ _ _ Hb Hb' E) as [-> ->].
    rewrite !Nat.eqb_refl. cbn [andb]. apply swap_diag_nth; assumption.
  - apply Nat.eqb_neq in E. destruct (a =? a')%nat eqn:Ea; [|reflexivity].
    destruct (b =? b')%nat eqn:Eb; [|reflexivity].
    apply Nat.eqb_eq in Ea, Eb. subst. congruence.
Qed.

Lemma step_sign_is_table s s' jwL jwR a b :
  step s = Some s' ->
  (nth (Datatypes.S (p_i s)) (p_perm s) 0 <? nth (p_i s) (p_perm s) 0) = true ->
  (a < length jwL)%nat -> (b < length jwR)%nat ->
  parity_at (p_arr s) (p_i s) = Z.odd (nth a jwL 0) ->
  parity_at (p_arr s) (Datatypes.S (p_i s)) = Z.odd (nth b jwR 0) ->
  p_sign s' = xorb (p_sign s) (nth (a * length jwR + b) (swap_diag jwL jwR) 0 =? -1).
Proof.
  intros Hs Hlt Ha Hb HpL HpR. unfold step in Hs.
  destruct (Datatypes.S (p_i s) <? length (p_perm s))%nat; [|discriminate].
  rewrite Hlt in Hs. inversion Hs; subst s'; clear Hs. cbn [p_sign].
  rewrite swap_diag_nth by assumption. unfold sign_ab. rewrite HpL, HpR.
  destruct (Z.odd (nth a jwL 0) && Z.odd (nth b jwR 0)); reflexivity.
Qed.
