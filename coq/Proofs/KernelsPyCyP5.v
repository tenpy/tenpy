(* Array.itranspose (Model/KernelsPyCy3.v).  Python's validation cannot fail, because valid labels stay valid under duplicate-free
   in-range axes.  A C-contiguous copy has the elements of the view in the same C order, because cstrides enumerate ngrid. *)
From TenpyV Require Import Base.Prelude Base.Lists Model.KernelsPyCy3.

Lemma append_loop_pick {A B} (dA : A) (dB : B) oldA oldB : forall axes newA newB,
  append_loop dA dB oldA oldB axes newA newB = (newA ++ pick dA oldA axes, newB ++ pick dB oldB axes).
Proof.
  induction axes as [|a t IH]; intros newA newB; cbn [append_loop pick map].
  - rewrite !app_nil_r. reflexivity.
  - rewrite IH. unfold pick. rewrite <- !app_assoc. reflexivity.
Qed.

Lemma map_add_seq a : forall L s, map (Nat.add a) (seq s L) = seq (a + s) L.
Proof.
  induction L as [|L IH]; intros s; cbn [seq map]; [reflexivity|].
  f_equal. rewrite IH. f_equal. lia.
Qed.

Lemma flat_seq L : forall n, flat_map (fun i => seq (i * L) L) (seq 0 n) = seq 0 (n * L).
Proof.
  induction n as [|n IH]; [reflexivity|].
  rewrite seq_S, flat_map_app, IH. cbn [flat_map Nat.add]. rewrite app_nil_r.
  replace (S n * L) with (n * L + L) by lia. rewrite seq_app. reflexivity.
Qed.

Lemma ngrid_count : forall sh, length (ngrid sh) = fold_right Nat.mul 1 sh.
Proof.
  induction sh as [|n t IH]; [reflexivity|]. cbn [ngrid fold_right].
  rewrite (length_flat_map_const _ _ (length (ngrid t))) by (intros; apply map_length).
  rewrite seq_length, IH. reflexivity.
Qed.

Lemma ravel_grid : forall sh, map (dotN (cstrides sh)) (ngrid sh) = seq 0 (length (ngrid sh)).
Proof.
  induction sh as [|n t IH]; [reflexivity|].
  cbn [ngrid cstrides]. rewrite map_flat_map.
  rewrite (length_flat_map_const _ _ (length (ngrid t))) by (intros; apply map_length).
  rewrite seq_length, <- flat_seq.
  apply flat_map_ext. intros i. rewrite map_map. cbn [dotN].
  rewrite <- (map_map (dotN (cstrides t)) (fun q => i * fold_right Nat.mul 1 t + q)), IH.
  rewrite <- ngrid_count. change (fun q => i * length (ngrid t) + q) with (Nat.add (i * length (ngrid t))).
  rewrite map_add_seq. f_equal. lia.
Qed.

Lemma dense_contiguous v : dense (contiguous v) = dense v.
Proof.
  unfold contiguous. unfold dense at 1. cbn [v_strides v_buf v_shape].
  rewrite <- (map_map (dotN (cstrides (v_shape v))) (fun p => nth p (dense v) 0%Z)), ravel_grid.
  replace (length (ngrid (v_shape v))) with (length (dense v)) by (unfold dense; apply map_length).
  apply map_nth_seq.
Qed.

Lemma view_obs_contiguous v : view_obs (contiguous v) = view_obs v.
Proof. unfold view_obs. rewrite dense_contiguous. reflexivity. Qed.

Lemma lab_eqb_some l y : lab_eqb (Some l) y = true <-> y = Some l.
Proof.
  destruct y as [b|]; cbn [lab_eqb]; split; intros H; try discriminate.
  - apply Nat.eqb_eq in H. subst. reflexivity.
  - inversion H. apply Nat.eqb_refl.
Qed.

Lemma existsb_lab l t : existsb (lab_eqb (Some l)) t = true <-> In (Some l) t.
Proof.
  rewrite existsb_exists. split.
  - intros (y & Hin & Hy). apply lab_eqb_some in Hy. subst y. exact Hin.
  - intros Hin. exists (Some l). split; [exact Hin|]. apply lab_eqb_some. reflexivity.
Qed.

Lemma LP_cons x t : LP (x :: t) <-> LP t /\ (x <> None -> ~ In x t).
Proof.
  split.
  - intros P. split.
    + intros i j Hi Hj Hij E. apply (P (S i) (S j)); cbn [length nth]; try lia. exact E.
    + intros Hx Hin. destruct (In_nth _ _ None Hin) as (j & Hj & Ej).
      apply Hx. apply (P 0 (S j)); cbn [length nth]; try lia. symmetry. exact Ej.
  - intros [P Hx] i j Hi Hj Hij E. cbn [length] in Hi, Hj.
    destruct i as [|i], j as [|j]; cbn [nth] in *.
    + contradiction.
    + destruct x; [|reflexivity]. exfalso. apply Hx; [discriminate|]. rewrite E. apply nth_In. lia.
    + destruct x; [|exact E]. exfalso. apply Hx; [discriminate|]. rewrite <- E. apply nth_In. lia.
    + apply (P i j); [lia|lia|congruence|exact E].
Qed.

(* iset_leg_labels accepts exactly the label lists without '' and without a label at two positions *)
Lemma labels_valid_iff : forall ls, labels_valid ls = true <-> LP ls /\ LQ ls.
Proof.
  induction ls as [|x t IH].
  - split; [intros _|reflexivity]. split; [intros i j Hi; cbn [length] in Hi; lia|intros []].
  - unfold LQ in *. rewrite LP_cons, not_in_cons. destruct x as [l|]; cbn [labels_valid].
    + rewrite !andb_true_iff, !negb_true_iff, IH, Nat.eqb_neq, <- not_true_iff_false, existsb_lab. split.
      * intros [[Hl Hn] [P Q]]. repeat split; auto. congruence.
      * intros [[P Hx] [Hl Q]]. repeat split; auto. apply Hx. discriminate.
    + rewrite IH. split; [intros [P Q]; repeat split; auto; discriminate|tauto].
Qed.

Lemma nodupb_NoDup : forall l, nodupb l = true -> NoDup l.
Proof.
  induction l as [|x t IH]; intros H; [constructor|]. cbn [nodupb] in H. apply andb_prop in H. destruct H as [H1 H2].
  constructor; [|apply IH; exact H2]. rewrite <- existsb_eqb_In. apply negb_true_iff in H1. congruence.
Qed.

Lemma pick_nth {A} (d : A) l axes i : i < length axes -> nth i (pick d l axes) d = nth (nth i axes 0) l d.
Proof. exact (nth_map_default (fun a => nth a l d) axes i 0 d). Qed.

Lemma pick_labels_valid ls axes :
  labels_valid ls = true -> NoDup axes -> Forall (fun a => a < length ls) axes ->
  labels_valid (pick None ls axes) = true.
Proof.
  intros Hv Hnd Hr. destruct (proj1 (labels_valid_iff ls) Hv) as [P Q]. rewrite Forall_forall in Hr.
  assert (Hlen : length (pick None ls axes) = length axes) by (unfold pick; apply map_length).
  apply labels_valid_iff. split.
  - intros i j Hi Hj Hij E. rewrite Hlen in Hi, Hj. rewrite !pick_nth in * by assumption.
    apply (P (nth i axes 0) (nth j axes 0)); try (apply Hr, nth_In; assumption); [|exact E].
    intros Eij. apply Hij. apply (proj1 (NoDup_nth axes 0) Hnd); assumption.
  - intros Hin. unfold pick in Hin. apply in_map_iff in Hin. destruct Hin as (a & Ea & Ha).
    apply Q. rewrite <- Ea. apply nth_In. apply Hr. exact Ha.
Qed.

Lemma axes_ok_labels a axes :
  labels_valid (a_labels a) = true -> length (a_labels a) = length (a_legs a) ->
  axes_ok (length (a_legs a)) axes = true -> labels_valid (pick None (a_labels a) axes) = true.
Proof.
  intros Hv Hl Eok. unfold axes_ok in Eok.
  apply andb_prop in Eok. destruct Eok as [Eok E3]. apply andb_prop in Eok. destruct Eok as [_ E2].
  apply pick_labels_valid; [exact Hv|apply nodupb_NoDup, E2|].
  rewrite Hl. apply Forall_forall. intros x Hx. rewrite forallb_forall in E3. specialize (E3 x Hx). lia.
Qed.

Lemma itranspose_eq a axes :
  labels_valid (a_labels a) = true -> length (a_labels a) = length (a_legs a) ->
  opt_obs_eq (itranspose_cy a axes) (itranspose_py a axes).
Proof.
  intros Hv Hl. unfold itranspose_cy, itranspose_py.
  destruct (axes_ok (length (a_legs a)) axes) eqn:Eok; cbn [negb]; [|exact I].
  destruct (is_identity (length (a_legs a)) axes); [reflexivity|].
  rewrite axes_ok_labels by assumption. cbn [opt_obs_eq]. rewrite append_loop_pick. cbn [fst snd app]. unfold arr_obs.
  cbn [a_legs a_labels a_qdata a_blocks a_sorted]. f_equal. f_equal.
  rewrite !map_map. apply map_ext. intros b. apply view_obs_contiguous.
Qed.

Lemma itranspose_py_ok a axes :
  labels_valid (a_labels a) = true -> length (a_labels a) = length (a_legs a) ->
  axes_ok (length (a_legs a)) axes = true ->
  exists r, itranspose_py a axes = Some r
    /\ (axes <> seq 0 (length (a_legs a)) ->
        a_sorted r = false /\ a_legs r = pick 0 (a_legs a) axes /\ a_labels r = pick None (a_labels a) axes
        /\ a_qdata r = map (fun row => pick 0%Z row axes) (a_qdata a)).
Proof.
  intros Hv Hl Eok. unfold itranspose_py. rewrite Eok. cbn [negb]. unfold is_identity.
  destruct (list_eq_dec Nat.eq_dec axes (seq 0 (length (a_legs a)))) as [E|NE].
  - exists a. split; [reflexivity|]. intros H. contradiction.
  - rewrite axes_ok_labels by assumption. eexists. split; [reflexivity|]. intros _. cbn. repeat split; reflexivity.
Qed.
