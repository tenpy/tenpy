(* Model/LatticeTransform.v (property C19): enlarging the MPS unit cell of an infinite lattice does not change mps2lat:
   the row q * N_sites + k of the new order is row k of the old one moved by q old unit cells.  Nothing is said about
   lat2mps of the enlarged lattice. *)
From TenpyV Require Import Base.Prelude Base.Lists Model.Lattice Model.LatticeTransform Proofs.LatticeP.
Open Scope Z_scope.

Lemma nth_error_flat_map_const {A B} (g : A -> list B) (n : nat) :
  (forall x, length (g x) = n) ->
  forall (l : list A) (q r : nat), (r < n)%nat ->
  nth_error (flat_map g l) (q * n + r) =
  match nth_error l q with Some x => nth_error (g x) r | None => None end.
Proof.
  intros Hlen l. induction l as [|a l IH]; intros q r Hr.
  - cbn [flat_map]. destruct q; cbn [nth_error]; destruct (_ + r)%nat; reflexivity.
  - cbn [flat_map]. destruct q as [|q].
    + cbn [Nat.mul Nat.add nth_error]. apply nth_error_app1. rewrite Hlen. exact Hr.
    + cbn [nth_error]. rewrite nth_error_app2 by (rewrite Hlen; lia).
      rewrite Hlen. replace (S q * n + r - n)%nat with (q * n + r)%nat by lia.
      apply IH. exact Hr.
Qed.

Lemma nth_error_seq0 (f q : nat) : (q < f)%nat -> nth_error (seq 0 f) q = Some q.
Proof.
  intros H. rewrite (nth_error_nth' (seq 0 f) 0%nat) by (rewrite seq_length; exact H).
  rewrite seq_nth by exact H. reflexivity.
Qed.

Lemma enlarge_order_length f l0 o : length (enlarge_order f l0 o) = (f * length o)%nat.
Proof.
  unfold enlarge_order. rewrite (length_flat_map_const _ _ (length o)).
  - rewrite seq_length. reflexivity.
  - intros x. apply map_length.
Qed.

Lemma enlarge_order_nth f l0 o q r : (q < f)%nat -> (r < length o)%nat ->
  nth_error (enlarge_order f l0 o) (q * length o + r) =
  option_map (shift_site (Z.of_nat q * l0)) (nth_error o r).
Proof.
  intros Hq Hr. unfold enlarge_order.
  rewrite (nth_error_flat_map_const _ (length o)) by (try (intros x; apply map_length); exact Hr).
  rewrite nth_error_seq0 by exact Hq. apply nth_error_map.
Qed.

Lemma enlarge_nsites f lat : nsites (enlarge f lat) = Z.of_nat f * nsites lat.
Proof. unfold nsites, enlarge. cbn [lorder]. rewrite enlarge_order_length. lia. Qed.

(* with m = t * f + q, the site k + m * N_sites is row k of the copy q of the old order, moved by t new unit cells *)
Lemma enlarge_mps2lat : forall (f : nat) lat,
  (0 < f)%nat -> infinite lat = true -> lorder lat <> [] ->
  forall i, mps2lat (enlarge f lat) i = mps2lat lat i.
Proof.
  intros f lat Hf Hinf Hne i.
  destruct (mps2lat_total lat i) as ([[X0 xr] u] & H); [rewrite Hinf; exact Hne|].
  rewrite H. destruct (mps2lat_inv lat _ _ _ _ H) as (k & m & x0 & -> & -> & Hk & _).
  assert (Hm : exists t q, m = t * Z.of_nat f + Z.of_nat q /\ (q < f)%nat).
  { exists (m / Z.of_nat f), (Z.to_nat (m mod Z.of_nat f)). lia. }
  destruct Hm as (t & q & -> & Hq).
  assert (Hr : nth_error (lorder (enlarge f lat)) (q * length (lorder lat) + k) = Some (x0 + Z.of_nat q * L0 lat, xr, u)).
  { cbn [enlarge lorder]. rewrite enlarge_order_nth; [|exact Hq|exact (nth_error_some_lt _ _ _ Hk)].
    rewrite Hk. reflexivity. }
  pose proof (mps2lat_at _ _ t _ _ _ Hr (or_introl Hinf)) as HE. rewrite enlarge_nsites in HE. cbn [enlarge L0] in HE.
  replace (Z.of_nat k + (t * Z.of_nat f + Z.of_nat q) * nsites lat)
    with (Z.of_nat (q * length (lorder lat) + k) + t * (Z.of_nat f * nsites lat))
    by (unfold nsites; rewrite Nat2Z.inj_add, Nat2Z.inj_mul; ring).
  rewrite HE. f_equal. f_equal. f_equal. ring.
Qed.

Lemma connected_enlarge f lat x0 xr dx0 dxr y0 yr : infinite lat = true ->
  connected (enlarge f lat) x0 xr dx0 dxr y0 yr <-> connected lat x0 xr dx0 dxr y0 yr.
Proof. intros Hi. rewrite !connected_inf by exact Hi. reflexivity. Qed.

Lemma enlarge_couplings : forall (f : nat) lat, (0 < f)%nat -> wf lat -> infinite lat = true ->
  forall u1 u2 dx0 dxr i j,
  coupled (enlarge f lat) u1 u2 dx0 dxr i j <->
  exists m, 0 <= m < Z.of_nat f /\
    coupled lat u1 u2 dx0 dxr (i - m * nsites lat) (j - m * nsites lat).
Proof.
  intros f lat Hf Hwf Hi u1 u2 dx0 dxr i j.
  pose proof (inf_nsites_pos lat Hwf Hi) as HN.
  assert (Hne : lorder lat <> []) by (apply (wf_inf lat Hwf Hi)).
  pose proof (enlarge_nsites f lat) as EN. pose proof (enlarge_mps2lat f lat Hf Hi Hne) as EM.
  assert (Hi' : infinite (enlarge f lat) = true) by exact Hi.
  set (N := nsites lat) in *.
  split.
  - intros (x0 & xr & y0 & yr & Hmi & Hmj & Hc & Hm). specialize (Hm Hi'). rewrite EN in Hm.
    rewrite EM in Hmi, Hmj. apply (connected_enlarge f lat) in Hc; [|exact Hi].
    set (mn := Z.min i j) in *. exists (mn / N).
    assert (Hd : mn = N * (mn / N) + mn mod N) by (apply Z.div_mod; lia).
    pose proof (Z.mod_pos_bound mn N HN) as Hb.
    split; [nia|].
    exists (x0 + (- (mn / N)) * L0 lat), xr, (y0 + (- (mn / N)) * L0 lat), yr.
    split; [|split; [|split]].
    + replace (i - mn / N * N) with (i + (- (mn / N)) * N) by ring. now apply mps2lat_translate.
    + replace (j - mn / N * N) with (j + (- (mn / N)) * N) by ring. now apply mps2lat_translate.
    + now apply connected_translate.
    + intros _. replace (Z.min (i - mn / N * N) (j - mn / N * N)) with (mn - mn / N * N) by (unfold mn; lia).
      lia.
  - intros (m & Hmr & (x0 & xr & y0 & yr & Hmi & Hmj & Hc & Hm)). specialize (Hm Hi).
    exists (x0 + m * L0 lat), xr, (y0 + m * L0 lat), yr. split; [|split; [|split]].
    + rewrite EM. replace i with (i - m * N + m * N) by ring. now apply mps2lat_translate.
    + rewrite EM. replace j with (j - m * N + m * N) by ring. now apply mps2lat_translate.
    + apply connected_enlarge; [exact Hi|]. now apply connected_translate.
    + intros _. rewrite EN.
      replace (Z.min (i - m * N) (j - m * N)) with (Z.min i j - m * N) in Hm by lia. nia.
Qed.

Lemma ms_u_inverse nsp su sp : 0 <= sp < nsp ->
  ms_simple_u nsp (ms_u nsp su sp) = su /\ ms_species nsp (ms_u nsp su sp) = sp.
Proof.
  intros H. unfold ms_simple_u, ms_species, ms_u. split.
  - symmetry. apply (Z.div_unique_pos (su * nsp + sp) nsp su sp); [exact H|ring].
  - symmetry. apply (Z.mod_unique_pos (su * nsp + sp) nsp su sp); [exact H|ring].
Qed.

Lemma ms_u_surj nsp u : 0 < nsp -> ms_u nsp (ms_simple_u nsp u) (ms_species nsp u) = u.
Proof.
  intros H. unfold ms_simple_u, ms_species, ms_u.
  rewrite (Z.div_mod u nsp) at 3 by lia. ring.
Qed.

Lemma ms_u_range nsp slu su sp : 0 <= su < slu -> 0 <= sp < nsp -> 0 <= ms_u nsp su sp < slu * nsp.
Proof. intros H1 H2. unfold ms_u. nia. Qed.

Lemma ms_pairs_sp_spec nsp ps : forall a b, 0 <= a < nsp -> 0 <= b < nsp ->
  forall u1 u2 dx,
  In (u1, u2, dx) (ms_pairs_sp nsp a b ps) <->
  ms_species nsp u1 = a /\ ms_species nsp u2 = b /\ In (ms_simple_u nsp u1, ms_simple_u nsp u2, dx) ps.
Proof.
  intros a b Ha Hb u1 u2 dx. unfold ms_pairs_sp. rewrite in_map_iff. split.
  - intros ([[v1 v2] dy] & Heq & Hin). inversion Heq; subst.
    destruct (ms_u_inverse nsp v1 a Ha) as [E1 E2]. destruct (ms_u_inverse nsp v2 b Hb) as [E3 E4].
    rewrite E1, E2, E3, E4. auto.
  - intros (E1 & E2 & Hin). exists (ms_simple_u nsp u1, ms_simple_u nsp u2, dx). split; [|exact Hin].
    rewrite <- E1 at 1. rewrite <- E2 at 1. rewrite !ms_u_surj by lia. reflexivity.
Qed.

Lemma ms_pairs_all_spec nsp ps : 0 < nsp -> forall u1 u2 dx,
  In (u1, u2, dx) (ms_pairs_all nsp ps) <-> In (ms_simple_u nsp u1, ms_simple_u nsp u2, dx) ps.
Proof.
  intros Hn u1 u2 dx. unfold ms_pairs_all. rewrite in_flat_map. split.
  - intros (a & Ha & Hin). apply in_flat_map in Hin. destruct Hin as (b & Hb & Hin).
    apply in_zrange in Ha. apply in_zrange in Hb.
    apply ms_pairs_sp_spec in Hin; [|exact Ha|exact Hb]. tauto.
  - intros Hin.
    assert (Hr : forall u, In (ms_species nsp u) (zrange nsp)).
    { intros u. apply in_zrange. apply Z.mod_pos_bound. exact Hn. }
    exists (ms_species nsp u1). split; [apply Hr|]. apply in_flat_map.
    exists (ms_species nsp u2). split; [apply Hr|].
    apply ms_pairs_sp_spec; [now apply in_zrange|now apply in_zrange|]. auto.
Qed.

Lemma ms_onsite_spec nsp slu dim : forall a b, 0 <= a < nsp -> 0 <= b < nsp ->
  forall u1 u2 dx,
  In (u1, u2, dx) (ms_onsite nsp slu dim a b) <->
  ms_species nsp u1 = a /\ ms_species nsp u2 = b /\ ms_simple_u nsp u1 = ms_simple_u nsp u2 /\
  0 <= ms_simple_u nsp u1 < slu /\ dx = repeat 0 dim.
Proof.
  intros a b Ha Hb u1 u2 dx. unfold ms_onsite. rewrite in_map_iff. split.
  - intros (su & Heq & Hin). inversion Heq; subst.
    destruct (ms_u_inverse nsp su a Ha) as [E1 E2]. destruct (ms_u_inverse nsp su b Hb) as [E3 E4].
    rewrite E1, E2, E3, E4. apply in_zrange in Hin. auto.
  - intros (E1 & E2 & E3 & Hr & ->). exists (ms_simple_u nsp u1). split.
    + rewrite <- E1 at 1. rewrite E3 at 2. rewrite <- E2 at 1. rewrite !ms_u_surj by lia. reflexivity.
    + now apply in_zrange.
Qed.

Lemma species_index_bijection : forall nsp slu, 0 < nsp ->
  (forall su sp, 0 <= su < slu -> 0 <= sp < nsp ->
     0 <= ms_u nsp su sp < slu * nsp /\ ms_simple_u nsp (ms_u nsp su sp) = su /\ ms_species nsp (ms_u nsp su sp) = sp) /\
  (forall u, 0 <= u < slu * nsp ->
     0 <= ms_simple_u nsp u < slu /\ 0 <= ms_species nsp u < nsp /\ ms_u nsp (ms_simple_u nsp u) (ms_species nsp u) = u).
Proof.
  intros nsp slu Hn. split.
  - intros su sp Hsu Hsp. split; [apply ms_u_range; assumption|]. apply ms_u_inverse. exact Hsp.
  - intros u Hu. split; [|split].
    + unfold ms_simple_u. split; [apply Z.div_pos; lia|]. apply Z.div_lt_upper_bound; [lia|]. nia.
    + unfold ms_species. apply Z.mod_pos_bound. exact Hn.
    + apply ms_u_surj. exact Hn.
Qed.
