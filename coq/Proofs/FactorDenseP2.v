(* The block product: the dense product of two block-sparse factors whose blocks are paired through pairwise distinct blocks of
   the inner leg is the block matrix of the per-pair products (matched_product).  Instances: Q R of qr / lq (Model/FactorDense2.v);
   U diag(S) VH of svd and A V = V diag(w) of eigh / eig, where the inner blocks are the positions in the list (asm_map) and the
   diagonal factor is absorbed into the columns of the left resp. right factor (dense_scale_cols). *)
From TenpyV Require Import Base.Prelude Base.Lists Model.FactorDense Model.FactorDense2 Proofs.FactorDenseP.
Open Scope Z_scope.

Lemma sumZ_filter_zero {A} (h : A -> Z) (p : A -> bool) l : (forall x, In x l -> p x = false -> h x = 0) ->
  sumZ (map h (filter p l)) = sumZ (map h l).
Proof.
  induction l as [|x l IH]; intros H; [reflexivity|]. cbn [filter map sumZ].
  assert (IH' := IH (fun y Hy => H y (or_intror Hy))).
  destruct (p x) eqn:E; cbn [map sumZ]; rewrite IH'; [reflexivity|]. rewrite (H x (or_introl eq_refl) E). reflexivity.
Qed.

Lemma sumn_sumZ {A} n (f : nat -> A -> Z) l :
  sumn n (fun t => sumZ (map (f t) l)) = sumZ (map (fun e => sumn n (fun t => f t e)) l).
Proof.
  induction n as [|n IH]; cbn [sumn].
  - symmetry. apply sumZ_map_zero. reflexivity.
  - rewrite IH, <- sumZ_map_add. reflexivity.
Qed.

(* The factors are families over one index list l: entry s of the left factor sits at (fi s, fx s), entry s of the right factor at
   (fx s, fj s).  Distribute the left sum and exchange (sumn_sumZ); for entry s only the inner indices t of block fx s count
   (sumn_inblk), and there s is the only entry of the right factor that is not zero (sumZ_single, inblk_unique) *)
Theorem matched_product {A} (fi fx fj : A -> nat) (fA fB : A -> dmat) rs ns cs (l : list A) r c : NoDup (map fx l) ->
  mmul (list_sum ns) (dense rs ns (map (fun s => (fi s, fx s, fA s)) l)) (dense ns cs (map (fun s => (fx s, fj s, fB s)) l)) r c
  = dense rs cs (map (fun s => (fi s, fj s, mmul (bsize ns (fx s)) (fA s) (fB s))) l) r c.
Proof.
  intros ND. unfold mmul, dense. rewrite !map_map.
  set (v := fun t s => bval ns cs t c (fx s, fj s, fB s)).
  rewrite (sumn_ext _ _ (fun t => sumZ (map (fun s => bval rs ns r t (fi s, fx s, fA s) * sumZ (map (v t) l)) l)))
    by (intros t _; rewrite !map_map, Z.mul_comm, sumZ_map_scale; f_equal; apply map_ext; intros s; apply Z.mul_comm).
  rewrite (sumn_sumZ (list_sum ns) (fun t s => bval rs ns r t (fi s, fx s, fA s) * sumZ (map (v t) l))).
  f_equal. apply map_ext_in. intros s Hs.
  transitivity (sumn (bsize ns (fx s)) (fun b => if inblk rs (fi s) r && inblk cs (fj s) c
            then fA s (r - boff rs (fi s))%nat b * fB s b (c - boff cs (fj s))%nat else 0)).
  2:{ unfold bval, mmul. destruct (inblk rs (fi s) r && inblk cs (fj s) c); [reflexivity|]. apply sumn_zero. reflexivity. }
  rewrite <- sumn_inblk. apply sumn_ext. intros t _. unfold bval at 1.
  destruct (inblk ns (fx s) t) eqn:Et; [|rewrite andb_false_r; lia].
  rewrite (sumZ_single fx (v t) l s ND Hs).
  - unfold v, bval. rewrite Et. destruct (inblk rs (fi s) r), (inblk cs (fj s) c); cbn [andb]; lia.
  - intros s' _ NE. unfold v, bval. destruct (inblk ns (fx s') t) eqn:Et'; [|reflexivity].
    exfalso. apply NE. exact (inblk_unique ns _ _ t Et' Et).
Qed.

Theorem matched_reconstruct rs ns cs ps (a : list bent) r c : NoDup (map p_x ps) ->
  Forall2 (fun p (e : bent) => fst (fst e) = p_i p /\ snd (fst e) = p_j p /\
     forall x y, (x < bsize rs (p_i p))%nat -> (y < bsize cs (p_j p))%nat ->
       mmul (bsize ns (p_x p)) (p_A p) (p_B p) x y = snd e x y) ps a ->
  mmul (list_sum ns) (dense rs ns (pairs_L ps)) (dense ns cs (pairs_R ps)) r c = dense rs cs a r c.
Proof.
  intros ND F. unfold pairs_L, pairs_R. rewrite matched_product by exact ND. unfold dense. rewrite map_map. f_equal.
  clear ND. induction F as [|p [[i j] M] ps a (Ei & Ej & Hm) F IH]; [reflexivity|]. cbn [map]. f_equal; [|exact IH].
  cbn [fst snd] in *. subst i j. apply bval_ext, Hm.
Qed.

Theorem svd_product_kept rs cs ks r c :
  usv (list_sum (inner_sizes ks)) (dense rs (inner_sizes ks) (svd_U ks)) (svd_S ks) (dense (inner_sizes ks) cs (svd_V ks)) r c
  = dense rs cs (map prod_ent ks) r c.
Proof.
  unfold usv, svd_U, svd_V. rewrite !asm_map.
  rewrite (sumn_ext _ _ (fun t => _ * _)) by (intros t _; rewrite (dense_scale_cols _ _ _ _ _ _ _ _ r t (svd_S_blocks ks)); reflexivity).
  etransitivity; [apply (matched_product _ fst); rewrite indexed_fst; apply seq_NoDup|].
  unfold dense. rewrite <- (indexed_snd ks) at 2. rewrite !map_map.
  f_equal. apply map_ext_in. intros me Hin. rewrite (bsize_inner ks me Hin). reflexivity.
Qed.

Theorem svd_product rs cs fs r c :
  let ks := kept fs in
  usv (list_sum (inner_sizes ks)) (dense rs (inner_sizes ks) (svd_U ks)) (svd_S ks) (dense (inner_sizes ks) cs (svd_V ks)) r c
  = dense rs cs (map prod_ent fs) r c.
Proof.
  intros ks. rewrite svd_product_kept. unfold dense, ks, kept. rewrite !map_map.
  apply (sumZ_filter_zero (fun e => bval rs cs r c (prod_ent e))).
  intros e _ He. assert (f_n (sb_fac e) = 0%nat) as E0 by lia.
  unfold prod_ent, bval, fac_prod, usv. rewrite E0. cbn [sumn]. destruct (_ && _); reflexivity.
Qed.

Theorem eig_pairs es :
  let rs := inner_sizes es in
  (forall e, In e es -> forall x y, (x < f_n (sb_fac e))%nat -> (y < f_n (sb_fac e))%nat ->
     sumn (f_n (sb_fac e)) (fun b => f_V (sb_fac e) x b * f_U (sb_fac e) b y) = f_U (sb_fac e) x y * f_S (sb_fac e) y) ->
  forall r c,
  sumn (list_sum rs) (fun x => dense rs rs (eig_A es) r x * dense rs rs (eig_V es) x c)
  = dense rs rs (eig_V es) r c * svd_S es c.
Proof.
  intros rs Hp r c. unfold eig_A, eig_V. rewrite !asm_map.
  rewrite (dense_scale_cols _ _ _ _ _ _ _ _ r c (svd_S_blocks es)).
  etransitivity; [apply (matched_product fst fst fst); rewrite indexed_fst; apply seq_NoDup|].
  unfold dense. rewrite !map_map. f_equal. apply map_ext_in. intros me Hin.
  apply bval_ext. unfold rs. rewrite (bsize_inner es me Hin). destruct me as [m e]. apply Hp, (in_combine_r _ _ _ _ Hin).
Qed.

(* a sector without stored block: A = 0 there, resv keeps the identity, resw keeps 0 *)
Lemma eig_pairs_identity n x y : (x < n)%nat -> (y < n)%nat ->
  sumn n (fun b => (fun _ _ => 0) x b * delta b y) = delta x y * (fun _ : nat => 0) y.
Proof. intros _ _. rewrite sumn_zero by (intros; lia). lia. Qed.
