(* Property C14, merging adjacent schedule entries of equal parity.  The n-step Suzuki-Trotter schedule is, after
   merging, the n-fold repetition of the one-step schedule (`powers`, every n >= 0), from the shape of the tables and the
   congruence of merge; the time follows since merging keeps the time of each parity class and one step applies time 1. *)
From TenpyV Require Import Base.Prelude Base.Lists Base.PyLib Model.Trotter Model.TrotterMerge Gen.G_trotter Proofs.TrotterP.
From Coq Require Import QArith String.
Open Scope Z_scope.

Lemma nth_nil_Q i : nth i (@nil Q) 0%Q = 0%Q.
Proof. destruct i; reflexivity. Qed.

Lemma tpeq_refl p : tpeq p p.
Proof. intros i. reflexivity. Qed.
Lemma tpeq_sym p q : tpeq p q -> tpeq q p.
Proof. intros H i. symmetry. apply H. Qed.
Lemma tpeq_trans p q r : tpeq p q -> tpeq q r -> tpeq p r.
Proof. intros H1 H2 i. rewrite (H1 i). apply H2. Qed.

Lemma padd_nth a : forall b i, (nth i (padd a b) 0 == nth i a 0 + nth i b 0)%Q.
Proof.
  induction a as [|x a IH]; intros b i.
  - cbn [padd]. rewrite nth_nil_Q. ring.
  - destruct b as [|y b]; cbn [padd].
    + rewrite nth_nil_Q. ring.
    + destruct i as [|i]; cbn [nth]; [reflexivity|apply IH].
Qed.

Lemma padd_compat a a' b b' : tpeq a a' -> tpeq b b' -> tpeq (padd a b) (padd a' b').
Proof. intros Ha Hb i. rewrite !padd_nth, (Ha i), (Hb i). reflexivity. Qed.

Lemma padd_assoc a b c : tpeq (padd a (padd b c)) (padd (padd a b) c).
Proof. intros i. rewrite !padd_nth. ring. Qed.

Lemma peval_padd a x : forall b, (peval (padd a b) x == peval a x + peval b x)%Q.
Proof.
  induction a as [|c a IH]; intros b.
  - cbn [padd peval]. ring.
  - destruct b as [|d b]; cbn [padd peval]; [ring|]. rewrite IH. ring.
Qed.

Lemma peval_tpeq_nil p x : tpeq p [] -> (peval p x == 0)%Q.
Proof.
  induction p as [|c p IH]; intros H; [reflexivity|]. cbn [peval].
  rewrite (H O : (c == 0)%Q), IH; [ring|]. intros i. rewrite nth_nil_Q. exact (H (S i)).
Qed.

Lemma peval_tpeq x p : forall q, tpeq p q -> (peval p x == peval q x)%Q.
Proof.
  induction p as [|c p IH]; intros q H.
  - symmetry. apply peval_tpeq_nil, tpeq_sym, H.
  - destruct q as [|d q]; [exact (peval_tpeq_nil (c :: p) x H)|]. cbn [peval].
    rewrite (H O : (c == d)%Q), (IH q (fun i => H (S i))). reflexivity.
Qed.

Lemma pzero_spec a : pzero a = true <-> tpeq a [].
Proof.
  induction a as [|c a IH]; cbn [pzero].
  - split; [intros _; apply tpeq_refl|reflexivity].
  - rewrite andb_true_iff, Qeq_bool_iff, IH. split.
    + intros [Hc Ha] [|i]; cbn [nth]; [exact Hc|]. rewrite (Ha i), nth_nil_Q. reflexivity.
    + intros H. split; [exact (H O)|]. intros i. rewrite nth_nil_Q. exact (H (S i)).
Qed.

Lemma peqb_spec a : forall b, peqb a b = true <-> tpeq a b.
Proof.
  induction a as [|x a IH]; intros b.
  - cbn [peqb]. rewrite pzero_spec. split; apply tpeq_sym.
  - destruct b as [|y b]; cbn [peqb].
    + apply (pzero_spec (x :: a)).
    + rewrite andb_true_iff, Qeq_bool_iff, IH. split.
      * intros [Hx Ha] [|i]; cbn [nth]; [exact Hx|apply Ha].
      * intros H. split; [exact (H O)|]. intros i. exact (H (S i)).
Qed.

Lemma ent_eq_refl e : ent_eq e e.
Proof. split; [apply tpeq_refl|reflexivity]. Qed.
Lemma sched_eq_refl l : sched_eq l l.
Proof. induction l as [|e l IH]; constructor; [apply ent_eq_refl|exact IH]. Qed.
Lemma sched_eq_sym a b : sched_eq a b -> sched_eq b a.
Proof.
  induction 1 as [|x y a b [H1 H2] _ IH]; constructor; [|exact IH].
  split; [apply tpeq_sym; exact H1|symmetry; exact H2].
Qed.
Lemma sched_eq_trans a b : sched_eq a b -> forall c, sched_eq b c -> sched_eq a c.
Proof.
  induction 1 as [|x y a b [H1 H2] _ IH]; intros c Hc; inversion Hc as [|y' z b' c' [H3 H4] Hbc]; subst;
    constructor; [|apply IH; exact Hbc].
  split; [exact (tpeq_trans _ _ _ H1 H3)|congruence].
Qed.

Lemma ent_eqb_spec u v : ent_eqb u v = true <-> ent_eq u v.
Proof. unfold ent_eqb, ent_eq. rewrite andb_true_iff, peqb_spec, Z.eqb_eq. reflexivity. Qed.

Lemma sched_eqb_spec a b : sched_eqb a b = true <-> sched_eq a b.
Proof. exact (forall2b_spec ent_eqb ent_eq ent_eqb_spec a b). Qed.

Lemma mcons_proper e e' m m' : ent_eq e e' -> sched_eq m m' -> sched_eq (mcons e m) (mcons e' m').
Proof.
  intros He Hm. destruct Hm as [|[q k] [q' k'] t t' [Hq Hk] Ht]; cbn [mcons].
  - constructor; [exact He|constructor].
  - cbn [fst snd] in Hq, Hk. subst k'. destruct He as [Hp Hs]. rewrite <- Hs.
    destruct (snd e =? k).
    + constructor; [|exact Ht]. split; [cbn [fst]; apply padd_compat; assumption|reflexivity].
    + constructor; [split; assumption|]. constructor; [split; [exact Hq|reflexivity]|exact Ht].
Qed.

Lemma mcons_mcons p q k m : sched_eq (mcons (p, k) (mcons (q, k) m)) (mcons (padd p q, k) m).
Proof.
  destruct m as [|[r k'] t]; cbn [mcons fst snd].
  - rewrite Z.eqb_refl. apply sched_eq_refl.
  - destruct (k =? k') eqn:E; cbn [mcons fst snd].
    + rewrite E. constructor; [|apply sched_eq_refl]. split; [cbn [fst]; apply padd_assoc|reflexivity].
    + rewrite Z.eqb_refl. apply sched_eq_refl.
Qed.

Lemma mcons_alternating e m : alternating m = true -> alternating (mcons e m) = true.
Proof.
  destruct m as [|[q k'] t]; intros H; cbn [mcons]; [reflexivity|].
  destruct (snd e =? k') eqn:E.
  - destruct t as [|e' t']; [reflexivity|]. exact H.
  - change (negb (snd e =? k') && alternating ((q, k') :: t) = true). rewrite E, H. reflexivity.
Qed.

Lemma merge_alternating l : alternating (merge l) = true.
Proof. induction l as [|e l IH]; cbn [merge]; [reflexivity|]. apply mcons_alternating. exact IH. Qed.

Lemma alternating_tail e l : alternating (e :: l) = true -> alternating l = true.
Proof. destruct l as [|e' l]; [reflexivity|]. cbn [alternating]. rewrite andb_true_iff. tauto. Qed.

Lemma merge_fixed l : alternating l = true -> merge l = l.
Proof.
  induction l as [|e l IH]; intros H; cbn [merge]; [reflexivity|].
  rewrite (IH (alternating_tail _ _ H)). destruct l as [|[q k'] t]; [reflexivity|].
  cbn [alternating] in H. apply andb_prop in H. destruct H as [H _]. cbn [snd] in H.
  cbn [mcons]. destruct (snd e =? k'); [discriminate|reflexivity].
Qed.

Lemma merge_idempotent l : merge (merge l) = merge l.
Proof. apply merge_fixed, merge_alternating. Qed.

Lemma mcons_time x k e m : (sched_time x k (mcons e m) == ent_weight x k e + sched_time x k m)%Q.
Proof.
  destruct m as [|[q k'] t]; cbn [mcons]; [reflexivity|].
  destruct (snd e =? k') eqn:E; [|reflexivity].
  apply Z.eqb_eq in E. unfold sched_time. cbn [map sumQ]. unfold ent_weight. cbn [fst snd]. rewrite E.
  destruct (k' =? k); [rewrite peval_padd|]; ring.
Qed.

Lemma merge_time x k l : (sched_time x k (merge l) == sched_time x k l)%Q.
Proof.
  induction l as [|e l IH]; cbn [merge]; [reflexivity|].
  rewrite mcons_time, IH. reflexivity.
Qed.

Lemma timed_time ds x k steps : sched_time x k (timed ds steps) = parity_time ds x k steps.
Proof. unfold sched_time, parity_time, timed. rewrite map_map. reflexivity. Qed.

Lemma ent_weight_eq x k u v : ent_eq u v -> (ent_weight x k u == ent_weight x k v)%Q.
Proof.
  intros [Hp Hk]. unfold ent_weight. rewrite Hk. destruct (snd v =? k); [apply peval_tpeq, Hp|reflexivity].
Qed.

Lemma sched_time_eq x k a b : sched_eq a b -> (sched_time x k a == sched_time x k b)%Q.
Proof.
  induction 1 as [|u v a b Huv _ IH]; [reflexivity|].
  unfold sched_time in *. cbn [map sumQ]. rewrite (ent_weight_eq x k u v Huv), IH. reflexivity.
Qed.

Lemma sumQ_app l1 l2 : (sumQ (l1 ++ l2) == sumQ l1 + sumQ l2)%Q.
Proof. induction l1 as [|x t IH]; cbn [sumQ app]; [ring|]. rewrite IH. ring. Qed.

Lemma sched_time_repeat x k l n :
  (sched_time x k (repeat_nat l n) == inject_Z (Z.of_nat n) * sched_time x k l)%Q.
Proof.
  induction n as [|n IH]; cbn [repeat_nat]; [unfold sched_time; cbn; ring|].
  unfold sched_time in *. rewrite map_app, sumQ_app, IH, Nat2Z.inj_succ. unfold Z.succ. rewrite inject_Z_plus. ring.
Qed.

(* merging a concatenation = putting the entries of the merged first part, from the right, in front of the
   merged second part; everything about merge and ++ follows from this equation *)
Definition mapp (m1 m2 : sched) : sched := fold_right mcons m2 m1.

Lemma mapp_proper m1 m1' m2 m2' : sched_eq m1 m1' -> sched_eq m2 m2' -> sched_eq (mapp m1 m2) (mapp m1' m2').
Proof.
  intros H1 H2. unfold mapp. induction H1 as [|x y a b Hxy _ IH]; cbn [fold_right]; [exact H2|].
  apply mcons_proper; assumption.
Qed.

Lemma mapp_mcons e m M : sched_eq (mapp (mcons e m) M) (mcons e (mapp m M)).
Proof.
  unfold mapp. destruct m as [|[q k'] t]; cbn [mcons]; [apply sched_eq_refl|].
  destruct e as [p k]. cbn [fst snd]. destruct (k =? k') eqn:E; [|apply sched_eq_refl].
  apply Z.eqb_eq in E. subst k'. cbn [fold_right]. apply sched_eq_sym, mcons_mcons.
Qed.

Lemma merge_app a b : sched_eq (merge (a ++ b)) (mapp (merge a) (merge b)).
Proof.
  induction a as [|e a IH]; cbn [app merge]; [apply sched_eq_refl|].
  apply (sched_eq_trans _ (mcons e (mapp (merge a) (merge b)))); [|apply sched_eq_sym, mapp_mcons].
  apply mcons_proper; [apply ent_eq_refl|exact IH].
Qed.

Lemma merge_congruence a a' b b' :
  sched_eq (merge a) (merge a') -> sched_eq (merge b) (merge b') -> sched_eq (merge (a ++ b)) (merge (a' ++ b')).
Proof.
  intros Ha Hb. apply (sched_eq_trans _ _ (merge_app a b)).
  apply (sched_eq_trans _ (mapp (merge a') (merge b'))); [apply mapp_proper; assumption|apply sched_eq_sym, merge_app].
Qed.

Lemma merge_join l p q k r :
  sched_eq (merge (l ++ (p, k) :: (q, k) :: r)) (merge (l ++ (padd p q, k) :: r)).
Proof. apply merge_congruence; [apply sched_eq_refl|]. cbn [merge]. apply mcons_mcons. Qed.

Lemma timed_app ds a b : timed ds (a ++ b) = timed ds a ++ timed ds b.
Proof. apply map_app. Qed.

Lemma timed_repeat_nat ds l n : timed ds (repeat_nat l n) = repeat_nat (timed ds l) n.
Proof. induction n as [|n IH]; cbn [repeat_nat]; [reflexivity|]. rewrite timed_app, IH. reflexivity. Qed.

Section Seam.
  Variables P M E : sched.
  (* the middle part is the closing part of one time step followed by the opening part of the next, merged *)
  Hypothesis HM : sched_eq (merge M) (merge (E ++ P)).

  Lemma seam_tail n : sched_eq (merge (repeat_nat M n ++ E)) (merge (E ++ repeat_nat (P ++ E) n)).
  Proof.
    induction n as [|n IH]; cbn [repeat_nat app]; [rewrite app_nil_r; apply sched_eq_refl|].
    rewrite <- !app_assoc, (app_assoc E P). apply merge_congruence; assumption.
  Qed.

  Lemma seam_merge n : sched_eq (merge (P ++ repeat_nat M n ++ E)) (merge (repeat_nat (P ++ E) (S n))).
  Proof.
    cbn [repeat_nat]. rewrite <- app_assoc. apply merge_congruence; [apply sched_eq_refl|apply seam_tail].
  Qed.
End Seam.

Definition powers (o : pyorder) (ds : list poly) (s1 : list (Z * Z)) : Prop := forall n, 0 <= n ->
  exists s, decomposition_gen o n = Some s /\
    sched_eq (merge (timed ds s)) (merge (repeat_nat (timed ds s1) (Z.to_nat n))).

Lemma shaped_powers o p m X E ds : shaped o p m X E ->
  sched_eqb (merge (timed ds m)) (merge (timed ds (E ++ p))) = true -> powers o ds ((p ++ X) ++ E).
Proof.
  intros Hs Hm n Hn. destruct (Z.eq_dec n 0) as [->|Hn0]; [exists []; split; [reflexivity|apply sched_eq_refl]|].
  eexists. split; [apply Hs; lia|]. replace (Z.to_nat n) with (S (Z.to_nat (n - 1))) by lia.
  rewrite !timed_app, timed_repeat_nat, !timed_app. apply seam_merge.
  rewrite app_assoc, <- (timed_app ds E p). apply merge_congruence; [apply sched_eqb_spec, Hm|apply sched_eq_refl].
Qed.

(* the seams of the four tables, by evaluation: m = E ++ p for order 1; for the others m is one entry with the parity of
   the half step and twice its time *)
Lemma powers_all o : In o orders ->
  exists ds s1, time_steps_gen o = Some ds /\ decomposition_gen o 1 = Some s1 /\ powers o ds s1.
Proof.
  unfold orders. cbn [In]. intros [<-|[<-|[<-|[<-|[]]]]]; do 2 eexists; (split; [reflexivity|]); (split; [reflexivity|]).
  - apply (shaped_powers _ _ _ _ _ _ shaped_1); reflexivity.
  - apply (shaped_powers _ _ _ _ _ _ shaped_2); reflexivity.
  - apply (shaped_powers _ _ _ _ _ _ shaped_4); reflexivity.
  - apply (shaped_powers _ _ _ _ _ _ shaped_4opt); reflexivity.
Qed.

Lemma trotter_merge_all o : In o orders -> forall N, 1 <= N ->
  exists ds stepsN steps1,
    time_steps_gen o = Some ds /\ decomposition_gen o N = Some stepsN /\
    decomposition_gen o 1 = Some steps1 /\
    sched_eqb (merge (timed ds stepsN))
              (merge (List.concat (repeat (timed ds steps1) (Z.to_nat N)))) = true.
Proof.
  intros Ho N HN. destruct (powers_all o Ho) as (ds & s1 & E1 & E3 & HP). destruct (HP N ltac:(lia)) as (sN & E2 & HN').
  exists ds, sN, s1. rewrite concat_repeat. repeat split; try assumption. apply sched_eqb_spec, HN'.
Qed.

(* the table for '4_opt' is written in terms of four rational constants; their values play no part in the time *)
Lemma steps_4opt : exists a1 b1 a2 b2 : Q, time_steps_gen (OStr "4_opt") =
  Some [pconst a1; pconst b1; pneg (pconst a2); pneg (pconst b2);
        psub (psub (pconst (1 # 2)) (pconst a1)) (pneg (pconst a2));
        psub (pconst 1) (pmul (pconst (inject_Z 2)) (padd (pconst b1) (pneg (pconst b2))));
        pmul (pconst (inject_Z 2)) (pconst a1)].
Proof. do 4 eexists. reflexivity. Qed.

(* unfolded down to the arithmetic of Q this is a ring identity in x and, for '4_opt', in the four constants *)
Lemma one_step_time o ds s1 x k : In o orders -> time_steps_gen o = Some ds -> decomposition_gen o 1 = Some s1 ->
  k = 0 \/ k = 1 -> (parity_time ds x k s1 == 1)%Q.
Proof.
  intros Ho E1 E2 Hk. destruct steps_4opt as (a1 & b1 & a2 & b2 & E4). unfold orders in Ho. cbn [In] in Ho.
  destruct Ho as [<-|[<-|[<-|[<-|[]]]]]; rewrite ?E4 in E1; injection E1 as <-; injection E2 as <-;
    destruct Hk as [-> | ->]; cbv -[Qplus Qmult Qeq]; ring.
Qed.

Lemma trotter_time_all o : In o orders -> forall N x k, 1 <= N -> (k = 0 \/ k = 1) ->
  exists ds steps, time_steps_gen o = Some ds /\ decomposition_gen o N = Some steps /\
  (parity_time ds x k steps == inject_Z N)%Q.
Proof.
  intros Ho N x k HN Hk. destruct (powers_all o Ho) as (ds & s1 & E1 & E3 & HP). destruct (HP N ltac:(lia)) as (sN & E2 & HN').
  exists ds, sN. split; [exact E1|]. split; [exact E2|].
  rewrite <- timed_time, <- merge_time, (sched_time_eq _ _ _ _ HN'), merge_time, sched_time_repeat, timed_time.
  rewrite (one_step_time o ds s1 x k Ho E1 E3 Hk), Z2Nat.id by lia. ring.
Qed.
