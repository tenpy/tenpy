(* The replay of Model/CacheCloseCheck.v only takes steps of the transition system of Model/CacheClose.v: the state it
   reaches is `cl_run` of the fine-grained schedule it reports (property C20). *)
From TenpyV Require Import Base.Prelude Model.CacheThread Model.CacheClose Model.CacheCloseCheck.
Open Scope Z_scope.

Lemma cl_run_app qmax fail_at a b st : cl_run qmax fail_at (a ++ b) st = cl_run qmax fail_at b (cl_run qmax fail_at a st).
Proof. unfold cl_run. apply fold_left_app. Qed.

Lemma cl_settle_run qmax fail_at st0 : forall fuel st acc st' acc', cl_settle qmax fail_at fuel st acc = (st', acc') ->
  st = cl_run qmax fail_at (rev acc) st0 -> st' = cl_run qmax fail_at (rev acc') st0.
Proof.
  induction fuel as [|f IH]; intros st acc st' acc' H E; cbn [cl_settle] in H.
  - inversion H; subst. reflexivity.
  - destruct (cl_choice qmax st) as [c|]; [|inversion H; subst; reflexivity].
    apply (IH _ _ _ _ H). cbn [rev]. rewrite cl_run_app, <- E. reflexivity.
Qed.

Lemma cl_tok_run qmax fail_at st c st' sch e : cl_tok qmax fail_at st c = (st', sch, e) ->
  st' = cl_run qmax fail_at (rev sch) st.
Proof.
  unfold cl_tok. intro H. destruct c.
  - destruct (caller_busy st); [inversion H; subst; reflexivity|].
    destruct (c_prog st) as [|item rest]; [inversion H; subst; reflexivity|].
    destruct (cl_settle _ _ _ _ _) as [st2 sch2] eqn:E.
    inversion H; subst. exact (cl_settle_run _ _ st _ _ _ _ _ E eq_refl).
  - destruct (t_status (c_base st)); try (inversion H; subst; reflexivity).
    destruct (cl_settle _ _ _ _ _) as [st2 sch2] eqn:E.
    inversion H; subst. exact (cl_settle_run _ _ st _ _ _ _ _ E eq_refl).
Qed.

Lemma cl_replay_is_run : forall qmax fail_at toks st st' fine es,
  cl_replay qmax fail_at st toks = (st', fine, es) -> st' = cl_run qmax fail_at fine st.
Proof.
  intros qmax fail_at. induction toks as [|c t IH]; intros st st' fine es H; cbn [cl_replay] in H.
  - inversion H; subst. reflexivity.
  - destruct (cl_tok qmax fail_at st c) as [[st1 sch] e] eqn:E1.
    destruct (cl_replay qmax fail_at st1 t) as [[st2 fine2] es2] eqn:E2.
    inversion H; subst. rewrite cl_run_app, <- (cl_tok_run _ _ _ _ _ _ _ E1). apply (IH _ _ _ _ E2).
Qed.
