(* A concrete structure satisfying the laws `amp_laws` of Model/Sample.v (non-vacuity of T08_sample_weights): amplitudes
   = canonical rationals Qc, theta = a rational number (bond dimension 1: a product state with real, possibly negative,
   amplitudes), norm = absolute value, theta[0,0] = the number itself (its sign is the "phase"). *)
From TenpyV Require Import Base.Prelude Model.Sample.
From Coq Require Import QArith Qcanon Qcabs.

Definition qc_one : Qc := 1%Qc.
Definition qc_frac (n : Z) (d : positive) : Qc := Q2Qc (Qmake n d).
Definition qc_pos (c : Qc) : Prop := (0 < c)%Qc.
Definition qc_abs2 (c : Qc) : Qc := (c * c)%Qc.
(* local amplitudes of the product state: site i, outcome s *)
Definition qc_amp (i s : Z) : Qc :=
  if (s =? 0)%Z then Q2Qc (3 # 5) else if (i mod 2 =? 0)%Z then Q2Qc (- 4 # 5) else Q2Qc (4 # 5).
Definition qc_proj (i s : Z) (v : Qc) : Qc := (v * qc_amp i s)%Qc.
Definition qc_attach (i : Z) (v : Qc) : Qc := v.

Lemma qc_inv_pos (a : Qc) : (0 < a)%Qc -> (0 < / a)%Qc.
Proof.
  intros H. unfold Qclt in *. unfold Qcinv. cbn [this Q2Qc] in *. change (Qred 0) with 0%Q in *.
  rewrite (Qred_correct (/ a)). apply Qinv_lt_0_compat. exact H.
Qed.

Lemma qc_laws :
  amp_laws Qc Qc (1%Qc) Qcmult Qcinv qc_abs2 qc_pos Qcabs Qcmult (fun v => v) qc_proj qc_attach.
Proof.
  constructor; unfold qc_pos, qc_abs2, qc_proj, qc_attach.
  - intros a b c. apply Qcmult_assoc.
  - intros a b. apply Qcmult_comm.
  - intros a. apply Qcmult_1_l.
  - intros a Ha. apply Qcmult_inv_l. intros E. subst a. apply (Qclt_not_eq _ _ Ha). reflexivity.
  - reflexivity.
  - intros a b Ha Hb. replace (0%Qc) with (0 * b)%Qc by ring. apply Qcmult_lt_compat_r; assumption.
  - intros a Ha. apply qc_inv_pos. exact Ha.
  - ring.
  - intros a b. ring.
  - intros v. apply Qcmult_1_l.
  - intros a b v. apply Qcmult_assoc.
  - intros c v Hc. rewrite Qcabs_Qcmult. rewrite (Qcabs_pos c) by (apply Qclt_le_weak; exact Hc). reflexivity.
  - intros c v. reflexivity.
  - intros i s c v. ring.
  - intros i c v. reflexivity.
Qed.

(* an outcome on 3 sites: joint norms 3/5, 12/25, 48/125, all positive; the amplitude itself is
   3/5 * 4/5 * (-4/5) = -48/125 *)
Lemma qc_example_pos :
  Forall qc_pos (joint_norms Qc Qc Qcabs qc_proj qc_attach 0 (1%Qc) [0; 1; 1]%Z).
Proof.
  unfold joint_norms. cbn [raw_states map]. repeat constructor; unfold qc_pos, Qclt; vm_compute; reflexivity.
Qed.

Definition qc_weight := sample_weight Qc Qc qc_one Qcmult Qcinv qc_abs2 Qcabs Qcmult (fun v => v) qc_proj qc_attach.

