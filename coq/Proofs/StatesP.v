(* C17: what the boolean check `tables_ok` of Model/StateSpec.v says of any three tables; of the tables regenerated into
   Gen/G_states.v it holds by computation. *)
From TenpyV Require Import Base.Prelude Base.Lists Model.StateSpec Gen.G_states.
From Coq Require Import String.
Open Scope string_scope.

Lemma str_list_eqb_eq a b : str_list_eqb a b = true -> a = b.
Proof. exact (proj1 (forall2b_eq_spec String.eqb String.eqb_eq a b)). Qed.

Lemma subset_str_in a b : subset_str a b = true -> forall x, In x a -> In x b.
Proof.
  intros K x Hx. pose proof (proj1 (forallb_forall _ _) K x Hx) as K2.
  apply existsb_exists in K2. destruct K2 as [y [Hy E]]. apply String.eqb_eq in E. subst. exact Hy.
Qed.

Lemma tables_ok_spec st hd cl : tables_ok st hd cl = true ->
  (forall c produced consumed, In (c, produced, consumed) st -> produced = consumed) /\
  (forall c f written read, In (c, f, written, read) hd ->
     pair_mem c f known_subset_exceptions = false ->
     forall x, In x read -> In x written) /\
  (forall c m given expected, In (c, m, given, expected) cl ->
     pair_mem c m known_arity_exceptions = false -> given = expected).
Proof.
  unfold tables_ok. intros H.
  apply andb_prop in H. destruct H as [H H3]. apply andb_prop in H. destruct H as [H1 H2].
  rewrite forallb_forall in H1, H2, H3. split; [|split].
  - intros c p q Hin. exact (str_list_eqb_eq p q (H1 _ Hin)).
  - intros c f w r Hin Hk. pose proof (H2 _ Hin) as K. unfold hdf5_ok_or_known, hdf5_ok in K.
    rewrite Hk, orb_false_r in K. exact (subset_str_in r w K).
  - intros c m g e Hin Hk. pose proof (H3 _ Hin) as K. unfold call_ok_or_known, call_ok in K.
    rewrite Hk, orb_false_r in K. apply Nat.eqb_eq, K.
Qed.

Lemma tables_hold : tables_ok state_table hdf5_table setstate_calls = true.
Proof. vm_compute. reflexivity. Qed.
