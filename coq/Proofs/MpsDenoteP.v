(* Model/MpsDenote.v: the dense denotation is invariant under every history of form conversions (C07), because a conversion
   moves each site up in a preorder (site_le, sitewise chain_le) that keeps Gamma and every get_B. *)
From TenpyV Require Import Base.Prelude Model.MpsIndex Model.MpsForm Model.MpsDenote Proofs.MpsIndexP Proofs.MpsFormP.
Open Scope Z_scope.

Lemma bond_address fin st i p : 0 < len st -> site_pos fin st i = Some p ->
  exists c c', to_valid_bond_index fin (len st) i true = Some (bondL p, c) /\
               to_valid_bond_index fin (len st) i false = Some (bondR fin (len st) p, c').
Proof.
  intros HL Hp. destruct (site_pos_inv _ _ _ _ Hp) as [c [E ->]].
  pose proof (Z.mod_pos_bound i (len st) HL) as Hm.
  unfold bondL, bondR. rewrite Z2Nat.id by lia. destruct fin.
  - rewrite !(bond_index_some _ _ _ _ _ E), Z.add_0_r. exists 0, 0. split; reflexivity.
  - rewrite !bond_index_infinite, !site_index_infinite, Z.add_0_r, Zplus_mod_idemp_l. eauto.
Qed.

Section DenoteP.
  Variable M : Type.
  Variable mul : M -> M -> M.
  Variable one : M.
  Variable sv : Z -> Z -> M.
  Hypothesis mul_assoc : forall a b c, mul a (mul b c) = mul (mul a b) c.
  Hypothesis mul_1_l : forall a, mul one a = a.
  Hypothesis mul_1_r : forall a, mul a one = a.
  Hypothesis sv_0 : forall b, sv b 0 = one.
  Hypothesis sv_add : forall b x y, sv b (x + y) = mul (sv b x) (sv b y).
  (* the names of Model/MpsDenote.v stand for their instances at M, mul, sv; where a tactic wants the constant itself
     (unfold, cbn) it is written MpsDenote.x *)
  Notation vsite := (vsite M).
  Notation vmps := (vmps M).
  Notation erase := (erase M).
  Notation vget_B := (vget_B M mul sv).
  Notation vconv := (vconv M mul sv).
  Notation vconvert_from := (vconvert_from M mul sv).
  Notation vset_nth := (vset_nth M).
  Notation vlen := (vlen M).
  Notation vapply_op := (vapply_op M mul sv).
  Notation vrun_ops := (vrun_ops M mul sv).
  Notation vget_B_at := (vget_B_at M mul sv).
  Notation window_den := (window_den M mul sv).
  Notation chain_den := (chain_den M mul sv).
  Notation gsite := (gsite M mul sv).
  Notation gamma_window := (gamma_window M mul sv one).
  Notation denotes_at := (denotes_at M mul sv).
  Notation denotes := (denotes M mul sv).

  Lemma erase_length (st : vmps) : length (erase st) = length st.
  Proof using Type. apply map_length. Qed.

  Lemma len_erase (st : vmps) : len (erase st) = vlen st.
  Proof using Type. unfold len, MpsDenote.vlen. rewrite erase_length. reflexivity. Qed.

  Lemma erase_nth (P : site -> Prop) (st : vmps) p s : Forall P (erase st) -> nth_error st p = Some s -> P (fst s).
  Proof using Type. intros H Hp. rewrite Forall_forall in H. apply H. apply in_map. eapply nth_error_In. exact Hp. Qed.

  Lemma erase_vset_nth p x (st : vmps) : erase (vset_nth p x st) = set_nth p (fst x) (erase st).
  Proof using Type.
    revert p. induction st as [|y t IH]; intros p; destruct p; cbn [MpsDenote.vset_nth MpsDenote.erase map set_nth]; auto.
    f_equal. apply IH.
  Qed.

  (* the operations vapply_op gives values to *)
  Definition is_conv (op : fop) : bool :=
    match op with OConvert _ => true | OSetBScaled _ _ => true | _ => false end.

  Lemma vconv_commutes bl br (s : vsite) f :
    option_map fst (vconv bl br s f) =
    option_map (fun a => mkSite (Some f) a (pdim (fst s)) (chiL (fst s)) (chiR (fst s))) (get_B_act (fst s) (full f)).
  Proof using Type. unfold MpsDenote.vconv, MpsDenote.vget_B, get_B_act, full. destruct (lab (fst s)) as [[ol orr]|]; reflexivity. Qed.

  Lemma vconvert_commutes fin L : forall fs p (st : vmps),
    option_map erase (vconvert_from fin L p fs st) = convert_all fs (erase st).
  Proof using Type.
    induction fs as [|f fs IH]; intros p [|s st]; cbn [MpsDenote.vconvert_from MpsDenote.erase map convert_all];
      try reflexivity.
    fold (erase st). rewrite <- (IH (Datatypes.S p) st).
    pose proof (vconv_commutes (bondL p) (bondR fin L p) s f) as Hc.
    destruct (vconv (bondL p) (bondR fin L p) s f) as [s1|]; destruct (get_B_act (fst s) (full f)) as [a|];
      try discriminate; destruct (vconvert_from fin L (Datatypes.S p) fs st); try reflexivity.
    injection Hc as Hc. cbn [option_map MpsDenote.erase map]. rewrite Hc. reflexivity.
  Qed.

  Lemma vapply_commutes fin op (st : vmps) :
    is_conv op = true -> option_map erase (vapply_op fin op st) = apply_op fin op (erase st).
  Proof using Type.
    destruct op as [fs|i f|i| |k|n|]; try discriminate; intros _; cbn [MpsDenote.vapply_op apply_op].
    - apply vconvert_commutes.
    - destruct (site_pos fin (erase st) i) as [p|]; [|reflexivity].
      unfold set_B. change (nth_error (erase st) p) with (nth_error (map fst st) p). rewrite (@nth_error_map vsite site fst).
      destruct (nth_error st p) as [s|]; [|reflexivity]. cbn [option_map].
      pose proof (vconv_commutes (bondL p) (bondR fin (vlen st) p) s f) as Hc.
      destruct (vconv (bondL p) (bondR fin (vlen st) p) s f) as [s1|]; destruct (get_B_act (fst s) (full f)) as [a|];
        try discriminate; [|reflexivity].
      injection Hc as Hc. cbn [option_map]. rewrite erase_vset_nth, Hc. reflexivity.
  Qed.

  Lemma vapply_erase fin op (st st' : vmps) :
    vapply_op fin op st = Some st' -> apply_op fin op (erase st) = Some (erase st').
  Proof using Type.
    intros H. rewrite <- vapply_commutes, H; [reflexivity|]. destruct op; try reflexivity; discriminate.
  Qed.

  Lemma vrun_erase fin ops : forall (st st' : vmps),
    vrun_ops fin ops st = Some st' -> run_ops fin ops (erase st) = Some (erase st').
  Proof using Type.
    induction ops as [|op ops IH]; intros st st' H; cbn [MpsDenote.vrun_ops run_ops] in *.
    - injection H as <-. reflexivity.
    - destruct (vapply_op fin op st) as [st1|] eqn:E; [|discriminate].
      rewrite (vapply_erase _ _ _ _ E). apply IH. exact H.
  Qed.

  Lemma convert_progress fin op (st : vmps) r :
    is_conv op = true -> apply_op fin op (erase st) = Some r -> exists st', vapply_op fin op st = Some st'.
  Proof using Type.
    intros Hc H. rewrite <- vapply_commutes in H by exact Hc.
    destruct (vapply_op fin op st) as [st'|]; [exists st'; reflexivity|discriminate].
  Qed.

  Lemma vconv_inv bl br (s s' : vsite) f : vconv bl br s f = Some s' ->
    exists ol orr, lab (fst s) = Some (ol, orr) /\
      fst s' = mkSite (Some f) (fst (act (fst s)) + (fst f - ol), snd (act (fst s)) + (snd f - orr))
                      (pdim (fst s)) (chiL (fst s)) (chiR (fst s)) /\
      snd s' = mul (mul (sv bl (fst f - ol)) (snd s)) (sv br (snd f - orr)).
  Proof using Type.
    unfold MpsDenote.vconv, MpsDenote.vget_B, get_B_act, full.
    destruct (lab (fst s)) as [[ol orr]|]; [|discriminate].
    cbn [scale1 MpsDenote.vscale_l MpsDenote.vscale_r]. intros H. injection H as <-.
    exists ol, orr. cbn [fst snd act]. auto.
  Qed.

  (* What a form conversion may do to the site at position p: the stored tensor stays s^nuL Gamma s^nuR for the same
     Gamma, and get_B(i, form) for a full form returns what it returned before (S^(f-l) then S^(g-f) is S^(g-l)).
     Sitewise on chains this is a preorder, so it holds along histories. *)
  Definition site_le (fin : bool) (L : Z) (p : nat) (s s' : vsite) : Prop :=
    (forall G, denotes_at fin L G p s -> denotes_at fin L G p s') /\
    forall g, vget_B (bondL p) (bondR fin L p) s' (full g) = vget_B (bondL p) (bondR fin L p) s (full g).

  Fixpoint chain_le (fin : bool) (L : Z) (p : nat) (st st' : vmps) : Prop :=
    match st, st' with
    | [], [] => True
    | s :: t, s' :: t' => site_le fin L p s s' /\ chain_le fin L (Datatypes.S p) t t'
    | _, _ => False
    end.

  Lemma site_le_refl fin L p s : site_le fin L p s s.
  Proof using Type. split; auto. Qed.

  Lemma chain_le_refl fin L st : forall p, chain_le fin L p st st.
  Proof using Type. induction st as [|s t IH]; intros p; [exact I|]. split; [apply site_le_refl|apply IH]. Qed.

  Lemma chain_le_trans fin L st1 : forall p st2 st3,
    chain_le fin L p st1 st2 -> chain_le fin L p st2 st3 -> chain_le fin L p st1 st3.
  Proof using Type.
    induction st1 as [|s1 t1 IH]; intros p [|s2 t2] [|s3 t3]; cbn [chain_le]; try tauto.
    intros [[Ha Hb] H1] [[Hc Hd] H2]. split; [|exact (IH _ _ _ H1 H2)]. split; [auto|]. intros g. rewrite Hd. apply Hb.
  Qed.

  Lemma chain_le_length fin L st : forall p st', chain_le fin L p st st' -> vlen st' = vlen st.
  Proof using Type.
    unfold MpsDenote.vlen. induction st as [|s t IH]; intros p [|s' t']; cbn [chain_le length]; try tauto.
    intros [_ H]. rewrite !Nat2Z.inj_succ, (IH _ _ H). reflexivity.
  Qed.

  Lemma chain_le_nth fin L st : forall p st' k, chain_le fin L p st st' ->
    match nth_error st k, nth_error st' k with
    | Some s, Some s' => site_le fin L (p + k) s s'
    | None, None => True
    | _, _ => False
    end.
  Proof using Type.
    induction st as [|s t IH]; intros p [|s' t'] [|k]; cbn [chain_le nth_error]; try tauto.
    - rewrite Nat.add_0_r. tauto.
    - intros [_ H]. rewrite Nat.add_succ_r. apply (IH (Datatypes.S p)), H.
  Qed.

  Lemma vconv_le fin L p (s s' : vsite) f : vconv (bondL p) (bondR fin L p) s f = Some s' -> site_le fin L p s s'.
  Proof using mul_assoc sv_add.
    intros Hc. destruct (vconv_inv _ _ _ _ _ Hc) as [ol [orr [Hl [Hf Hv]]]]. split.
    - unfold MpsDenote.denotes_at. intros G Hd. rewrite Hv, Hf, Hd. cbn [act fst snd].
      rewrite (Z.add_comm (fst (act (fst s))) (fst f - ol)). rewrite !sv_add. rewrite !mul_assoc. reflexivity.
    - intros g. unfold MpsDenote.vget_B, full. rewrite Hf, Hl, Hv. destruct f as [f1 f2].
      cbn [lab fst snd MpsDenote.vscale_l MpsDenote.vscale_r]. f_equal.
      replace (fst g - ol) with ((fst g - f1) + (f1 - ol)) by ring.
      replace (snd g - orr) with ((f2 - orr) + (snd g - f2)) by ring.
      rewrite !sv_add, !mul_assoc. reflexivity.
  Qed.

  Lemma vconvert_le fin L : forall fs p0 (st st' : vmps),
    vconvert_from fin L p0 fs st = Some st' -> chain_le fin L p0 st st'.
  Proof using mul_assoc sv_add.
    induction fs as [|f fs IH]; intros p0 st st' H; destruct st as [|s st]; cbn [MpsDenote.vconvert_from] in H;
      try discriminate.
    - injection H as <-. exact I.
    - destruct (vconv (bondL p0) (bondR fin L p0) s f) as [s1|] eqn:Ec; [|discriminate].
      destruct (vconvert_from fin L (Datatypes.S p0) fs st) as [r|] eqn:Er; [|discriminate].
      injection H as <-. exact (conj (vconv_le _ _ _ _ _ _ Ec) (IH _ _ _ Er)).
  Qed.

  Lemma vset_nth_length p x (st : vmps) : length (vset_nth p x st) = length st.
  Proof using Type. revert p. induction st as [|y t IH]; intros p; destruct p; cbn [MpsDenote.vset_nth length]; auto. Qed.

  Lemma vset_nth_le fin L (s s' : vsite) : forall p p0 (st : vmps),
    nth_error st p = Some s -> site_le fin L (p0 + p) s s' -> chain_le fin L p0 st (vset_nth p s' st).
  Proof using Type.
    induction p as [|p IH]; intros p0 [|y t] Hp Hle; cbn [nth_error] in Hp; try discriminate;
      cbn [MpsDenote.vset_nth chain_le].
    - injection Hp as ->. rewrite Nat.add_0_r in Hle. exact (conj Hle (chain_le_refl _ _ _ _)).
    - split; [apply site_le_refl|]. apply IH; [exact Hp|]. rewrite Nat.add_succ_comm. exact Hle.
  Qed.

  Lemma vapply_le fin op (st st' : vmps) : vapply_op fin op st = Some st' -> chain_le fin (vlen st) 0 st st'.
  Proof using mul_assoc sv_add.
    destruct op as [fs|i f|i| |k|n|]; cbn [MpsDenote.vapply_op]; try discriminate.
    - apply vconvert_le.
    - destruct (site_pos fin (erase st) i) as [p|]; [|discriminate].
      destruct (nth_error st p) as [s|] eqn:En; [|discriminate].
      destruct (vconv (bondL p) (bondR fin (vlen st) p) s f) as [s1|] eqn:Ec; [|discriminate].
      intros H. injection H as <-. exact (vset_nth_le _ _ _ _ _ 0%nat _ En (vconv_le _ _ _ _ _ _ Ec)).
  Qed.

  Lemma vrun_le fin ops : forall (st st' : vmps), vrun_ops fin ops st = Some st' -> chain_le fin (vlen st) 0 st st'.
  Proof using mul_assoc sv_add.
    induction ops as [|op ops IH]; intros st st' H; cbn [MpsDenote.vrun_ops] in H.
    - injection H as <-. apply chain_le_refl.
    - destruct (vapply_op fin op st) as [st1|] eqn:E; [|discriminate].
      pose proof (vapply_le _ _ _ _ E) as H1. apply (chain_le_trans _ _ _ _ st1); [exact H1|].
      rewrite <- (chain_le_length _ _ _ _ _ H1). apply IH. exact H.
  Qed.

  Lemma chain_le_denotes fin G (st st' : vmps) :
    chain_le fin (vlen st) 0 st st' -> denotes fin G st -> denotes fin G st'.
  Proof using Type.
    intros H Hd p s' Hp. rewrite (chain_le_length _ _ _ _ _ H). pose proof (chain_le_nth _ _ _ _ _ p H) as Hn.
    rewrite Hp in Hn. destruct (nth_error st p) as [s|] eqn:E; [|contradiction]. apply Hn, Hd, E.
  Qed.

  Lemma vget_B_value fin L G p (s : vsite) l f :
    truthful (fst s) -> denotes_at fin L G p s -> lab (fst s) = Some l ->
    vget_B (bondL p) (bondR fin L p) s (full f) =
      Some (mul (mul (sv (bondL p) (fst f)) (G p)) (sv (bondR fin L p) (snd f))).
  Proof using mul_assoc sv_add.
    intros Ht Hd Hl. unfold MpsDenote.vget_B, full. rewrite Hl. destruct l as [ol orr].
    cbn [MpsDenote.vscale_l MpsDenote.vscale_r]. unfold MpsDenote.denotes_at in Hd. rewrite Hd.
    rewrite (Ht _ Hl). cbn [fst snd]. f_equal.
    replace (fst f) with ((fst f - ol) + ol) at 2 by ring.
    replace (snd f) with (orr + (snd f - orr)) at 2 by ring.
    rewrite !sv_add. rewrite !mul_assoc. reflexivity.
  Qed.

  Lemma denotes_exists fin (st : vmps) : exists G, denotes fin G st.
  Proof using mul_assoc mul_1_l mul_1_r sv_0 sv_add.
    exists (fun p => match nth_error st p with
                     | Some s => mul (mul (sv (bondL p) (- fst (act (fst s)))) (snd s))
                                     (sv (bondR fin (vlen st) p) (- snd (act (fst s))))
                     | None => one
                     end).
    intros p s Hp. unfold MpsDenote.denotes_at. rewrite Hp.
    set (a := fst (act (fst s))). set (b := snd (act (fst s))).
    rewrite !mul_assoc. rewrite <- sv_add. rewrite <- (mul_assoc _ (sv _ (- b)) (sv _ b)). rewrite <- sv_add.
    replace (a + - a) with 0 by lia. replace (- b + b) with 0 by lia.
    rewrite !sv_0, mul_1_l, mul_1_r. reflexivity.
  Qed.

  Lemma vget_B_at_inv fin (st st' : vmps) i f :
    chain_le fin (vlen st) 0 st st' -> vget_B_at fin st' i (full f) = vget_B_at fin st i (full f).
  Proof using Type.
    intros H. pose proof (chain_le_length _ _ _ _ _ H) as Hl. unfold MpsDenote.vget_B_at.
    rewrite (site_pos_len fin (erase st)), Hl by (rewrite !len_erase; exact Hl).
    destruct (site_pos fin (erase st) i) as [p|]; [|reflexivity].
    pose proof (chain_le_nth _ _ _ _ _ p H) as Hn.
    destruct (nth_error st p), (nth_error st' p); try contradiction; [exact (proj2 Hn f)|reflexivity].
  Qed.

  Lemma window_den_inv fin (st st' : vmps) :
    (forall i f, vget_B_at fin st' i (full f) = vget_B_at fin st i (full f)) ->
    forall n i, window_den fin st' i n = window_den fin st i n.
  Proof using Type.
    intros Hg. induction n as [|n IH]; intros i; [reflexivity|].
    cbn [MpsDenote.window_den]. destruct n as [|n]; [apply Hg|].
    rewrite Hg, (IH (i + 1)). reflexivity.
  Qed.

  Theorem convert_preserves_denotation : forall fin ops (st st' : vmps),
    Forall truthful (erase st) -> vrun_ops fin ops st = Some st' ->
    run_ops fin ops (erase st) = Some (erase st') /\
    Forall truthful (erase st') /\
    (forall G, denotes fin G st -> denotes fin G st') /\
    (forall i f, vget_B_at fin st' i (full f) = vget_B_at fin st i (full f)) /\
    (forall i n, window_den fin st' i n = window_den fin st i n) /\
    chain_den fin st' = chain_den fin st.
  Proof using mul_assoc sv_add.
    intros fin ops st st' Ht H.
    pose proof (vrun_erase _ _ _ _ H) as He. pose proof (label_truthful _ _ _ _ Ht He) as Ht'.
    pose proof (vrun_le _ _ _ _ H) as Hle.
    assert (Hg : forall i f, vget_B_at fin st' i (full f) = vget_B_at fin st i (full f)).
    { intros i f. apply vget_B_at_inv, Hle. }
    split; [exact He|]. split; [exact Ht'|].
    split; [intros G; apply chain_le_denotes; exact Hle|].
    split; [exact Hg|].
    split; [intros i n; apply window_den_inv; exact Hg|].
    unfold MpsDenote.chain_den. rewrite (Nat2Z.inj _ _ (chain_le_length _ _ _ _ _ Hle)). apply window_den_inv. exact Hg.
  Qed.

  Theorem get_B_closed_form : forall fin G (st : vmps) i p f,
    Forall canonical (erase st) -> denotes fin G st -> site_pos fin (erase st) i = Some p -> (p < length st)%nat ->
    vget_B_at fin st i (full f) =
      Some (mul (mul (sv (bondL p) (fst f)) (G p)) (sv (bondR fin (vlen st) p) (snd f))).
  Proof using mul_assoc sv_add.
    intros fin G st i p f Hc Hd Hp Hlt. unfold MpsDenote.vget_B_at. rewrite Hp.
    apply nth_error_Some in Hlt. destruct (nth_error st p) as [s|] eqn:En; [|destruct (Hlt eq_refl)].
    pose proof (erase_nth _ _ _ _ Hc En) as Hcs. destruct Hcs as [l [Hl Ha]].
    eapply vget_B_value; eauto. apply canonical_truthful. exists l. auto.
  Qed.

  Theorem window_den_closed : forall fin G (st : vmps),
    Forall canonical (erase st) -> denotes fin G st -> 0 < vlen st ->
    forall n i, (0 < n)%nat -> (fin = true -> 0 <= i /\ i + Z.of_nat n <= vlen st) ->
    window_den fin st i n = Some (gamma_window fin (vlen st) G i n).
  Proof using mul_assoc mul_1_l sv_0 sv_add.
    (* lia takes every law in sight into its proof term *)
    clear mul_1_r. intros fin G st Hc Hd HL.
    assert (Hsite : forall i, (fin = true -> 0 <= i < vlen st) ->
              vget_B_at fin st i (full fB) = Some (gsite fin (vlen st) G i)).
    { intros i Hi. rewrite <- len_erase in HL, Hi.
      pose proof (site_pos_some fin (erase st) i Hi) as Hp.
      rewrite (get_B_closed_form fin G st i _ fB Hc Hd Hp).
      - unfold MpsDenote.gsite, fB. cbn [fst snd]. rewrite sv_0, mul_1_l, len_erase. reflexivity.
      - rewrite <- erase_length. exact (site_pos_lt _ _ _ _ HL Hp). }
    induction n as [|n IH]; intros i Hn Hi; [lia|].
    cbn [MpsDenote.window_den MpsDenote.gamma_window]. destruct n as [|n].
    - apply Hsite. intros Hf. specialize (Hi Hf). lia.
    - rewrite Hsite by (intros Hf; specialize (Hi Hf); lia).
      rewrite (IH (i + 1)) by (try lia; intros Hf; specialize (Hi Hf); lia). reflexivity.
  Qed.
End DenoteP.
