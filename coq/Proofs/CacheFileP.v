(* Model/CacheFile.v (property C20): a container of a file system meets the storage contract of Model/Cache.v through
   `storage_ok_proj`. *)
From TenpyV Require Import Base.Prelude Base.Lists Model.Cache Proofs.CacheP Model.CacheFile.
Open Scope Z_scope.

Lemma prefix_b_app p : forall r, prefix_b p (p ++ r) = true.
Proof. induction p as [|x p IH]; intro r; cbn; [reflexivity|]. rewrite Z.eqb_refl. apply IH. Qed.
Lemma prefix_b_refl p : prefix_b p p = true.
Proof. rewrite <- (app_nil_r p) at 2. apply prefix_b_app. Qed.

Lemma fs_find_path q : forall fs c, fs_find q fs = Some c -> fc_path c = q.
Proof.
  induction fs as [|x fs IH]; intros c H; cbn in H; [discriminate|].
  destruct (lZ_eqb (fc_path x) q) eqn:E.
  - inversion H; subst. apply lZ_eqb_true_iff. exact E.
  - apply IH. exact H.
Qed.

Lemma fs_find_map g : (forall c, fc_path (g c) = fc_path c) ->
  forall q fs, fs_find q (map g fs) = option_map g (fs_find q fs).
Proof.
  intros Hg q fs. induction fs as [|x fs IH]; cbn; [reflexivity|].
  rewrite Hg. destruct (lZ_eqb (fc_path x) q); [reflexivity | exact IH].
Qed.

Lemma fs_find_app q c : forall fs,
  fs_find q (fs ++ [c]) = match fs_find q fs with
                          | Some x => Some x
                          | None => if lZ_eqb (fc_path c) q then Some c else None
                          end.
Proof.
  induction fs as [|x fs IH]; cbn; [reflexivity|].
  destruct (lZ_eqb (fc_path x) q); [reflexivity | exact IH].
Qed.

(* fs_set_files and fs_close map over the containers without touching the paths, and the container found under q has
   path q: on the lookup of q they act by a test on q *)
Lemma fs_find_set_files q p f fs : fs_find q (fs_set_files p f fs) =
  option_map (fun c => if lZ_eqb q p then mkFC q (f (fc_files c)) (fc_opened c) else c) (fs_find q fs).
Proof.
  unfold fs_set_files. rewrite fs_find_map by (intro c; destruct (lZ_eqb (fc_path c) p); reflexivity).
  destruct (fs_find q fs) as [c|] eqn:E; [|reflexivity]. cbn [option_map]. rewrite (fs_find_path _ _ _ E). reflexivity.
Qed.
Lemma fs_find_close q p fs : fs_find q (fs_close p fs) =
  option_map (fun c => if prefix_b p q then mkFC q (match p with [] => [] | _ => fc_files c end) false else c) (fs_find q fs).
Proof.
  unfold fs_close. rewrite fs_find_map by (intro c; destruct (prefix_b p (fc_path c)); reflexivity).
  destruct (fs_find q fs) as [c|] eqn:E; [|reflexivity]. cbn [option_map]. rewrite (fs_find_path _ _ _ E). reflexivity.
Qed.

Lemma is_open_set_files q p f fs : fs_is_open q (fs_set_files p f fs) = fs_is_open q fs.
Proof.
  unfold fs_is_open. rewrite fs_find_set_files. destruct (fs_find q fs) as [c|]; [|reflexivity].
  cbn [option_map]. destruct (lZ_eqb q p); reflexivity.
Qed.
Lemma closed_set_files q p f fs : fs_closed q (fs_set_files p f fs) = fs_closed q fs.
Proof.
  unfold fs_closed. rewrite fs_find_set_files. destruct (fs_find q fs) as [c|]; [|reflexivity].
  cbn [option_map]. destruct (lZ_eqb q p); reflexivity.
Qed.
Lemma files_set_files_eq p f fs : fs_is_open p fs = true -> fs_files p (fs_set_files p f fs) = f (fs_files p fs).
Proof.
  unfold fs_is_open, fs_files. rewrite fs_find_set_files, lZ_eqb_refl. destruct (fs_find p fs); [reflexivity|discriminate].
Qed.
Lemma files_set_files_neq q p f fs : q <> p -> fs_files q (fs_set_files p f fs) = fs_files q fs.
Proof.
  intro H. unfold fs_files. rewrite fs_find_set_files, (lZ_eqb_neq _ _ H). destruct (fs_find q fs); reflexivity.
Qed.

Lemma is_open_close q p fs : fs_is_open q (fs_close p fs) = fs_is_open q fs && negb (prefix_b p q).
Proof.
  unfold fs_is_open. rewrite fs_find_close. destruct (fs_find q fs) as [c|]; [|reflexivity].
  cbn [option_map]. destruct (prefix_b p q); cbn [fc_opened negb]; [rewrite andb_false_r|rewrite andb_true_r]; reflexivity.
Qed.
Lemma closed_close q p fs : fs_closed q fs = true -> fs_closed q (fs_close p fs) = true.
Proof.
  unfold fs_closed. rewrite fs_find_close. destruct (fs_find q fs) as [c|]; [|discriminate].
  cbn [option_map]. destruct (prefix_b p q); cbn; auto.
Qed.
Lemma files_close_other q p fs : prefix_b p q = false -> fs_files q (fs_close p fs) = fs_files q fs.
Proof. intro H. unfold fs_files. rewrite fs_find_close, H. destruct (fs_find q fs); reflexivity. Qed.
Lemma files_close_top q fs : fs_files q (fs_close [] fs) = [].
Proof. unfold fs_files. rewrite fs_find_close. destruct (fs_find q fs); reflexivity. Qed.

Lemma closed_not_open q fs : fs_closed q fs = true -> fs_is_open q fs = false.
Proof.
  unfold fs_closed, fs_is_open. destruct (fs_find q fs) as [c|]; [|reflexivity].
  destruct (fc_opened c); [discriminate | reflexivity].
Qed.

Lemma fs_step_closed fs op : fs_is_open (f_target op) fs = false -> fs_step fs op = (fs, FValueError).
Proof. intro H. unfold fs_step. rewrite H. reflexivity. Qed.
Lemma fs_step_open fs op : fs_is_open (f_target op) fs = true ->
  fs_step fs op =
  match op with
  | FLoad p k => (fs, match d_get k (fs_files p fs) with Some v => FVal v | None => FMissing end)
  | FSave p k v => (fs_set_files p (d_set k v) fs, FNone)
  | FDelete p k => (fs_set_files p (d_del k) fs, FNone)
  | FPreload p k => (fs, FNone)
  | FSub p n => match fs_find (p ++ [n]) fs with
                | Some _ => (fs, FValueError)
                | None => (fs ++ [mkFC (p ++ [n]) [] true], FNone)
                end
  | FClose p => (fs_close p fs, FNone)
  end.
Proof. intro H. unfold fs_step. rewrite H. reflexivity. Qed.

Lemma file_storage_ok : forall p, storage_ok (fs_ops p) (fs_abs p) (fs_inv p).
Proof.
  intro p. unfold fs_inv, fs_abs. apply (storage_ok_proj (fs_ops p) (fs_files p)); cbn [s_load s_save s_delete s_preload fs_ops].
  - intros s k H. rewrite H. reflexivity.
  - intros s k H _. rewrite (fs_step_open s (FLoad p k) H). cbn [fst snd]. split; [exact H|]. split; [reflexivity|].
    destruct (d_get k (fs_files p s)); reflexivity.
  - intros s k v H. rewrite (fs_step_open s (FSave p k v) H). cbn [fst]. rewrite is_open_set_files. split; [exact H|].
    apply files_set_files_eq. exact H.
  - intros s k H _. rewrite (fs_step_open s (FDelete p k) H). cbn [fst]. rewrite is_open_set_files. split; [exact H|].
    apply files_set_files_eq. exact H.
  - intros s k H _. rewrite (fs_step_open s (FPreload p k) H). split; [exact H|reflexivity].
Qed.

Definition is_data (op : f_op) : Prop := match op with FSub _ _ | FClose _ => False | _ => True end.

Lemma data_op_other_container q fs op : q <> f_target op -> is_data op ->
  fs_is_open q (fst (fs_step fs op)) = fs_is_open q fs /\
  forall k, fs_abs q (fst (fs_step fs op)) k = fs_abs q fs k.
Proof.
  intros Hq Hd. destruct (fs_is_open (f_target op) fs) eqn:E.
  2:{ rewrite (fs_step_closed fs op E). split; reflexivity. }
  rewrite (fs_step_open fs op E). unfold fs_abs.
  destruct op as [p k|p k v|p k|p k|p n|p]; try contradiction; cbn [f_target fst] in *;
    rewrite ?is_open_set_files, ?(files_set_files_neq q p _ fs Hq); split; reflexivity.
Qed.

Lemma close_below p r fs : fs_is_open (p ++ r) (fs_close p fs) = false /\
  forall k, fs_abs (p ++ r) (fs_close p fs) k = None /\ snd (s_load (fs_ops (p ++ r)) (fs_close p fs) k) = None.
Proof.
  assert (C : fs_is_open (p ++ r) (fs_close p fs) = false).
  { rewrite is_open_close, prefix_b_app. apply andb_false_r. }
  split; [exact C|]. intro k. unfold fs_abs. rewrite C. split; [reflexivity|].
  cbn [s_load fs_ops snd]. rewrite (fs_step_closed (fs_close p fs) (FLoad (p ++ r) k) C). reflexivity.
Qed.

Lemma close_other p q fs : prefix_b p q = false ->
  fs_is_open q (fs_close p fs) = fs_is_open q fs /\ forall k, fs_abs q (fs_close p fs) k = fs_abs q fs k.
Proof.
  intros Hq. assert (C : fs_is_open q (fs_close p fs) = fs_is_open q fs).
  { rewrite is_open_close, Hq. apply andb_true_r. }
  split; [exact C|]. intro k. unfold fs_abs. rewrite C, (files_close_other q p fs Hq). reflexivity.
Qed.

Lemma fs_closed_step q fs op : fs_closed q fs = true ->
  fs_closed q (fst (fs_step fs op)) = true /\ (f_target op = q -> snd (fs_step fs op) = FValueError).
Proof.
  intro H. split.
  - destruct (fs_is_open (f_target op) fs) eqn:E.
    2:{ rewrite (fs_step_closed fs op E). exact H. }
    rewrite (fs_step_open fs op E).
    destruct op as [p k|p k v|p k|p k|p n|p]; cbn [fst]; rewrite ?closed_set_files; try exact H.
    + destruct (fs_find (p ++ [n]) fs); [exact H|].
      cbn [fst]. unfold fs_closed in *. rewrite fs_find_app. destruct (fs_find q fs); [exact H | discriminate].
    + apply closed_close. exact H.
  - intros <-. rewrite (fs_step_closed fs op (closed_not_open _ _ H)). reflexivity.
Qed.

Lemma fs_run_cons fs op t :
  fs_run fs (op :: t) = (fst (fs_run (fst (fs_step fs op)) t), snd (fs_step fs op) :: snd (fs_run (fst (fs_step fs op)) t)).
Proof. exact (run_cons_proj (fs_step fs op) (fun fs1 => fs_run fs1 t)). Qed.

Lemma file_closed_forever : forall q ops fs, fs_closed q fs = true ->
  fs_closed q (fst (fs_run fs ops)) = true /\
  Forall2 (fun op o => f_target op = q -> o = FValueError) ops (snd (fs_run fs ops)).
Proof.
  intros q ops. induction ops as [|op t IH]; intros fs H.
  - cbn. split; [exact H | constructor].
  - rewrite fs_run_cons. cbn [fst snd]. destruct (fs_closed_step q fs op H) as [C1 C2].
    destruct (IH _ C1) as [I1 I2]. split; [exact I1 | constructor; assumption].
Qed.
