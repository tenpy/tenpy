(* Property C13, charge sector: make_valid(sum_i B_i.qtotal) = MPS.get_total_charge() is invariant under every
   local update of Model/SweepCharge.v (two-site and one-site engine, no mixer / DensityMatrixMixer /
   SubspaceExpansion, any update_LP_RP flags), hence along every sweep schedule, for every chinfo. *)
From TenpyV Require Import Base.Prelude Base.Lists Model.Charge Model.Sweep Model.SweepCharge Proofs.ChargeP Proofs.SweepP2.
Open Scope Z_scope.

Lemma Forall_firstn {A} (P : A -> Prop) l k : Forall P l -> Forall P (firstn k l).
Proof.
  intros H. revert k. induction H as [|x l Hx _ IH]; intros [|k]; cbn [firstn]; constructor; auto.
Qed.

Lemma Forall_repeat_list {A} (P : A -> Prop) l k : Forall P l -> Forall P (repeat_list l k).
Proof. intros H. induction k as [|k IH]; cbn [repeat_list]; [constructor|]. apply Forall_app. split; assumption. Qed.

Definition vl (ci : chinfo) (q : charge) : Prop := length q = length ci.
Definition wfq (ci : chinfo) (qs : list charge) : Prop := Forall (vl ci) qs.

#[local] Hint Unfold vl : vlen.

Lemma vsub_len n a b : length a = n -> length b = n -> length (vsub a b) = n.
Proof. unfold vsub. auto with vlen. Qed.
Lemma nth_vsub a b j : (j < length a)%nat -> (j < length b)%nat -> nth j (vsub a b) 0 = nth j a 0 + - nth j b 0.
Proof. intros Ha Hb. unfold vsub. rewrite nth_vadd, nth_vneg; [reflexivity|exact Ha|rewrite vneg_length; exact Hb]. Qed.
Lemma tdot_q_len ci a b : length a = length ci -> length b = length ci -> length (tdot_q ci a b) = length ci.
Proof. unfold tdot_q. auto with vlen. Qed.
Lemma env_q_len ci : length (env_q ci) = length ci.
Proof. apply zero_charge_length. Qed.
#[local] Hint Resolve vsub_len tdot_q_len env_q_len : vlen.
#[local] Hint Rewrite nth_vsub using (solve [auto 8 with vlen]) : vnth.

Definition ceq (ci : chinfo) (a b : charge) : Prop := make_valid ci a = make_valid ci b.

Lemma ceq_mv ci a : ceq ci (make_valid ci a) a.
Proof. apply make_valid_idem. Qed.
Lemma ceq_trans ci a b c : ceq ci a b -> ceq ci b c -> ceq ci a c.
Proof. unfold ceq. congruence. Qed.
Lemma ceq_sym ci a b : ceq ci a b -> ceq ci b a.
Proof. unfold ceq. congruence. Qed.
Lemma ceq_vadd ci a a' b b' : ceq ci a a' -> ceq ci b b' -> ceq ci (vadd a b) (vadd a' b').
Proof. apply make_valid_congr_add. Qed.
Lemma ceq_vneg ci a a' : valid_ci ci -> ceq ci a a' -> ceq ci (vneg a) (vneg a').
Proof. intros _. apply make_valid_congr_neg. Qed.

(* npc.svd with one side given: l + (a - l) ~ a, with make_valid where the code has it *)
Lemma ceq_complete ci a l : vl ci a -> vl ci l ->
  ceq ci (vadd (make_valid ci l) (make_valid ci (make_valid ci (vsub a l)))) a.
Proof.
  intros Ha Hl. eapply ceq_trans; [apply ceq_vadd; [|eapply ceq_trans]; apply ceq_mv|].
  apply f_equal. vec_lia (length ci).
Qed.

(* what a decomposition of a tensor of charge a returns: (U.qtotal, VH.qtotal), or None (it raised) *)
Definition splits (ci : chinfo) (a : charge) (r : option (charge * charge)) : Prop :=
  match r with Some (u, vh) => vl ci u /\ vl ci vh /\ ceq ci (vadd u vh) a | None => True end.

Lemma splits_ceq ci a b r : splits ci a r -> ceq ci a b -> splits ci b r.
Proof.
  destruct r as [[u vh]|]; [|trivial]. intros (A & B & C) H. split; [exact A|]. split; [exact B|]. eapply ceq_trans; eassumption.
Qed.

Definition ovl (ci : chinfo) (o : option charge) : Prop := match o with Some q => vl ci q | None => True end.

Lemma svd_q_spec ci a ql qr : vl ci a -> ovl ci ql -> ovl ci qr ->
  splits ci a (svd_q ci a ql qr).
Proof.
  intros Ha Hl Hr. unfold svd_q. destruct ql as [l|], qr as [r|].
  - destruct (list_eqb a (make_valid ci (vadd l r))) eqn:E; [|exact I]. apply list_eqb_eq in E.
    cbn [splits]. repeat split; auto with vlen.
    rewrite E. eapply ceq_trans; [apply ceq_vadd; apply ceq_mv|apply ceq_sym, ceq_mv].
  - cbn [splits]. repeat split; auto with vlen. apply ceq_complete; assumption.
  - cbn [splits]. repeat split; auto with vlen. rewrite vadd_comm. apply ceq_complete; assumption.
  - cbn [splits]. repeat split; auto with vlen. rewrite vadd_comm. apply ceq_complete; assumption.
Qed.

Lemma svd_q_some_one ci a l : svd_q ci a (Some l) None <> None /\ svd_q ci a None (Some l) <> None.
Proof. split; cbn; discriminate. Qed.

Lemma determine_q_spec ci th ql qr l r : vl ci th -> ovl ci ql -> ovl ci qr ->
  determine_q ci th ql qr = Some (l, r) -> vl ci l /\ vl ci r /\ vadd l r = th.
Proof.
  intros Ht Hl Hr H. unfold determine_q in H.
  destruct (list_eqb _ th) eqn:E; [|discriminate]. apply list_eqb_eq in E. inversion H as [H1]; clear H.
  destruct ql as [l0|], qr as [r0|]; inversion H1; subst; cbn [fst snd] in *; repeat split; auto with vlen.
Qed.

Lemma dm2_q_spec ci th ql qr : vl ci th -> ovl ci ql -> ovl ci qr ->
  splits ci th (dm2_q ci th ql qr).
Proof.
  intros Ht Hl Hr. unfold dm2_q. destruct (determine_q ci th ql qr) as [[l r]|] eqn:E; [|exact I].
  destruct (determine_q_spec _ _ _ _ _ _ Ht Hl Hr E) as (Hl' & Hr' & Hs).
  cbn [splits]. repeat split; auto with vlen. rewrite <- Hs. apply ceq_vadd; [apply ceq_mv..].
Qed.

Lemma tdot_zero ci th : vl ci th -> ceq ci (tdot_q ci (env_q ci) th) th.
Proof.
  intros Ht. eapply ceq_trans; [apply ceq_mv|]. apply f_equal, vadd_zero_l, Ht.
Qed.

Lemma sub1_q_spec ci th mr : vl ci th -> splits ci th (sub1_q ci th mr).
Proof.
  intros Ht. unfold sub1_q.
  assert (Hte : vl ci (tdot_q ci (env_q ci) th)) by auto with vlen.
  destruct mr; (eapply splits_ceq; [apply svd_q_spec; cbn; auto|apply tdot_zero; assumption]).
Qed.

Lemma sub2_q_spec ci th ml mrr ql qr : vl ci th -> ovl ci ql -> ovl ci qr ->
  splits ci th (sub2_q ci th ml mrr ql qr).
Proof.
  intros Ht Hl Hr. unfold sub2_q. destruct ml, mrr; cbn [andb]; [|apply sub1_q_spec; assumption..|exact I].
  (* the pair is that of the DensityMatrixMixer *)
  pose proof (dm2_q_spec ci th ql qr Ht Hl Hr) as P. unfold dm2_q in P.
  destruct (determine_q ci th ql qr) as [[l r]|]; [|exact I].
  destruct (sub1_q ci th true); [|exact I]. destruct (sub1_q ci th false); [|exact I]. exact P.
Qed.

Lemma vl_vsum ci qs : wfq ci qs -> vl ci (vsum ci qs).
Proof. intros Hw. induction Hw as [|q qs Hq _ IH]; cbn [vsum fold_right]; auto with vlen. Qed.

Lemma wfq_set_nth ci qs k q : wfq ci qs -> vl ci q -> wfq ci (set_nth qs k q).
Proof.
  unfold wfq. intros Hw Hq. revert k. induction Hw as [|x qs Hx Hw IH]; intros [|k]; cbn [set_nth]; constructor; auto.
Qed.

Lemma wfq_nth ci qs k : wfq ci qs -> (k < length qs)%nat -> vl ci (nth k qs []).
Proof. intros Hw Hk. exact (proj1 (Forall_nth _ _) Hw k [] Hk). Qed.

(* raw: vadd is commutative and associative on all lists *)
Lemma vsum_set_nth ci qs : forall k q, (k < length qs)%nat ->
  vadd (vsum ci (set_nth qs k q)) (nth k qs []) = vadd (vsum ci qs) q.
Proof.
  unfold vsum. induction qs as [|x qs IH]; intros [|k] q Hk; cbn [length] in Hk; try lia; cbn [set_nth nth fold_right].
  - rewrite (vadd_comm (vadd q _) x), (vadd_comm q), vadd_assoc. reflexivity.
  - rewrite <- !vadd_assoc. f_equal. apply IH. lia.
Qed.

Lemma ceq_cancel_r ci a b c c' : vl ci a -> vl ci b -> vl ci c -> vl ci c' ->
  ceq ci (vadd a c) (vadd b c') -> ceq ci c c' -> ceq ci a b.
Proof.
  intros Ha Hb Hc Hc' H Hcc. pose proof (ceq_vadd ci _ _ _ _ H (make_valid_congr_neg ci c c' Hcc)) as R.
  replace (vadd (vadd a c) (vneg c)) with a in R by vec_lia (length ci).
  replace (vadd (vadd b c') (vneg c')) with b in R by vec_lia (length ci). exact R.
Qed.

(* add the old pair to the new sum and the new pair to the old one: both are the other sites plus all four charges
   (vsum_set_nth, once for each site); then the congruent pairs cancel (ceq_cancel_r) *)
Lemma total_set2 ci qs i j u v : wfq ci qs -> (i < length qs)%nat -> (j < length qs)%nat -> i <> j ->
  vl ci u -> vl ci v -> ceq ci (vadd u v) (vadd (nth i qs []) (nth j qs [])) ->
  total_charge ci (set_nth (set_nth qs i u) j v) = total_charge ci qs.
Proof.
  intros Hw Hi Hj Hij Hu Hvv Hc.
  pose proof (wfq_set_nth ci qs i u Hw Hu) as Hw1.
  pose proof (wfq_nth ci qs i Hw Hi) as Hqi. pose proof (wfq_nth ci qs j Hw Hj) as Hqj.
  pose proof (vsum_set_nth ci qs i u Hi) as E1.
  pose proof (vsum_set_nth ci (set_nth qs i u) j v ltac:(rewrite set_nth_length; exact Hj)) as E2.
  rewrite nth_set_nth_neq in E2 by (intro; apply Hij; congruence).
  apply (ceq_cancel_r ci _ _ (vadd (nth i qs []) (nth j qs [])) (vadd u v));
    [apply vl_vsum, wfq_set_nth; assumption|apply vl_vsum; exact Hw|auto with vlen..| |apply ceq_sym; exact Hc].
  apply f_equal.
  rewrite (vadd_comm (nth i qs [])), vadd_assoc, E2, <- vadd_assoc, (vadd_comm v), vadd_assoc, E1,
    <- vadd_assoc. reflexivity.
Qed.

Definition keeps (c : cfg) : Prop := snd c = None.
(* a one-site left move is not made at position 0, so that its left neighbour i0 - 1 does not underflow; on a chain of
   at least two sites the two updated sites i, i + 1 are then different sites (mod_succ_neq) *)
Definition wf_entry (n : nat) (e : entry) : Prop :=
  match e with (i0, mr, _) => n = 2%nat \/ mr = true \/ (1 <= i0)%nat end.

Lemma diag_q_keeps ci c th : keeps c -> diag_q ci (snd c) th = th.
Proof. unfold keeps. intros ->. reflexivity. Qed.

Lemma mod_succ_neq i L : (2 <= L)%nat -> (i mod L <> (i + 1) mod L)%nat.
Proof. intros HL. apply apart_mod; [|unfold apart]; lia. Qed.

Lemma getq_setq2 qs i u v : (2 <= length qs)%nat ->
  getq (setq (setq qs i u) (i + 1) v) i = u /\ getq (setq (setq qs i u) (i + 1) v) (i + 1) = v.
Proof.
  intros HL. unfold getq, setq. rewrite !set_nth_length. split.
  - rewrite nth_set_nth_neq by (apply mod_succ_neq; exact HL). apply nth_set_nth_eq. apply Nat.mod_upper_bound. lia.
  - apply nth_set_nth_eq. rewrite set_nth_length. apply Nat.mod_upper_bound. lia.
Qed.

Lemma vl_getq ci qs i : wfq ci qs -> (2 <= length qs)%nat -> vl ci (getq qs i).
Proof. intros Hw HL. unfold getq. apply wfq_nth; [exact Hw|apply Nat.mod_upper_bound; lia]. Qed.

Lemma write_pair ci qs i r qs' : wfq ci qs -> (2 <= length qs)%nat ->
  splits ci (vadd (getq qs i) (getq qs (i + 1))) r ->
  match r with None => None | Some (u, vh) => Some (setq (setq qs i u) (i + 1) vh) end = Some qs' ->
  wfq ci qs' /\ length qs' = length qs /\ total_charge ci qs' = total_charge ci qs.
Proof.
  intros Hw HL P E. destruct r as [[u v]|]; [|discriminate]. destruct P as (Hu & Hvv & Hc).
  inversion E; subst qs'. unfold setq, getq in *. rewrite !set_nth_length.
  split; [apply wfq_set_nth; [apply wfq_set_nth|]; assumption|]. split; [reflexivity|].
  apply total_set2; try assumption; try (apply Nat.mod_upper_bound; lia). apply mod_succ_neq. exact HL.
Qed.

Lemma upd2_q_total ci qs i0 upl upr c qs' : wfq ci qs -> (2 <= length qs)%nat -> keeps c ->
  upd2_q ci qs i0 upl upr c = Some qs' ->
  wfq ci qs' /\ length qs' = length qs /\ total_charge ci qs' = total_charge ci qs.
Proof.
  intros Hw HL Hk H. unfold upd2_q in H. rewrite (diag_q_keeps ci c _ Hk) in H.
  pose proof (vl_getq ci qs i0 Hw HL) as H0. pose proof (vl_getq ci qs (i0 + 1) Hw HL) as H1.
  set (th := tdot_q ci (getq qs i0) (getq qs (i0 + 1))) in *.
  assert (Ht : vl ci th) by (unfold th; auto with vlen).
  (* whichever decomposition is used, it splits theta's charge, which is that of the two sites *)
  refine (write_pair ci qs i0 _ qs' Hw HL _ H).
  apply (splits_ceq ci th); [|apply ceq_mv].
  destruct (fst c); [apply svd_q_spec|apply dm2_q_spec|apply sub2_q_spec]; cbn; auto with vlen.
Qed.

(* the one-site engine without mixer absorbs vh (resp. u) into the neighbouring tensor *)
Lemma splits_absorb_r ci th nx r : vl ci nx -> splits ci th r ->
  splits ci (vadd th nx) (match r with Some (u, vh) => Some (u, tdot_q ci vh nx) | None => None end).
Proof.
  intros Hn P. destruct r as [[u vh]|]; [|exact I]. destruct P as (A & B & C).
  split; [exact A|]. split; [auto with vlen|].
  eapply ceq_trans; [apply ceq_vadd; [reflexivity|apply ceq_mv]|].
  rewrite vadd_assoc. apply ceq_vadd; [exact C|reflexivity].
Qed.

Lemma splits_absorb_l ci th nx r : vl ci nx -> splits ci th r ->
  splits ci (vadd nx th) (match r with Some (u, vh) => Some (tdot_q ci nx u, vh) | None => None end).
Proof.
  intros Hn P. destruct r as [[u vh]|]; [|exact I]. destruct P as (A & B & C).
  split; [auto with vlen|]. split; [exact B|].
  eapply ceq_trans; [apply ceq_vadd; [apply ceq_mv|reflexivity]|].
  rewrite <- vadd_assoc. apply ceq_vadd; [reflexivity|exact C].
Qed.

Lemma upd1_q_total ci qs i0 mr upl upr c qs' : wfq ci qs -> (2 <= length qs)%nat -> keeps c ->
  mr = true \/ (1 <= i0)%nat ->
  upd1_q ci qs i0 mr upl upr c = Some qs' ->
  wfq ci qs' /\ length qs' = length qs /\ total_charge ci qs' = total_charge ci qs.
Proof.
  intros Hw HL Hk Hwf H. unfold upd1_q, env_inds in H. rewrite (diag_q_keeps ci c _ Hk) in H. cbn [Nat.eqb orb] in H.
  destruct mr; cbn [fst snd] in H.
  - (* right move: theta on iL = i0, next_B on iR = i0 + 1 *)
    rewrite <- (Nat.add_1_r i0) in H. refine (write_pair ci qs i0 _ qs' Hw HL _ H).
    pose proof (vl_getq ci qs i0 Hw HL) as H0. pose proof (vl_getq ci qs (i0 + 1) Hw HL) as H1.
    set (th := getq qs i0) in *. set (nx := getq qs (i0 + 1)) in *.
    destruct (fst c).
    + apply splits_absorb_r; [exact H1|]. apply svd_q_spec; cbn; auto.
    + eapply splits_ceq; [apply dm2_q_spec; cbn; auto with vlen|apply ceq_mv].
    + (* can_decompose_1site: U = make_valid th, VH is replaced by next_B *)
      unfold sub1_q. cbn [svd_q splits]. split; [auto with vlen|]. split; [exact H1|].
      apply ceq_vadd; [apply ceq_mv|reflexivity].
  - (* left move: next_A on iL = i0 - 1, theta on iR = i0 = iL + 1 *)
    destruct Hwf as [Hwf|Hwf]; [discriminate|].
    set (iL := (i0 - 1)%nat) in H. replace i0 with (iL + 1)%nat in H by (subst iL; lia).
    refine (write_pair ci qs iL _ qs' Hw HL _ H).
    pose proof (vl_getq ci qs iL Hw HL) as H0. pose proof (vl_getq ci qs (iL + 1) Hw HL) as H1.
    set (th := getq qs (iL + 1)) in *. set (nx := getq qs iL) in *.
    destruct (fst c).
    + apply splits_absorb_l; [exact H0|]. apply svd_q_spec; cbn; auto.
    + eapply splits_ceq; [apply dm2_q_spec; cbn; auto with vlen|apply ceq_mv].
    + unfold sub1_q. cbn [svd_q splits]. split; [exact H0|]. split; [auto with vlen|].
      apply ceq_vadd; [reflexivity|apply ceq_mv].
Qed.

Lemma upd_q_total ci n qs e c qs' : wfq ci qs -> (2 <= length qs)%nat -> keeps c -> wf_entry n e ->
  upd_q ci n qs e c = Some qs' ->
  wfq ci qs' /\ length qs' = length qs /\ total_charge ci qs' = total_charge ci qs.
Proof.
  intros Hw HL Hk He H. destruct e as [[i0 mr] [upl upr]]. unfold upd_q in H. unfold wf_entry in He.
  destruct (n =? 2)%nat eqn:En.
  - eapply upd2_q_total; eassumption.
  - eapply upd1_q_total; try eassumption. destruct He as [He|He]; [apply Nat.eqb_neq in En; contradiction|exact He].
Qed.

Theorem run_q_total ci n : forall es cs qs qs', wfq ci qs -> (2 <= length qs)%nat ->
  Forall keeps cs -> Forall (wf_entry n) es ->
  run_q ci n qs es cs = Some qs' ->
  wfq ci qs' /\ length qs' = length qs /\ total_charge ci qs' = total_charge ci qs.
Proof.
  intros es. induction es as [|e es IH]; intros cs qs qs' Hw HL Hk He H.
  - cbn [run_q] in H. inversion H; subst. auto.
  - destruct cs as [|c cs]; cbn [run_q] in H; [inversion H; subst; auto|].
    destruct (upd_q ci n qs e c) as [q1|] eqn:E; [|discriminate].
    inversion Hk as [|? ? Hc Hk']; subst. inversion He as [|? ? He1 He']; subst.
    destruct (upd_q_total ci n qs e c q1 Hw HL Hc He1 E) as (W1 & L1 & T1).
    destruct (IH cs q1 qs' W1 ltac:(lia) Hk' He' H) as (W2 & L2 & T2).
    split; [exact W2|]. split; [lia|]. rewrite T2. exact T1.
Qed.

Lemma schedule_wf fin L n : Forall (wf_entry n) (schedule fin L n).
Proof.
  apply Forall_forall. intros [[i0 mr] fl] Hin. right.
  (* an entry of the first half moves right, one of the second half sits at a position of rev (seq 1 m) *)
  unfold schedule in Hin. apply in_combine_l in Hin. unfold i0s, move_rights in Hin.
  rewrite Lists.combine_app2 in Hin by (rewrite seq_length, repeat_length; reflexivity).
  apply in_app_or in Hin. destruct Hin as [Hin|Hin].
  - left. apply in_combine_r in Hin. apply repeat_spec in Hin. exact Hin.
  - right. apply in_combine_l in Hin. apply in_rev in Hin. apply in_seq in Hin. lia.
Qed.

Theorem charge_sector_all : forall (ci : chinfo) (fin : bool) (L n k p : nat) (cs : list cfg) (qs qs' : list charge),
  (n = 1 \/ n = 2)%nat -> (n < L)%nat -> length qs = L -> wfq ci qs -> Forall keeps cs ->
  run_q ci n qs (firstn p (repeat_list (schedule fin L n) k)) cs = Some qs' ->
  total_charge ci qs' = total_charge ci qs /\ length qs' = L /\ wfq ci qs'.
Proof.
  intros ci fin L n k p cs qs qs' Hn HL Hlen Hw Hk H.
  destruct (run_q_total ci n _ cs qs qs' Hw ltac:(lia) Hk
              (Forall_firstn _ _ p (Forall_repeat_list _ _ k (schedule_wf fin L n))) H) as (A & B & C).
  repeat split; [exact C|lia|exact A].
Qed.

(* an update can raise only in the raw `qL + qR == theta_qtotal` test of Mixer.determine_qtotal_L_R in the one-site
   engine with a DensityMatrixMixer (two-site fallback), and in SubspaceExpansion with update_LP_RP = (F, F) *)
Definition never_raises_cfg (n : nat) (e : entry) (c : cfg) : Prop :=
  match e with (_, _, (upl, upr)) =>
    match fst c with
    | MixNone => True
    | MixDM => n = 2%nat
    | MixSub => n = 2%nat -> (upl || upr)%bool = true
    end end.

Lemma determine_q_diff ci th l : vl ci th -> vl ci l ->
  determine_q ci th (Some l) (Some (vsub th l)) = Some (l, vsub th l).
Proof.
  intros Ht Hl. unfold determine_q. cbn [fst snd]. replace (vadd l (vsub th l)) with th by vec_lia (length ci).
  rewrite list_eqb_refl. reflexivity.
Qed.

Lemma upd_q_no_raise ci n qs e c : wfq ci qs -> (2 <= length qs)%nat -> keeps c ->
  never_raises_cfg n e c -> upd_q ci n qs e c <> None.
Proof.
  intros Hw HL Hk Hn. destruct e as [[i0 mr] [upl upr]]. unfold upd_q. unfold never_raises_cfg in Hn.
  destruct (n =? 2)%nat eqn:En.
  - unfold upd2_q. rewrite (diag_q_keeps ci c _ Hk).
    pose proof (vl_getq ci qs i0 Hw HL) as H0. pose proof (vl_getq ci qs (i0 + 1) Hw HL) as H1.
    set (th := tdot_q ci (getq qs i0) (getq qs (i0 + 1))).
    assert (Ht : vl ci th) by (unfold th; auto with vlen).
    destruct (fst c).
    + cbn [svd_q]. discriminate.
    + unfold dm2_q. rewrite (determine_q_diff ci) by assumption. discriminate.
    + unfold sub2_q. rewrite (determine_q_diff ci) by assumption. unfold sub1_q. cbn [svd_q].
      apply Nat.eqb_eq in En. specialize (Hn En). destruct upl, upr; cbn [andb orb] in *; discriminate.
  - unfold upd1_q. rewrite (diag_q_keeps ci c _ Hk). destruct (fst c).
    + destruct mr; cbn [svd_q]; discriminate.
    + apply Nat.eqb_neq in En. contradiction.
    + unfold sub1_q. destruct mr; cbn [svd_q]; discriminate.
Qed.

Theorem run_q_no_raise ci n : forall es cs qs, wfq ci qs -> (2 <= length qs)%nat ->
  Forall keeps cs -> Forall (wf_entry n) es -> length cs = length es ->
  Forall (fun ec => never_raises_cfg n (fst ec) (snd ec)) (combine es cs) ->
  exists qs', run_q ci n qs es cs = Some qs'.
Proof.
  intros es. induction es as [|e es IH]; intros cs qs Hw HL Hk He Hlen Hn.
  - exists qs. reflexivity.
  - destruct cs as [|c cs]; [discriminate|]. cbn [run_q].
    inversion Hk as [|? ? Hc Hk']; subst. inversion He as [|? ? He1 He']; subst.
    cbn [combine] in Hn. inversion Hn as [|? ? Hn1 Hn']; subst. cbn [fst snd] in Hn1.
    destruct (upd_q ci n qs e c) as [q1|] eqn:E.
    + destruct (upd_q_total ci n qs e c q1 Hw HL Hc He1 E) as (W1 & L1 & _).
      apply IH; auto. lia.
    + exfalso. eapply upd_q_no_raise; eassumption.
Qed.

Lemma dm_one_site_raises_ex : exists ci qs e,
  valid_ci ci /\ wfq ci qs /\ forallb (check_valid ci) qs = true /\ wf_entry 1 e /\ upd_q ci 1 qs e (MixDM, None) = None.
Proof.
  exists [2], [[1]; [1]; [0]], (0%nat, true, (true, false)).
  split; [repeat constructor; lia|]. split; [repeat constructor|]. split; [reflexivity|]. split; [right; left; reflexivity|].
  vm_compute. reflexivity.
Qed.

Lemma upd2_ed_all ci qs i0 upl upr q qs' : wfq ci qs -> (2 <= length qs)%nat -> vl ci q ->
  upd2_q ci qs i0 upl upr (MixNone, Some q) = Some qs' ->
  ceq ci (vadd (getq qs' i0) (getq qs' (i0 + 1))) q.
Proof.
  intros Hw HL Hq H. unfold upd2_q in H. cbn [fst snd diag_q] in H.
  pose proof (vl_getq ci qs i0 Hw HL) as H0.
  pose proof (svd_q_spec ci _ (Some (getq qs i0)) None (make_valid_length ci q Hq) H0 I) as P.
  destruct (svd_q ci (make_valid ci q) (Some (getq qs i0)) None) as [[u vh]|]; [|discriminate]. destruct P as (A & B & C).
  inversion H; subst qs'. destruct (getq_setq2 qs i0 u vh HL) as [-> ->].
  eapply ceq_trans; [exact C|apply ceq_mv].
Qed.
