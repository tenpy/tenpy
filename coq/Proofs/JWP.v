(* Model/JW.v: every loop of the bubble sort of order_combine_term is a run of `swaps` (Proofs/AdjSwapsP.v, key = site, odd =
   needs a JW string), so its sign is the parity of the inversions between operators needing a string; the Jordan-Wigner word
   algebra; _term_to_ops_list spells the Jordan-Wigner word of a term site by site. *)
From TenpyV Require Import Base.Prelude Base.Lists Model.JW Model.Perms Proofs.AdjSwapsP.
Open Scope Z_scope.

Definition site_le (a b : item) : Prop := it_site a <= it_site b.

Lemma bubn_swaps n : forall x r, exists m, swaps it_site it_f (x :: r) (bubn n x r) m (flipn n x r).
Proof.
  induction n as [|n IH]; intros x r; cbn [bubn flipn]; [eexists; apply sw_refl|].
  destruct r as [|y r]; [eexists; apply sw_refl|].
  destruct (it_site y <? it_site x) eqn:E.
  - destruct (IH x r) as [m H]. eexists.
    exact (sw_trans (sw_at it_site it_f [] x y r ltac:(lia)) (sw_skip y H)).
  - destruct (IH y r) as [m H]. eexists. exact (sw_skip x H).
Qed.

Lemma bsort_swaps k : forall l, exists m, swaps it_site it_f l (bsort k l) m (bsort_flip k l).
Proof.
  induction k as [|k IH]; intros l; cbn [bsort bsort_flip]; [eexists; apply sw_refl|].
  assert (H1 : exists m, swaps it_site it_f l (pass (S k) l) m (pass_flip (S k) l))
    by (destruct l; [eexists; apply sw_refl | apply bubn_swaps]).
  destruct H1 as [m1 H1], (IH (pass (S k) l)) as [m2 H2]. eexists. exact (sw_trans H1 H2).
Qed.

Lemma bubn_app n : forall x r s, length r = n -> bubn n x (r ++ s) = bubn n x r ++ s.
Proof.
  induction n as [|n IH]; intros x r s Hl.
  - destruct r; [reflexivity | discriminate].
  - destruct r as [|y r]; [discriminate|]. cbn [app bubn]. cbn [length] in Hl.
    destruct (it_site y <? it_site x); cbn [app]; f_equal; apply IH; lia.
Qed.

Lemma flipn_app n : forall x r s, length r = n -> flipn n x (r ++ s) = flipn n x r.
Proof.
  induction n as [|n IH]; intros x r s Hl.
  - destruct r; [reflexivity | discriminate].
  - destruct r as [|y r]; [discriminate|]. cbn [app flipn]. cbn [length] in Hl.
    destruct (it_site y <? it_site x); [f_equal|]; apply IH; lia.
Qed.

Lemma bubn_full n : forall x r, length r = n ->
  exists q m, bubn n x r = q ++ [m] /\ Forall (fun a => site_le a m) q /\ site_le x m.
Proof.
  induction n as [|n IH]; intros x r Hl.
  - destruct r; [|discriminate]. exists [], x. cbn. repeat split; [constructor | unfold site_le; lia].
  - destruct r as [|y r]; [discriminate|]. cbn [length] in Hl. cbn [bubn].
    destruct (it_site y <? it_site x) eqn:E.
    + destruct (IH x r ltac:(lia)) as (q & m & Hq & Hf & Hx).
      exists (y :: q), m. rewrite Hq. repeat split; [|exact Hx].
      constructor; [unfold site_le in *; lia | exact Hf].
    + destruct (IH y r ltac:(lia)) as (q & m & Hq & Hf & Hy).
      exists (x :: q), m. rewrite Hq. repeat split.
      * constructor; [unfold site_le in *; lia | exact Hf].
      * unfold site_le in *; lia.
Qed.

(* the invariant of the outer loop: an unsorted prefix p of S k entries, then a sorted tail s that every entry of p is below;
   a pass over p moves a maximal entry of p to the front of s (bubn_full) *)
Lemma bsort_sorted_prefix k : forall p s, length p = S k -> StronglySorted site_le s ->
  Forall (fun a => Forall (site_le a) s) p -> StronglySorted site_le (bsort k (p ++ s)).
Proof.
  induction k as [|k IH]; intros p s Hl Hs Hps.
  - destruct p as [|x [|? ?]]; try discriminate. inversion Hps; subst. cbn [bsort app]. constructor; assumption.
  - destruct p as [|x r]; [discriminate|]. cbn [length] in Hl. cbn [bsort app pass]. rewrite bubn_app by lia.
    destruct (bubn_full (S k) x r ltac:(lia)) as (q & m & Hq & Hf & _).
    destruct (bubn_swaps (S k) x r) as [c HP]. apply swaps_perm in HP. rewrite Hq in *. rewrite <- app_assoc. cbn [app].
    apply (Permutation_Forall HP), Forall_app in Hps. destruct Hps as [Hqs Hms]. inversion Hms as [|? ? Hm _]; subst.
    apply IH.
    + apply Permutation_length in HP. rewrite app_length in HP. cbn [length] in HP. lia.
    + constructor; assumption.
    + revert Hf Hqs. rewrite !Forall_forall. intros Hf Hqs a Ha. constructor; [apply Hf | apply Hqs]; exact Ha.
Qed.

Lemma order_sort_sorted term : StronglySorted site_le (order_sort term).
Proof.
  unfold order_sort. destruct term as [|x r]; [constructor|].
  replace (bsort (length (x :: r) - 1) (x :: r)) with (bsort (length r) ((x :: r) ++ [])).
  - apply bsort_sorted_prefix; [reflexivity | constructor | apply Forall_forall; intros a _; constructor].
  - rewrite app_nil_r. cbn [length]. f_equal. lia.
Qed.

Lemma order_sort_perm term : Permutation term (order_sort term).
Proof. destruct (bsort_swaps (length term - 1) term) as [m H]. exact (swaps_perm H). Qed.

Lemma order_sort_stable term i :
  filter (fun t => it_site t =? i) (order_sort term) = filter (fun t => it_site t =? i) term.
Proof. destruct (bsort_swaps (length term - 1) term) as [m H]. exact (swaps_filter i H). Qed.

Lemma finvp_ginv l : finvp l = Nat.odd (ginv (odd_inv it_site it_f) l).
Proof.
  induction l as [|x r IH]; cbn [finvp ginv]; [reflexivity|]. rewrite Nat.odd_add, <- IH. f_equal. clear IH.
  induction r as [|y r IHr]; cbn [cntf countb]; [reflexivity|]. rewrite Nat.odd_add, <- IHr. unfold odd_inv at 1.
  destruct (it_f x), (it_f y), (it_site y <? it_site x); reflexivity.
Qed.

Lemma order_sign_spec term : order_sign term = finvp term.
Proof.
  destruct (bsort_swaps (length term - 1) term) as [m H]. rewrite finvp_ginv.
  exact (proj2 (swaps_sorted H (order_sort_sorted term))).
Qed.

Definition ops_at (term : list item) (k : Z) : list (Z * bool) :=
  map (fun t => (it_op t, it_f t)) (filter (fun t => it_site t =? k) term).

Fixpoint jw_gt (term : list item) (k : Z) : bool :=
  match term with [] => false | t :: r => xorb (it_f t && (k <? it_site t)) (jw_gt r k) end.

(* a fold of xorb like total_parity and xor_over, so that Lists.xor_fold_perm applies to all of them *)
Definition parity_le (term : list item) (k : Z) : bool :=
  fold_right (fun t b => xorb (it_f t && (it_site t <=? k)) b) false term.

Lemma parity_le_cons t r k : parity_le (t :: r) k = xorb (it_f t && (it_site t <=? k)) (parity_le r k).
Proof. reflexivity. Qed.

Fixpoint sgn_at (term : list item) (k : Z) : bool :=
  match term with
  | [] => false
  | t :: r => xorb (it_f t && (k <? it_site t) && odd_count (ops_at r k)) (sgn_at r k)
  end.

Lemma ops_at_cons t r k :
  ops_at (t :: r) k = if it_site t =? k then (it_op t, it_f t) :: ops_at r k else ops_at r k.
Proof. unfold ops_at. cbn [filter]. destruct (it_site t =? k); reflexivity. Qed.

Lemma phys_word_cons t r k : phys_word (t :: r) k = phys_letters k t ++ phys_word r k.
Proof. reflexivity. Qed.

Lemma total_parity_cons t r : total_parity (t :: r) = xorb (it_f t) (total_parity r).
Proof. reflexivity. Qed.

Lemma nf_phys term k : nf (phys_word term k) = (sgn_at term k, jw_gt term k, ops_at term k).
Proof.
  induction term as [|t r IH]; [reflexivity|].
  rewrite phys_word_cons, ops_at_cons. cbn [sgn_at jw_gt]. unfold phys_letters.
  destruct (it_site t =? k) eqn:E.
  - cbn [app nf]. rewrite IH. replace (k <? it_site t) with false by lia.
    rewrite !andb_false_r. cbn [andb]. rewrite !xorb_false_l. reflexivity.
  - destruct (it_f t && (k <? it_site t)) eqn:E2.
    + cbn [app nf]. rewrite IH. cbn [andb]. destruct (odd_count (ops_at r k)), (sgn_at r k), (jw_gt r k); reflexivity.
    + cbn [app]. rewrite IH. cbn [andb]. rewrite !xorb_false_l. reflexivity.
Qed.

Lemma phys_word_app t1 t2 k : phys_word (t1 ++ t2) k = phys_word t1 k ++ phys_word t2 k.
Proof. unfold phys_word. apply flat_map_app. Qed.

Lemma phys_word_right_of t k : (forall x, In x t -> it_site x < k) -> phys_word t k = [].
Proof.
  induction t as [|x r IH]; intros H; [reflexivity|].
  rewrite phys_word_cons, IH by (intros y Hy; apply H; right; exact Hy).
  pose proof (H x (or_introl eq_refl)) as Hx. unfold phys_letters.
  replace (it_site x =? k) with false by lia. replace (k <? it_site x) with false by lia.
  rewrite andb_false_r. reflexivity.
Qed.

Lemma nf_left_of t k : (forall x, In x t -> k < it_site x) -> nf (phys_word t k) = (false, total_parity t, []).
Proof.
  induction t as [|x r IH]; intros Hk; [reflexivity|].
  pose proof (Hk x (or_introl eq_refl)) as Hx. specialize (IH (fun y Hy => Hk y (or_intror Hy))).
  rewrite phys_word_cons, total_parity_cons. unfold phys_letters.
  replace (it_site x =? k) with false by lia. replace (k <? it_site x) with true by lia. rewrite andb_true_r.
  destruct (it_f x); cbn [app nf]; rewrite IH; [|destruct (total_parity r)]; reflexivity.
Qed.

Lemma nf_app_string_free (w v : word) p : nf v = (false, p, []) ->
  nf (w ++ v) = (nf_sign w, xorb (nf_jw w) p, nf_ops w).
Proof.
  intros Hv. unfold nf_sign, nf_jw, nf_ops. induction w as [|x w IH]; cbn [app].
  - rewrite Hv. destruct p; reflexivity.
  - destruct x as [a o|]; cbn [nf]; rewrite IH; destruct (nf w) as [[s q] u]; cbn [fst snd]; [reflexivity|].
    destruct q, p; reflexivity.
Qed.

Lemma nf_string (b : bool) : nf (if b then [JWl] else []) = (false, b, []).
Proof. destruct b; reflexivity. Qed.

Lemma nf_item_letters l : nf (item_letters l) = (false, false, map (fun t => (it_op t, it_f t)) l).
Proof. induction l as [|t l IH]; cbn [item_letters map nf]; [reflexivity|]. fold (item_letters l). rewrite IH. reflexivity. Qed.

Lemma jw_right_group l k : jw_right (group l) k = parity_le l k.
Proof.
  induction l as [|x r IH]; [reflexivity|].
  cbn [group]. rewrite parity_le_cons. destruct (group r) as [|[[ops i] f] g] eqn:G.
  - cbn [jw_right] in *. rewrite <- IH. rewrite andb_comm. reflexivity.
  - destruct (i =? it_site x) eqn:E.
    + cbn [jw_right] in *. rewrite <- IH. replace (it_site x <=? k) with (i <=? k) by lia.
      destruct (i <=? k), (it_f x), f, (jw_right g k); reflexivity.
    + cbn [jw_right] in *. rewrite <- IH.
      destruct (it_site x <=? k), (it_f x), (i <=? k), f, (jw_right g k); reflexivity.
Qed.

Lemma nf_impl term k :
  nf (impl_word term k) = (false, parity_le term k, ops_at term k).
Proof.
  unfold impl_word. rewrite (nf_app_string_free _ _ _ (nf_string _)). unfold nf_sign, nf_jw, nf_ops.
  rewrite nf_item_letters, order_sort_stable, jw_right_group. cbn [fst snd]. rewrite xorb_false_l.
  unfold parity_le. rewrite <- (xor_fold_perm _ (order_sort_perm term)). reflexivity.
Qed.

Lemma parity_split term k : xorb (parity_le term k) (jw_gt term k) = total_parity term.
Proof.
  induction term as [|t r IH]; [reflexivity|].
  rewrite parity_le_cons, total_parity_cons. cbn [jw_gt]. rewrite <- IH.
  destruct (it_site t <=? k) eqn:E1, (k <? it_site t) eqn:E2; try lia;
    destruct (it_f t), (parity_le r k), (jw_gt r k); reflexivity.
Qed.

Lemma xor_over_xorb ks a b :
  xor_over ks (fun k => xorb (a k) (b k)) = xorb (xor_over ks a) (xor_over ks b).
Proof.
  unfold xor_over. induction ks as [|k ks IH]; [reflexivity|]. cbn [fold_right]. rewrite IH.
  destruct (a k), (b k), (fold_right (fun k b0 => xorb (a k) b0) false ks), (fold_right (fun k b0 => xorb (b k) b0) false ks);
    reflexivity.
Qed.

Lemma xor_over_ext ks a b : (forall k, a k = b k) -> xor_over ks a = xor_over ks b.
Proof. intros H. induction ks as [|k ks IH]; [reflexivity|]. cbn [xor_over fold_right]. rewrite H. f_equal. exact IH. Qed.

Lemma xor_over_false ks : xor_over ks (fun _ => false) = false.
Proof. induction ks as [|k ks IH]; [reflexivity|]. cbn [xor_over fold_right]. rewrite xorb_false_l. exact IH. Qed.

Lemma xor_over_notin ks a h : ~ In a ks -> xor_over ks (fun k => (a =? k) && h k) = false.
Proof.
  induction ks as [|k ks IH]; intros Hn; [reflexivity|]. cbn [xor_over fold_right].
  fold (xor_over ks (fun k => (a =? k) && h k)). rewrite IH by (intros H; apply Hn; right; exact H).
  destruct (a =? k) eqn:E; [exfalso; apply Hn; left; lia | reflexivity].
Qed.

Lemma xor_over_single ks a h : NoDup ks -> In a ks -> xor_over ks (fun k => (a =? k) && h k) = h a.
Proof.
  induction 1 as [|k ks Hk Hnd IH]; intros Hin; [destruct Hin|]. cbn [xor_over fold_right].
  fold (xor_over ks (fun k => (a =? k) && h k)).
  destruct Hin as [->|Hin].
  - rewrite xor_over_notin by exact Hk. rewrite Z.eqb_refl. destruct (h a); reflexivity.
  - rewrite IH by exact Hin. destruct (a =? k) eqn:E; [exfalso; apply Hk; replace k with a by lia; exact Hin|].
    destruct (h a); reflexivity.
Qed.

(* sgn_at counts on site k, for each string-carrying t right of k, the odd operators on k behind t.  Summed over the sites,
   every operator y of r is counted at its own site only (xor_over_single): that is cntf t r, the inversions of t with r
   (xor_cross), and over all t of the term finvp (sign_decomposition) *)
Lemma xor_cross ks t r : NoDup ks -> (forall y, In y r -> In (it_site y) ks) ->
  xor_over ks (fun k => it_f t && (k <? it_site t) && odd_count (ops_at r k)) = cntf t r.
Proof.
  intros Hnd. induction r as [|y r IH]; intros Hin.
  - cbn [cntf]. rewrite <- (xor_over_false ks). apply xor_over_ext. intros k. cbn. rewrite andb_false_r. reflexivity.
  - cbn [cntf]. rewrite <- IH by (intros z Hz; apply Hin; right; exact Hz).
    rewrite <- (xor_over_single ks (it_site y) (fun k => it_f t && it_f y && (k <? it_site t)) Hnd)
      by (apply Hin; left; reflexivity).
    rewrite <- xor_over_xorb. apply xor_over_ext. intros k. rewrite ops_at_cons.
    destruct (it_site y =? k); cbn [odd_count];
      destruct (it_f t), (k <? it_site t), (it_f y), (odd_count (ops_at r k)); reflexivity.
Qed.

Lemma sign_decomposition ks term : NoDup ks -> (forall t, In t term -> In (it_site t) ks) ->
  xor_over ks (sgn_at term) = finvp term.
Proof.
  intros Hnd. induction term as [|t r IH]; intros Hin.
  - cbn. apply xor_over_false.
  - cbn [finvp]. rewrite <- IH by (intros z Hz; apply Hin; right; exact Hz).
    rewrite <- (xor_cross ks t r Hnd) by (intros z Hz; apply Hin; right; exact Hz).
    rewrite <- xor_over_xorb. apply xor_over_ext. intros k. reflexivity.
Qed.

Lemma phys_sign ks term : NoDup ks -> (forall t, In t term -> In (it_site t) ks) ->
  xor_over ks (fun k => nf_sign (phys_word term k)) = finvp term.
Proof.
  intros Hnd Hin. rewrite <- (sign_decomposition ks term Hnd Hin).
  apply xor_over_ext. intros k. unfold nf_sign. rewrite nf_phys. reflexivity.
Qed.

Lemma term_machinery_correct term : total_parity term = false ->
  (forall k, nf_sign (impl_word term k) = false /\
             nf_jw (impl_word term k) = nf_jw (phys_word term k) /\
             nf_ops (impl_word term k) = nf_ops (phys_word term k)) /\
  (forall ks, NoDup ks -> (forall t, In t term -> In (it_site t) ks) ->
     xor_over ks (fun k => nf_sign (phys_word term k)) = order_sign term).
Proof.
  intros Hp. split.
  - intros k. unfold nf_sign, nf_jw, nf_ops. rewrite nf_impl, nf_phys. cbn [fst snd].
    repeat split. pose proof (parity_split term k) as H. rewrite Hp in H.
    destruct (parity_le term k), (jw_gt term k); cbn in H; congruence.
  - intros ks Hnd Hin. rewrite order_sign_spec. apply phys_sign; assumption.
Qed.

Lemma exchange_offsite a fa b fb i j : i <> j ->
  let ab := [mkItem a i fa; mkItem b j fb] in
  let ba := [mkItem b j fb; mkItem a i fa] in
  (forall k, nf_jw (phys_word ab k) = nf_jw (phys_word ba k) /\ nf_ops (phys_word ab k) = nf_ops (phys_word ba k)) /\
  (forall ks, NoDup ks -> In i ks -> In j ks ->
     xor_over ks (fun k => nf_sign (phys_word ab k)) = xorb (fa && fb) (xor_over ks (fun k => nf_sign (phys_word ba k)))).
Proof.
  intros Hij ab ba. split.
  - intros k. unfold nf_jw, nf_ops. rewrite !nf_phys. cbn [fst snd]. subst ab ba. rewrite !ops_at_cons.
    cbn [jw_gt it_site it_f it_op]. split.
    + destruct fa, fb, (k <? i), (k <? j); reflexivity.
    + destruct (i =? k) eqn:E1, (j =? k) eqn:E2; try reflexivity. lia.
  - intros ks Hnd Hi Hj. rewrite !phys_sign; try exact Hnd.
    + subst ab ba. cbn [finvp cntf it_site it_f].
      destruct fa, fb, (j <? i) eqn:E1, (i <? j) eqn:E2; try reflexivity; lia.
    + subst ba. intros t [<-|[<-|[]]]; assumption.
    + subst ab. intros t [<-|[<-|[]]]; assumption.
Qed.

Lemma car_onsite a b fa fb i k :
  let ab := [mkItem a i fa; mkItem b i fb] in
  (k = i -> phys_word ab k = [Op a fa; Op b fb]) /\
  (k <> i -> nf_sign (phys_word ab k) = false /\ nf_ops (phys_word ab k) = [] /\
             (fa = fb -> nf_jw (phys_word ab k) = false)).
Proof.
  intros ab. split.
  - intros ->. subst ab. unfold phys_word, phys_letters. cbn [flat_map it_site it_op it_f]. rewrite Z.eqb_refl. reflexivity.
  - intros Hk. unfold nf_sign, nf_ops, nf_jw. rewrite nf_phys. subst ab. cbn [fst snd sgn_at jw_gt]. rewrite !ops_at_cons.
    cbn [it_site it_f it_op]. replace (i =? k) with false by lia. cbn [ops_at map filter odd_count].
    split; [|split]; [destruct fa, fb, (k <? i); reflexivity | reflexivity | intros ->; destruct fb, (k <? i); reflexivity].
Qed.

Lemma app_at_length ops : forall j x, length (app_at ops j x) = length ops.
Proof. induction ops as [|w r IH]; intros [|j] x; cbn [app_at length]; try reflexivity. rewrite IH. reflexivity. Qed.

Lemma app_below_length ops : forall j x, length (app_below ops j x) = length ops.
Proof. induction ops as [|w r IH]; intros [|j] x; cbn [app_below length]; try reflexivity. rewrite IH. reflexivity. Qed.

Lemma app_at_nth ops : forall j x m, (m < length ops)%nat ->
  nth m (app_at ops j x) [] = nth m ops [] ++ (if Nat.eqb m j then [x] else []).
Proof.
  induction ops as [|w r IH]; intros j x m Hm; [cbn in Hm; lia|].
  destruct j as [|j], m as [|m]; cbn [app_at nth Nat.eqb]; try (rewrite app_nil_r; reflexivity); try reflexivity.
  apply IH. cbn [length] in Hm. lia.
Qed.

Lemma app_below_nth ops : forall j x m, (m < length ops)%nat ->
  nth m (app_below ops j x) [] = nth m ops [] ++ (if Nat.ltb m j then [x] else []).
Proof.
  induction ops as [|w r IH]; intros j x m Hm; [cbn in Hm; lia|].
  destruct j as [|j], m as [|m]; cbn [app_below nth]; try (rewrite app_nil_r; reflexivity); try reflexivity.
  change (S m <? S j)%nat with (m <? j)%nat. apply IH. cbn [length] in Hm. lia.
Qed.

Lemma tol_step_length imin st t : length (fst (tol_step true imin st t)) = length (fst st).
Proof. unfold tol_step. destruct (true && it_f t); cbn [fst]; rewrite ?app_below_length, app_at_length; reflexivity. Qed.

Lemma tol_step_nth imin st t m : (m < length (fst st))%nat -> imin <= it_site t ->
  nth m (fst (tol_step true imin st t)) [] = nth m (fst st) [] ++ phys_letters (imin + Z.of_nat m) t.
Proof.
  intros Hm Ht. unfold tol_step, phys_letters. set (j := Z.to_nat (it_site t - imin)).
  assert (Hat : nth m (app_at (fst st) j (Op (it_op t) (it_f t))) [] =
                nth m (fst st) [] ++ (if it_site t =? imin + Z.of_nat m then [Op (it_op t) (it_f t)] else [])).
  { rewrite app_at_nth by exact Hm. f_equal.
    destruct (Nat.eqb_spec m j); [replace (it_site t =? imin + Z.of_nat m) with true by (unfold j in *; lia) |
                                   replace (it_site t =? imin + Z.of_nat m) with false by (unfold j in *; lia)]; reflexivity. }
  destruct (it_f t); cbn [andb fst].
  - rewrite app_below_nth by (rewrite app_at_length; exact Hm). rewrite Hat, <- app_assoc. f_equal.
    destruct (it_site t =? imin + Z.of_nat m) eqn:E.
    + replace (m <? j)%nat with false by (unfold j; lia). reflexivity.
    + destruct (Nat.ltb_spec m j); [replace (imin + Z.of_nat m <? it_site t) with true by (unfold j in *; lia) |
                                     replace (imin + Z.of_nat m <? it_site t) with false by (unfold j in *; lia)]; reflexivity.
  - rewrite Hat. destruct (it_site t =? imin + Z.of_nat m); reflexivity.
Qed.

Lemma tol_fold imin : forall term st, (forall t, In t term -> imin <= it_site t) ->
  let st' := fold_left (tol_step true imin) term st in
  length (fst st') = length (fst st) /\
  (forall m, (m < length (fst st))%nat -> nth m (fst st') [] = nth m (fst st) [] ++ phys_word term (imin + Z.of_nat m)).
Proof.
  induction term as [|t r IH]; intros st Hin; cbv zeta; cbn [fold_left].
  - split; [reflexivity|]. intros m _. symmetry. apply app_nil_r.
  - destruct (IH (tol_step true imin st t) (fun t' H' => Hin t' (or_intror H'))) as [Hl Hn].
    rewrite tol_step_length in Hl, Hn. split; [exact Hl|].
    intros m Hm. rewrite (Hn m Hm), tol_step_nth by (exact Hm || apply Hin; left; reflexivity).
    rewrite <- app_assoc. reflexivity.
Qed.

Lemma tol_fold_flag : forall imin term st,
  snd (fold_left (tol_step true imin) term st) = xorb (snd st) (total_parity term).
Proof.
  intros imin term. induction term as [|t r IH]; intros st.
  - cbn. rewrite xorb_false_r. reflexivity.
  - cbn [fold_left]. rewrite IH, total_parity_cons.
    unfold tol_step. cbn [andb]. destruct (it_f t); cbn [snd]; destruct (snd st), (total_parity r); reflexivity.
Qed.

Lemma site_bounds t x : In x t -> min_site t <= it_site x <= max_site t.
Proof.
  unfold min_site, max_site. generalize (match t with [] => 0 | y :: _ => it_site y end). intros d Hin.
  induction t as [|y r IH]; [destruct Hin|]. cbn [fold_right]. destruct Hin as [->|H]; [lia | specialize (IH H); lia].
Qed.

Lemma min_le_max t : t <> [] -> min_site t <= max_site t.
Proof. destruct t as [|x r]; [congruence|]. intros _. pose proof (site_bounds (x :: r) x (or_introl eq_refl)). lia. Qed.

Lemma term_to_ops_list_spec term jfr : term <> [] ->
  let '(ops, imin, extra) := term_to_ops_list term true jfr in
  let from_right := match jfr with Some b => b | None => total_parity term end in
  imin = min_site term /\
  Z.of_nat (length ops) = max_site term - min_site term + 1 /\
  (forall k, min_site term <= k <= max_site term ->
     nth (Z.to_nat (k - imin)) ops [] = phys_word term k ++ (if from_right then [JWl] else [])) /\
  extra = match jfr with Some b => xorb (total_parity term) b | None => total_parity term end.
Proof.
  intros Hne. unfold term_to_ops_list. cbv beta iota zeta. rewrite tol_fold_flag. cbn [snd]. rewrite xorb_false_l.
  set (imin := min_site term). set (n := Z.to_nat (max_site term - imin + 1)).
  pose proof (min_le_max term Hne) as Hmm. fold imin in Hmm.
  destruct (tol_fold imin term (repeat [] n, false) (fun t Ht => proj1 (site_bounds term t Ht))) as [Hl Hnth].
  cbn [fst] in Hl, Hnth. rewrite repeat_length in Hl, Hnth. unfold word in *.
  set (ops := fst (fold_left (tol_step true imin) term (repeat [] n, false))) in *.
  assert (Hw : forall k, imin <= k <= max_site term -> nth (Z.to_nat (k - imin)) ops [] = phys_word term k).
  { intros k Hk. rewrite Hnth by (unfold n; lia). rewrite nth_repeat. cbn [app]. f_equal. lia. }
  set (from_right := match jfr with Some b => b | None => total_parity term end). clearbody from_right.
  split; [reflexivity|]. split; [|split; [|reflexivity]].
  - destruct from_right; rewrite ?map_length, Hl; unfold n; lia.
  - intros k Hk. destruct from_right.
    + rewrite (nth_map_default _ _ _ []) by (rewrite Hl; unfold n; lia). rewrite Hw by exact Hk. reflexivity.
    + rewrite Hw by exact Hk. symmetry. apply app_nil_r.
Qed.

Lemma term_to_ops_list_flag : forall term jfr,
  let from_right := match jfr with Some b => b | None => total_parity term end in
  snd (term_to_ops_list term true jfr) =
    match jfr with Some b => xorb (total_parity term) b | None => total_parity term end /\
  fst (fst (term_to_ops_list term true jfr)) =
    (if from_right then map (fun w => w ++ [JWl]) (fst (fst (term_to_ops_list term true (Some false))))
     else fst (fst (term_to_ops_list term true (Some false)))) /\
  snd (fst (term_to_ops_list term true jfr)) = min_site term.
Proof.
  intros term jfr. unfold term_to_ops_list. cbv zeta. cbn [fst snd]. rewrite !tol_fold_flag. cbn [snd]. rewrite xorb_false_l.
  destruct jfr as [[|]|]; cbn [fst snd]; repeat split; reflexivity.
Qed.
