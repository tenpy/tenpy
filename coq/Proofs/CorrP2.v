(* Model/CorrTerm.v: term_correlation_function_right and _left contract the same words, namely the Jordan-Wigner product
   (term_L)(term_R) site by site. *)
From TenpyV Require Import Base.Prelude Model.JW Proofs.JWP Model.CorrTerm.
Open Scope Z_scope.

Lemma shift_term_ne d t : t <> [] -> shift_term d t <> [].
Proof. destruct t; [congruence | discriminate]. Qed.

Lemma fold_sites_shift (op : Z -> Z -> Z) d : (forall a b, op (a + d) (b + d) = op a b + d) -> forall t d0,
  fold_right (fun t m => op (it_site t) m) (d0 + d) (shift_term d t) = fold_right (fun t m => op (it_site t) m) d0 t + d.
Proof.
  intros Hop. induction t as [|x r IH]; intros d0; cbn [shift_term map fold_right it_site]; [reflexivity|].
  fold (shift_term d r). rewrite IH. apply Hop.
Qed.

Lemma min_site_shift d t : t <> [] -> min_site (shift_term d t) = min_site t + d.
Proof. destruct t as [|x r]; [congruence|]. intros _. apply (fold_sites_shift Z.min d); lia. Qed.

Lemma max_site_shift d t : t <> [] -> max_site (shift_term d t) = max_site t + d.
Proof. destruct t as [|x r]; [congruence|]. intros _. apply (fold_sites_shift Z.max d); lia. Qed.

Lemma total_parity_shift d t : total_parity (shift_term d t) = total_parity t.
Proof. induction t as [|x r IH]; cbn [shift_term map]; [reflexivity|]. fold (shift_term d r). rewrite !total_parity_cons, IH. reflexivity. Qed.

Definition spells (ops : list word) (t : list item) (d : Z) (b : bool) : Prop :=
  Z.of_nat (length ops) = max_site t - min_site t + 1 /\
  forall k, ops_at_site ops (min_site t + d) k =
    if (min_site t + d <=? k) && (k <=? max_site t + d) then phys_word (shift_term d t) k ++ (if b then [JWl] else [])
    else [].

Lemma tol_shift_spec t d b : t <> [] ->
  exists ops, term_to_ops_list (shift_term d t) true (Some b) = (ops, min_site t + d, xorb (total_parity t) b) /\
    spells ops t d b.
Proof.
  intros Hne. pose proof (term_to_ops_list_spec (shift_term d t) (Some b) (shift_term_ne d t Hne)) as H.
  destruct (term_to_ops_list (shift_term d t) true (Some b)) as [[ops imin] extra].
  destruct H as (H1 & H2 & H3 & H4).
  rewrite min_site_shift in * by exact Hne. rewrite max_site_shift in * by exact Hne. rewrite total_parity_shift in H4.
  exists ops. subst imin extra. split; [reflexivity|]. split; [lia|].
  intros k. unfold ops_at_site. replace (k <? min_site t + d + Z.of_nat (length ops)) with (k <=? max_site t + d) by lia.
  destruct ((min_site t + d <=? k) && (k <=? max_site t + d)) eqn:E; [apply H3; lia | reflexivity].
Qed.

(* the left-hand side is what tcf_right_words and tcf_left_words both return once their error tests are passed: the list of
   term_L, the string of term_R over the gap, the list of term_R *)
Lemma pieces_doc tL tR i j k opsL opsR : tL <> [] -> tR <> [] -> max_site tL + i < min_site tR + j ->
  spells opsL tL i (total_parity tR) -> spells opsR tR j false ->
  (if k <? min_site tL + i + Z.of_nat (length opsL) then ops_at_site opsL (min_site tL + i) k
   else if k <? min_site tR + j then (if total_parity tR then [JWl] else [])
   else ops_at_site opsR (min_site tR + j) k) = tcf_doc_words tL tR i j k.
Proof.
  intros HL HR Hsep [HlenL HwL] [HlenR HwR].
  pose proof (min_le_max tL HL) as HmmL. pose proof (min_le_max tR HR) as HmmR.
  rewrite HwL, HwR, app_nil_r. unfold tcf_doc_words. cbv zeta.
  destruct ((min_site tL + i <=? k) && (k <=? max_site tL + i)) eqn:E1.
  - replace (k <? min_site tL + i + Z.of_nat (length opsL)) with true by lia. reflexivity.
  - destruct (k <? min_site tL + i + Z.of_nat (length opsL)) eqn:E0.
    + replace ((max_site tL + i <? k) && (k <? min_site tR + j)) with false by lia.
      replace ((min_site tR + j <=? k) && (k <=? max_site tR + j)) with false by lia. reflexivity.
    + destruct (k <? min_site tR + j) eqn:E2; [replace (max_site tL + i <? k) with true by lia | rewrite andb_false_r];
        reflexivity.
Qed.

Lemma right_words_spec tL tR iL j0 j k : tL <> [] -> tR <> [] ->
  match tcf_right_words tL tR iL j0 j k with
  | Some w => w = tcf_doc_words tL tR iL j k /\ total_parity tL = total_parity tR /\
              max_site tL + iL < min_site tR + j0 /\ max_site tL + iL < min_site tR + j
  | None => total_parity tL <> total_parity tR \/ min_site tR + j0 <= max_site tL + iL \/ min_site tR + j <= max_site tL + iL
  end.
Proof.
  intros HL HR. unfold tcf_right_words.
  destruct (tol_shift_spec tR j0 false HR) as (ops1 & E1 & _). rewrite E1. cbv beta iota zeta.
  rewrite xorb_false_r.
  destruct (tol_shift_spec tL iL (total_parity tR) HL) as (opsL & E2 & SL). rewrite E2. cbv beta iota zeta.
  destruct (tol_shift_spec tR j false HR) as (opsR & E3 & SR). rewrite E3. cbv beta iota zeta.
  pose proof (proj1 SL) as HlenL.
  destruct (xorb (total_parity tL) (total_parity tR)) eqn:Epar;
    [left; intros E; rewrite E, xorb_nilpotent in Epar; discriminate|].
  replace (min_site tR + j0 - j0) with (min_site tR) by lia.
  destruct (j0 + min_site tR <? min_site tL + iL + Z.of_nat (length opsL)) eqn:Ec1; [right; left; lia|].
  destruct (j + min_site tR <? min_site tL + iL + Z.of_nat (length opsL)) eqn:Ec2; [right; right; lia|].
  split; [|split; [apply Bool.xorb_eq; exact Epar | lia]].
  replace (j + min_site tR) with (min_site tR + j) by lia.
  apply pieces_doc; [exact HL | exact HR | lia | exact SL | exact SR].
Qed.

(* the left variant also accepts a one-site overlap, where it does not return the documented words *)
Lemma left_words_spec tL tR i0 i jR k : tL <> [] -> tR <> [] ->
  match tcf_left_words tL tR i0 i jR k with
  | Some w => (max_site tL + i < min_site tR + jR -> w = tcf_doc_words tL tR i jR k) /\
              total_parity tL = total_parity tR /\
              max_site tL + i0 <= min_site tR + jR /\ max_site tL + i <= min_site tR + jR
  | None => total_parity tL <> total_parity tR \/ min_site tR + jR < max_site tL + i0 \/ min_site tR + jR < max_site tL + i
  end.
Proof.
  intros HL HR. unfold tcf_left_words.
  destruct (tol_shift_spec tR jR false HR) as (opsR & E1 & SR). rewrite E1. cbv beta iota zeta.
  rewrite xorb_false_r.
  destruct (tol_shift_spec tL i0 (total_parity tR) HL) as (opsL0 & E2 & HlenL0 & _). rewrite E2. cbv beta iota zeta.
  destruct (tol_shift_spec tL i (total_parity tR) HL) as (opsL & E3 & SL). rewrite E3. cbv beta iota zeta.
  pose proof (proj1 SL) as HlenL.
  destruct (xorb (total_parity tL) (total_parity tR)) eqn:Epar;
    [left; intros E; rewrite E, xorb_nilpotent in Epar; discriminate|].
  replace (min_site tL + i0 - i0) with (min_site tL) by lia.
  destruct (min_site tR + jR <? i0 + min_site tL + Z.of_nat (length opsL0) - 1) eqn:Ec1; [right; left; lia|].
  destruct (min_site tR + jR <? i + min_site tL + Z.of_nat (length opsL0) - 1) eqn:Ec2; [right; right; lia|].
  split; [|split; [apply Bool.xorb_eq; exact Epar | lia]].
  intros Hsep.
  replace (k <=? i + min_site tL + Z.of_nat (length opsL0) - 1) with (k <? min_site tL + i + Z.of_nat (length opsL)) by lia.
  replace (i + min_site tL) with (min_site tL + i) by lia.
  apply pieces_doc; [exact HL | exact HR | exact Hsep | exact SL | exact SR].
Qed.

Lemma tcf_defined tL tR i j k : tL <> [] -> tR <> [] ->
  total_parity tL = total_parity tR -> max_site tL + i < min_site tR + j ->
  (exists w, tcf_right_words tL tR i j j k = Some w) /\ (exists w, tcf_left_words tL tR i i j k = Some w).
Proof.
  intros HL HR Hp Hsep. split.
  - pose proof (right_words_spec tL tR i j j k HL HR) as S.
    destruct (tcf_right_words tL tR i j j k); [eexists; reflexivity | exfalso; destruct S as [S|S]; [exact (S Hp) | lia]].
  - pose proof (left_words_spec tL tR i i j k HL HR) as S.
    destruct (tcf_left_words tL tR i i j k); [eexists; reflexivity | exfalso; destruct S as [S|S]; [exact (S Hp) | lia]].
Qed.

Lemma tcf_left_right_agree tL tR i0 i j0 j k wl wr : tL <> [] -> tR <> [] ->
  tcf_left_words tL tR i0 i j k = Some wl -> tcf_right_words tL tR i j0 j k = Some wr ->
  wl = wr /\ wr = tcf_doc_words tL tR i j k.
Proof.
  intros HL HR Hl Hr.
  pose proof (right_words_spec tL tR i j0 j k HL HR) as Sr. rewrite Hr in Sr. destruct Sr as (Hr1 & _ & _ & Hsep).
  pose proof (left_words_spec tL tR i0 i j k HL HR) as Sl. rewrite Hl in Sl. destruct Sl as (Hl1 & _).
  split; [rewrite (Hl1 Hsep), Hr1; reflexivity | exact Hr1].
Qed.

Lemma shift_sites d t y : In y (shift_term d t) -> min_site t + d <= it_site y <= max_site t + d.
Proof.
  unfold shift_term. rewrite in_map_iff. intros (x & <- & Hx). cbn [it_site]. pose proof (site_bounds t x Hx). lia.
Qed.

Lemma phys_word_shift_right d t k : max_site t + d < k -> phys_word (shift_term d t) k = [].
Proof. intros H. apply phys_word_right_of. intros y Hy. pose proof (shift_sites d t y Hy). lia. Qed.

Lemma nf_shift_left d t k : k < min_site t + d -> nf (phys_word (shift_term d t) k) = (false, total_parity t, []).
Proof.
  intros H. rewrite nf_left_of, total_parity_shift; [reflexivity|]. intros y Hy. pose proof (shift_sites d t y Hy). lia.
Qed.

Lemma doc_words_are_JW_product tL tR i j k : tL <> [] -> tR <> [] ->
  total_parity tL = total_parity tR -> max_site tL + i < min_site tR + j ->
  let w := tcf_doc_words tL tR i j k in
  let pw := phys_word (shift_term i tL ++ shift_term j tR) k in
  (min_site tL + i <= k -> nf_sign w = nf_sign pw /\ nf_jw w = nf_jw pw /\ nf_ops w = nf_ops pw) /\
  (k < min_site tL + i -> w = [] /\ nf pw = (false, false, [])).
Proof.
  intros HL HR Hp Hsep. cbv zeta.
  pose proof (min_le_max tL HL) as HmmL. pose proof (min_le_max tR HR) as HmmR.
  rewrite phys_word_app. unfold tcf_doc_words, nf_sign, nf_jw, nf_ops. cbv zeta. split.
  - intros Hk. destruct ((min_site tL + i <=? k) && (k <=? max_site tL + i)) eqn:E1.
    + (* inside term_L: the string of term_R passes *)
      rewrite (nf_app_string_free _ _ _ (nf_shift_left j tR k ltac:(lia))).
      rewrite (nf_app_string_free _ _ _ (nf_string (total_parity tR))). repeat split.
    + rewrite (phys_word_shift_right i tL k) by lia. cbn [app].
      destruct ((max_site tL + i <? k) && (k <? min_site tR + j)) eqn:E2.
      * rewrite nf_string, nf_shift_left by lia. repeat split.
      * destruct ((min_site tR + j <=? k) && (k <=? max_site tR + j)) eqn:E3; [repeat split|].
        rewrite (phys_word_shift_right j tR k) by lia. repeat split.
  - intros Hk.
    replace ((min_site tL + i <=? k) && (k <=? max_site tL + i)) with false by lia.
    replace ((max_site tL + i <? k) && (k <? min_site tR + j)) with false by lia.
    replace ((min_site tR + j <=? k) && (k <=? max_site tR + j)) with false by lia.
    split; [reflexivity|].
    rewrite (nf_app_string_free _ _ _ (nf_shift_left j tR k ltac:(lia))). unfold nf_sign, nf_jw, nf_ops.
    rewrite nf_shift_left by lia. cbn [fst snd]. rewrite Hp, xorb_nilpotent. reflexivity.
Qed.
