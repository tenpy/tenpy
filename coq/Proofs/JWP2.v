(* The handlers of Model/JW.v: the loop of multi_coupling_term_handle_JW (handle_jw) agrees with the closed form jw_right
   for every term (the link that the correspondence stream checks per case with `strings_consistent`), and the two-site
   handler coupling_term_handle_JW. *)
From TenpyV Require Import Base.Prelude Base.Lists Model.JW Proofs.JWP Model.JW2.
Open Scope Z_scope.

Lemma removelast_cons2 {A} (a b : A) l : removelast (a :: b :: l) = a :: removelast (b :: l).
Proof. reflexivity. Qed.

(* an entry of group: (operators, site, needs a string) *)
Definition gsite (e : list Z * Z * bool) : Z := snd (fst e).
Definition gflag (e : list Z * Z * bool) : bool := snd e.
Definition ascending (g : list (list Z * Z * bool)) : Prop := StronglySorted (fun a b => gsite a < gsite b) g.
Definition gpar (g : list (list Z * Z * bool)) : bool := fold_right (fun e b => xorb (gflag e) b) false g.

Lemma group_head_site y r ops i f g : group (y :: r) = (ops, i, f) :: g -> i = it_site y.
Proof.
  cbn [group]. destruct (group r) as [|[[ops' i'] f'] g'].
  - intros H. inversion H. reflexivity.
  - destruct (i' =? it_site y) eqn:E; intros H; inversion H; subst; lia.
Qed.

Lemma group_ascending l : StronglySorted site_le l -> ascending (group l).
Proof.
  induction 1 as [|x r Hs IH Hf]; [constructor|].
  cbn [group]. destruct (group r) as [|[[ops i] f] g] eqn:G.
  - repeat constructor.
  - assert (Hi : it_site x <= i).
    { destruct r as [|y r']; [discriminate|]. apply group_head_site in G. subst i.
      inversion Hf as [|? ? Hy _]; subst. exact Hy. }
    unfold ascending in *. inversion IH as [|? ? Hg Hfg]; subst.
    destruct (i =? it_site x) eqn:E.
    + constructor; [exact Hg|]. exact Hfg.
    + constructor; [exact IH|]. constructor; [unfold gsite; cbn; lia|].
      rewrite Forall_forall in *. intros e He. specialize (Hfg e He). unfold gsite in *. cbn [fst snd] in *. lia.
Qed.

Lemma gpar_group l : gpar (group l) = total_parity l.
Proof.
  induction l as [|x r IH]; [reflexivity|].
  cbn [group]. rewrite total_parity_cons, <- IH.
  destruct (group r) as [|[[ops i] f] g]; [reflexivity|].
  destruct (i =? it_site x); unfold gpar, gflag; cbn [fold_right snd];
    destruct (it_f x), f, (fold_right (fun e b => xorb (snd e) b) false g); reflexivity.
Qed.

Lemma jw_right_lt r k : Forall (fun e => k < gsite e) r -> jw_right r k = false.
Proof.
  induction 1 as [|[[ops i] f] r Hi _ IH]; [reflexivity|].
  cbn [jw_right]. rewrite IH. unfold gsite in Hi. cbn [fst snd] in Hi.
  replace (i <=? k) with false by lia. reflexivity.
Qed.

Lemma jw_right_ge r k : Forall (fun e => gsite e <= k) r -> jw_right r k = gpar r.
Proof.
  induction 1 as [|[[ops i] f] r Hi _ IH]; [reflexivity|].
  cbn [jw_right]. rewrite IH. unfold gsite in Hi. cbn [fst snd] in Hi.
  replace (i <=? k) with true by lia. reflexivity.
Qed.

Lemma jw_right_cons ops i f r k : i <= k -> jw_right ((ops, i, f) :: r) k = xorb f (jw_right r k).
Proof. intros H. cbn [jw_right]. replace (i <=? k) with true by lia. reflexivity. Qed.

Lemma jw_right_gap ops i f r k : i <= k -> Forall (fun e => k < gsite e) r -> jw_right ((ops, i, f) :: r) k = f.
Proof. intros Hk Hr. rewrite jw_right_cons, (jw_right_lt r k Hr) by exact Hk. apply xorb_false_r. Qed.

Lemma ascending_left_of ops j f r k : ascending ((ops, j, f) :: r) -> k < j ->
  Forall (fun e => k < gsite e) ((ops, j, f) :: r).
Proof.
  intros H Hk. inversion H as [|? ? _ Hf]; subst. constructor; [exact Hk|].
  revert Hf. apply Forall_impl. intros e He. unfold gsite in *. cbn [fst snd] in He. lia.
Qed.

(* what the loop writes: every entry with its flag replaced by the running parity JW_right *)
Fixpoint running (jw : bool) (l : list (list Z * Z * bool)) : list (list Z * Z * bool) :=
  match l with
  | [] => []
  | (ops, i, f) :: r => (ops, i, xorb jw f) :: running (xorb jw f) r
  end.

Lemma handle_jw_running : forall l jw,
  handle_jw jw l = (running jw l, map gflag (running jw l), xorb jw (gpar l)).
Proof.
  induction l as [|[[ops i] f] r IH]; intros jw; cbn [handle_jw running].
  - rewrite <- (xorb_false_r jw) at 1. reflexivity.
  - rewrite IH, xorb_assoc. reflexivity.
Qed.

Lemma running_shape : forall l jw,
  map (fun e => (fst (fst e), gsite e)) (running jw l) = map (fun e => (fst (fst e), gsite e)) l.
Proof. induction l as [|[[ops i] f] r IH]; intros jw; cbn [running map]; [reflexivity|]. rewrite IH. reflexivity. Qed.

Lemma strings_consistent_cons2 g ops i f ops' j f' r s strs :
  strings_consistent g ((ops, i, f) :: (ops', j, f') :: r) (s :: strs) =
  Bool.eqb (jw_right g i) f &&
  (Bool.eqb f s && (if i + 1 <? j then Bool.eqb (jw_right g (i + 1)) s else true) &&
   strings_consistent g ((ops', j, f') :: r) strs).
Proof. reflexivity. Qed.

Lemma out_flag_cons2 ops i f ops' j f' r s strs k :
  out_flag ((ops, i, f) :: (ops', j, f') :: r) (s :: strs) k =
  if k =? i then f else if (i <? k) && (k <? j) then s else out_flag ((ops', j, f') :: r) strs k.
Proof. reflexivity. Qed.

Definition head_le (l : list (list Z * Z * bool)) (k : Z) : Prop :=
  match l with [] => True | (_, i, _) :: _ => i <= k end.

(* l is the part of g the loop has not yet visited, jw the parity of the part it has *)
Lemma running_consistent g : forall l jw, ascending l ->
  (forall k, head_le l k -> jw_right g k = xorb jw (jw_right l k)) ->
  strings_consistent g (running jw l) (removelast (map gflag (running jw l))) = true.
Proof.
  induction l as [|[[ops i] f] r IH]; intros jw Hasc Hg; [reflexivity|].
  inversion Hasc as [|? ? Hr Hir]; subst.
  assert (Hi : jw_right g i = xorb jw f).
  { rewrite (Hg i (Z.le_refl i)), jw_right_gap; [reflexivity | apply Z.le_refl | exact Hir]. }
  destruct r as [|[[ops' j] f'] r'].
  - cbn [running map gflag snd removelast strings_consistent]. rewrite Hi, eqb_reflx. reflexivity.
  - assert (Hij : i < j) by (inversion Hir; assumption).
    assert (Hgap : (if i + 1 <? j then Bool.eqb (jw_right g (i + 1)) (xorb jw f) else true) = true).
    { destruct (i + 1 <? j) eqn:E; [|reflexivity].
      rewrite (Hg (i + 1)) by (cbn [head_le]; lia).
      rewrite jw_right_gap; [apply eqb_reflx | lia | apply ascending_left_of; [exact Hr | lia]]. }
    specialize (IH (xorb jw f) Hr). cbn [running map gflag snd] in IH |- *.
    rewrite removelast_cons2, strings_consistent_cons2, Hi, Hgap, !eqb_reflx. apply IH.
    intros k Hk. cbn [head_le] in Hk. rewrite Hg by (cbn [head_le]; lia).
    rewrite jw_right_cons by lia. symmetry. apply xorb_assoc.
Qed.

Lemma out_flag_lt : forall l jw k, Forall (fun e => k < gsite e) l ->
  out_flag (running jw l) (removelast (map gflag (running jw l))) k = false.
Proof.
  induction l as [|[[ops i] f] r IH]; intros jw k Hk; [reflexivity|].
  inversion Hk as [|? ? Hi Hr]; subst. change (k < i) in Hi.
  destruct r as [|[[ops' j] f'] r'].
  - cbn [running map gflag snd removelast out_flag]. replace (k =? i) with false by lia. reflexivity.
  - specialize (IH (xorb jw f) k Hr). cbn [running map gflag snd] in IH |- *. rewrite removelast_cons2, out_flag_cons2.
    replace (k =? i) with false by lia. replace (i <? k) with false by lia. exact IH.
Qed.

(* the same invariant read on the output: from the head of the unvisited part l on, the flag on site k is the parity of
   everything up to k (jw for the visited part, jw_right l k for the rest); the term is even, or the handler would have raised *)
Lemma running_out_flag : forall l jw k, ascending l -> xorb jw (gpar l) = false -> head_le l k ->
  out_flag (running jw l) (removelast (map gflag (running jw l))) k = xorb jw (jw_right l k).
Proof.
  induction l as [|[[ops i] f] r IH]; intros jw k Hasc Hpar Hk.
  - destruct jw; [discriminate | reflexivity].
  - inversion Hasc as [|? ? Hr Hir]; subst. cbn [head_le] in Hk.
    destruct r as [|[[ops' j] f'] r'].
    + (* the last entry: its flag is the parity of all entries *)
      rewrite jw_right_gap by (exact Hk || constructor).
      change (xorb jw (xorb f false) = false) in Hpar. rewrite xorb_false_r in Hpar.
      cbn [running map gflag snd removelast out_flag]. rewrite Hpar. destruct (k =? i); reflexivity.
    + assert (Hij : i < j) by (inversion Hir; assumption).
      rewrite jw_right_cons, <- xorb_assoc by exact Hk.
      specialize (IH (xorb jw f) k Hr). cbn [running map gflag snd] in IH |- *. rewrite removelast_cons2, out_flag_cons2.
      destruct (Z_lt_dec k j) as [Hlt|Hge].
      * rewrite (jw_right_lt _ k (ascending_left_of _ _ _ _ k Hr Hlt)), xorb_false_r.
        destruct (k =? i) eqn:E; [reflexivity|]. replace ((i <? k) && (k <? j)) with true by lia. reflexivity.
      * replace (k =? i) with false by lia. replace ((i <? k) && (k <? j)) with false by lia.
        apply IH; [rewrite xorb_assoc; exact Hpar | cbn [head_le]; lia].
Qed.

Lemma handler_closed_form term :
  let g := group (order_sort term) in
  ascending g /\
  (total_parity term = true -> multi_coupling_term_handle_JW g = None) /\
  (total_parity term = false ->
     exists res strs, multi_coupling_term_handle_JW g = Some (res, strs) /\
       map (fun e => (fst (fst e), gsite e)) res = map (fun e => (fst (fst e), gsite e)) g /\
       strs = removelast (map gflag res) /\
       (forall k, out_flag res strs k = jw_right g k) /\
       (forall k, out_word term res strs k = impl_word term k) /\
       strings_consistent g res strs = true).
Proof.
  intros g.
  assert (Hasc : ascending g) by (apply group_ascending, order_sort_sorted).
  assert (Hpar : gpar g = total_parity term).
  { unfold g. rewrite gpar_group. symmetry. apply (xor_fold_perm it_f), order_sort_perm. }
  unfold multi_coupling_term_handle_JW. rewrite handle_jw_running, xorb_false_l, Hpar.
  split; [exact Hasc|]. split; intros Hp; rewrite Hp; [reflexivity|].
  assert (Hflag : forall k, out_flag (running false g) (removelast (map gflag (running false g))) k = jw_right g k).
  { intros k. rewrite Hp in Hpar. clearbody g. destruct g as [|[[ops i] f] r]; [reflexivity|].
    destruct (Z_lt_dec k i) as [Hlt|Hge].
    - pose proof (ascending_left_of _ _ _ _ k Hasc Hlt) as Hl. rewrite (jw_right_lt _ k Hl). apply out_flag_lt. exact Hl.
    - rewrite <- (xorb_false_l (jw_right _ k)). apply (running_out_flag _ false k Hasc); [rewrite xorb_false_l; exact Hpar | cbn [head_le]; lia]. }
  exists (running false g), (removelast (map gflag (running false g))).
  split; [reflexivity|]. split; [apply running_shape|]. split; [reflexivity|]. split; [exact Hflag|]. split.
  - intros k. unfold out_word, impl_word. fold g. rewrite Hflag. reflexivity.
  - apply running_consistent; [exact Hasc|]. intros k _. symmetry. apply xorb_false_l.
Qed.

Lemma coupling_JW a fi b fj i j : i < j ->
  let term := [mkItem a i fi; mkItem b j fj] in
  (coupling_term_handle_JW fi fj = None <-> total_parity term = true) /\
  (forall app str, coupling_term_handle_JW fi fj = Some (app, str) ->
     order_combine_term term = ([([a], i, fi); ([b], j, fj)], false) /\
     multi_coupling_term_handle_JW (group (order_sort term)) = Some ([([a], i, app); ([b], j, false)], [str]) /\
     (forall k, coupling_words a fi b fj i j k = Some (impl_word term k)) /\
     (forall k, nf_sign (impl_word term k) = false /\
                nf_jw (impl_word term k) = nf_jw (phys_word term k) /\
                nf_ops (impl_word term k) = nf_ops (phys_word term k)) /\
     (forall ks, NoDup ks -> In i ks -> In j ks -> xor_over ks (fun k => nf_sign (phys_word term k)) = false)).
Proof.
  intros Hij term.
  assert (Hsort : order_sort term = term).
  { unfold order_sort, term. cbn [length Nat.sub bsort pass bubn it_site]. replace (j <? i) with false by lia. reflexivity. }
  assert (Hgroup : group term = [([a], i, fi); ([b], j, fj)]).
  { unfold term. cbn [group it_site it_op it_f]. replace (j =? i) with false by lia. reflexivity. }
  assert (Hsign : order_sign term = false).
  { unfold order_sign, term. cbn [length Nat.sub bsort_flip pass_flip flipn it_site]. replace (j <? i) with false by lia.
    reflexivity. }
  split; [unfold coupling_term_handle_JW; destruct fi, fj; split; intros H; reflexivity || discriminate|].
  intros app str Hc.
  assert (Hp : total_parity term = false /\ app = fi /\ str = fi).
  { unfold coupling_term_handle_JW in Hc. destruct fi, fj; inversion Hc; repeat split. }
  destruct Hp as (Hp & -> & ->).
  assert (Hmulti : multi_coupling_term_handle_JW (group (order_sort term)) = Some ([([a], i, fi); ([b], j, false)], [fi])).
  { rewrite Hsort, Hgroup. destruct fi, fj; try discriminate; reflexivity. }
  split; [unfold order_combine_term; rewrite Hsort, Hgroup, Hsign; reflexivity|].
  split; [exact Hmulti|]. split.
  { (* the words of the multi-site handler on the same term, read off its output *)
    intros k. unfold coupling_words. rewrite Hc. f_equal.
    pose proof (handler_closed_form term) as H. cbv zeta in H. destruct H as (_ & _ & H).
    destruct (H Hp) as (res & strs & Hres & _ & _ & _ & Hw & _). rewrite Hmulti in Hres. inversion Hres; subst res strs.
    rewrite <- Hw. unfold out_word. rewrite Hsort. unfold term. cbn [filter it_site item_letters map it_op it_f out_flag].
    destruct (k =? i) eqn:E1; [replace (i =? k) with true by lia; replace (j =? k) with false by lia; reflexivity|].
    replace (i =? k) with false by lia.
    destruct ((i <? k) && (k <? j)) eqn:E2; [replace (j =? k) with false by lia; reflexivity|].
    destruct (k =? j) eqn:E3; [replace (j =? k) with true by lia | replace (j =? k) with false by lia]; reflexivity. }
  destruct (term_machinery_correct term Hp) as [H1 H2].
  split; [exact H1|].
  intros ks Hnd Hi Hj. rewrite H2; [exact Hsign | exact Hnd |].
  intros t [<-|[<-|[]]]; assumption.
Qed.
