(* Model/Pipe.v (C06).  The rows of a pipe are a permutation of the grid of block tuples, each with the product of its block
   sizes; the sort by charge keeps rows of equal charge in the order of the grid: `rstable`.  The rows fall into groups, one
   per outgoing block (`group_pos`), which gives q_map the block-wise form of Model/PipeMaps.v. *)
From TenpyV Require Import Base.Prelude Base.Lists Model.ChargeL Model.Leg Model.Pipe Model.PipeMaps Proofs.ChargeP Proofs.LegP Proofs.PipeP3.
Open Scope Z_scope.

Definition in_range (ds ws : list Z) : Prop := Forall2 (fun d w => 0 <= w < d) ds ws.

Lemma prodZ_nonneg ds : nonneg ds -> 0 <= prodZ ds.
Proof. induction 1 as [|d t Hd Ht IH]; cbn [prodZ]; [lia|nia]. Qed.

Lemma ravel_range ds ws : in_range ds ws -> 0 <= ravel ds ws < prodZ ds.
Proof. induction 1 as [|d w dt wt H Ht IH]; cbn [ravel prodZ]; [lia|nia]. Qed.

Lemma unravel_ravel ds ws : in_range ds ws -> unravel ds (ravel ds ws) = ws.
Proof.
  induction 1 as [|d w dt wt H Ht IH]; cbn [ravel unravel]; [reflexivity|].
  pose proof (ravel_range _ _ Ht) as Hr.
  f_equal.
  - rewrite Z.div_add_l by lia. rewrite Z.div_small by lia. lia.
  - rewrite Z.add_comm, Z_mod_plus_full, Z.mod_small by lia. exact IH.
Qed.

Lemma unravel_range ds : nonneg ds -> forall k, 0 <= k < prodZ ds -> in_range ds (unravel ds k).
Proof.
  induction 1 as [|d dt Hd Ht IH]; intros k Hk; cbn [unravel]; [constructor|].
  cbn [prodZ] in Hk. pose proof (prodZ_nonneg _ Ht) as Hp.
  assert (0 < prodZ dt) by nia.
  constructor.
  - split; [apply Z.div_pos; lia|]. apply Z.div_lt_upper_bound; lia.
  - apply IH. apply Z.mod_pos_bound. lia.
Qed.

Lemma ravel_unravel ds : nonneg ds -> forall k, 0 <= k < prodZ ds -> ravel ds (unravel ds k) = k.
Proof.
  induction 1 as [|d dt Hd Ht IH]; intros k Hk; cbn [unravel ravel prodZ] in *; [lia|].
  pose proof (prodZ_nonneg _ Ht) as Hp. assert (0 < prodZ dt) by nia.
  rewrite IH by (apply Z.mod_pos_bound; lia).
  pose proof (Z.div_mod k (prodZ dt) ltac:(lia)). lia.
Qed.

Definition tuple_ok (shape q : list nat) : Prop := Forall2 (fun n i => (i < n)%nat) shape q.

Lemma grid_in shape : forall q, In q (grid shape) <-> tuple_ok shape q.
Proof.
  induction shape as [|n t IH]; intros q; cbn [grid].
  - split; [intros [<-|[]]; constructor|intros H; inversion H; left; reflexivity].
  - rewrite in_flat_map. split.
    + intros (i & Hi & Hq). apply in_map_iff in Hq. destruct Hq as (q' & <- & Hq').
      apply in_seq in Hi. constructor; [lia|apply IH, Hq'].
    + intros H. inversion H as [|? i ? q' Hi Hq']; subst. exists i. split; [apply in_seq; lia|].
      apply in_map, IH, Hq'.
Qed.

Lemma grid_nodup shape : NoDup (grid shape).
Proof. exact (ss_nodup lex_lt _ lex_lt_irrefl (grid_lexsorted shape)). Qed.

Definition rle (x y : row) : Prop := key_leb (r_ch x) (r_ch y) = true.
Definition rstable (x y : row) : Prop := r_ch x = r_ch y -> lex_lt (r_q x) (r_q y).

Lemma rsort_perm l : Permutation (rsort l) l.
Proof. exact (insertion_sort_perm (fun x y => key_leb (r_ch x) (r_ch y)) rinsert (fun _ => eq_refl) (fun _ _ _ => eq_refl) l). Qed.

Lemma rsort_sorted l : Sorted rle (rsort l).
Proof. exact (insertion_sort_sorted _ rinsert (fun _ => eq_refl) (fun _ _ _ => eq_refl) rle (fun _ _ H => H) (fun x y => key_leb_total _ _) l). Qed.

Lemma rsort_stable l : StronglySorted rstable l -> StronglySorted rstable (rsort l).
Proof.
  refine (insertion_sort_stable (fun x y => key_leb (r_ch x) (r_ch y)) rinsert (fun _ => eq_refl) (fun _ _ _ => eq_refl) rstable _ l).
  intros x y E H. rewrite H, key_leb_refl in E. discriminate.
Qed.

Lemma rows0_stable ci legs qconj : StronglySorted rstable (rows0 ci legs qconj).
Proof.
  unfold rows0. eapply ss_map; [|apply grid_lexsorted]. intros x y Hxy _. exact Hxy.
Qed.

Lemma pipe_rows_perm ci legs qconj srt : Permutation (pipe_rows ci legs qconj srt) (rows0 ci legs qconj).
Proof. unfold pipe_rows. destruct (srt && negb (Nat.eqb (length ci) 0)); [apply rsort_perm|reflexivity]. Qed.

Lemma pipe_rows_sorted ci legs qconj : ci <> [] -> Sorted rle (pipe_rows ci legs qconj true).
Proof.
  intros H. unfold pipe_rows. destruct ci as [|m ci]; [congruence|]. cbn [length Nat.eqb negb andb]. apply rsort_sorted.
Qed.

Lemma pipe_rows_stable ci legs qconj srt : StronglySorted rstable (pipe_rows ci legs qconj srt).
Proof.
  unfold pipe_rows. destruct (srt && negb (Nat.eqb (length ci) 0)); [apply rsort_stable|]; apply rows0_stable.
Qed.

Definition pipe_row_ok (ci : chinfo) (legs : list leg) (qconj : Z) (r : row) : Prop :=
  tuple_ok (map nblocks legs) (r_q r) /\ r_sz r = prodZ (dims legs (r_q r)) /\ r_ch r = fused ci legs qconj (r_q r).

Lemma rows0_ok ci legs qconj : Forall (pipe_row_ok ci legs qconj) (rows0 ci legs qconj).
Proof.
  apply Forall_map, Forall_forall. intros q Hq. apply grid_in in Hq. repeat split; assumption.
Qed.

Lemma pipe_rows_ok ci legs qconj srt : Forall (pipe_row_ok ci legs qconj) (pipe_rows ci legs qconj srt).
Proof. rewrite pipe_rows_perm. apply rows0_ok. Qed.

Lemma pipe_rows_q ci legs qconj srt : Permutation (map r_q (pipe_rows ci legs qconj srt)) (grid (map nblocks legs)).
Proof. rewrite pipe_rows_perm, rows0_q. reflexivity. Qed.

Lemma pipe_rows_nodup ci legs qconj srt : NoDup (map r_q (pipe_rows ci legs qconj srt)).
Proof. rewrite pipe_rows_q. apply grid_nodup. Qed.

Lemma pipe_rows_in ci legs qconj srt q : tuple_ok (map nblocks legs) q -> In q (map r_q (pipe_rows ci legs qconj srt)).
Proof. intros H. rewrite pipe_rows_q. apply grid_in, H. Qed.

Lemma nth_r_sz rows j : nth j (map r_sz rows) 0 = r_sz (nth j rows row0).
Proof. change 0 with (r_sz row0). apply map_nth. Qed.

Lemma tuple_eqb_iff a b : list_eqb a b = true <-> a = b.
Proof. exact (forall2b_eq_spec Nat.eqb Nat.eqb_eq a b). Qed.

Lemma find_row_some q rows : forall j, find_row q rows = Some j -> (j < length rows)%nat /\ r_q (nth j rows row0) = q.
Proof.
  induction rows as [|r t IH]; intros j H; cbn [find_row] in H; [discriminate|].
  destruct (list_eqb (r_q r) q) eqn:E.
  - injection H as <-. apply tuple_eqb_iff in E. cbn [length nth]. split; [lia|exact E].
  - destruct (find_row q t) as [j'|]; [|discriminate]. injection H as <-.
    destruct (IH j' eq_refl) as [H1 H2]. cbn [length nth]. split; [lia|exact H2].
Qed.

Lemma find_row_in q rows : In q (map r_q rows) -> exists j, find_row q rows = Some j.
Proof.
  induction rows as [|r t IH]; intros H; [destruct H|]. cbn [find_row].
  destruct (list_eqb (r_q r) q) eqn:E; [eauto|].
  destruct H as [H|H]; [apply tuple_eqb_iff in H; congruence|].
  destruct (IH H) as (j & ->). eauto.
Qed.

Lemma find_row_nodup rows : NoDup (map r_q rows) -> forall j, (j < length rows)%nat ->
  find_row (r_q (nth j rows row0)) rows = Some j.
Proof.
  induction rows as [|r t IH]; intros Hn j Hj; [cbn in Hj; lia|].
  cbn [map] in Hn. inversion Hn as [|? ? Hr Ht]; subst. cbn [find_row length] in *.
  destruct j as [|j]; cbn [nth].
  - rewrite (proj2 (tuple_eqb_iff _ _) eq_refl). reflexivity.
  - destruct (list_eqb (r_q r) (r_q (nth j t row0))) eqn:E; [|rewrite IH by (assumption || lia); reflexivity].
    apply tuple_eqb_iff in E. destruct Hr. rewrite E. apply in_map, nth_In. lia.
Qed.

Definition legs_ok (legs : list leg) : Prop := Forall (fun l => nonneg (bsz l)) legs.
Definition idx_ok (legs : list leg) (t : list Z) : Prop := Forall2 (fun l i => 0 <= i < ind_len l) legs t.

Lemma dims_nonneg legs : legs_ok legs -> forall q, nonneg (dims legs q).
Proof.
  induction 1 as [|l lt Hl Ht IH]; intros [|i q]; cbn [dims]; constructor; [apply blk_nonneg, Hl|apply IH].
Qed.

Lemma split_ok legs : legs_ok legs -> forall t, idx_ok legs t ->
  exists qs ws, split_indices legs t = Some (qs, ws) /\ tuple_ok (map nblocks legs) qs /\
                in_range (dims legs qs) ws /\ join_indices legs qs ws = t.
Proof.
  induction 1 as [|l lt Hl Ht IH]; intros t Hi; inversion Hi as [|? i ? tr Hi1 Hi2]; subst.
  - exists [], []. repeat split; constructor.
  - destruct (IH tr Hi2) as (qs & ws & E & H1 & H2 & H3).
    destruct (get_qindex_spec l i Hl) as [A _]. destruct (A ltac:(lia)) as (q & w & Eq & Hq & Hw & Hiw).
    exists (q :: qs), (w :: ws). cbn [split_indices]. rewrite Eq, E.
    replace (i <? 0) with false in Hiw by lia.
    repeat split; cbn [map dims join_indices]; try (constructor; assumption). rewrite H3, <- Hiw. reflexivity.
Qed.

Lemma join_ok legs : legs_ok legs -> forall qs ws, tuple_ok (map nblocks legs) qs -> in_range (dims legs qs) ws ->
  split_indices legs (join_indices legs qs ws) = Some (qs, ws) /\ idx_ok legs (join_indices legs qs ws).
Proof.
  induction 1 as [|l lt Hl Ht IH]; intros qs ws Hq Hw; cbn [map] in Hq; inversion Hq as [|? q ? qt Hq1 Hq2]; subst;
    cbn [dims] in Hw.
  - inversion Hw; subst. split; [reflexivity|constructor].
  - inversion Hw as [|? w ? wt Hw1 Hw2]; subst.
    destruct (IH qt wt Hq2 Hw2) as [E Hi].
    destruct (get_qindex_inverse l q w Hl Hq1 Hw1) as [Eq R].
    cbn [join_indices split_indices]. rewrite Eq, E. split; [reflexivity|constructor; assumption].
Qed.

Lemma grid_sum legs : sumZ (map (fun q => prodZ (dims legs q)) (grid (map nblocks legs))) = prodZ (map ind_len legs).
Proof.
  induction legs as [|l lt IH]; [reflexivity|]. cbn [map grid prodZ].
  assert (G : forall idxs, sumZ (map (fun q => prodZ (dims (l :: lt) q))
                 (flat_map (fun i => map (cons i) (grid (map nblocks lt))) idxs))
              = sumZ (map (fun i => fst (blk l i)) idxs) * prodZ (map ind_len lt)).
  { induction idxs as [|i idxs IHi]; [reflexivity|]. cbn [flat_map map sumZ].
    rewrite map_app, sumZ_app, IHi, map_map. cbn [dims prodZ].
    rewrite <- (sumZ_map_scale (fst (blk l i)) (fun q => prodZ (dims lt q))), IH. lia. }
  rewrite G. f_equal. unfold ind_len, bsz. rewrite <- (map_blk_seq l), map_map. reflexivity.
Qed.

Lemma pipe_rows_total ci legs qconj srt :
  sumZ (map r_sz (pipe_rows ci legs qconj srt)) = prodZ (map ind_len legs).
Proof.
  rewrite (sumZ_perm _ _ (Permutation_map r_sz (pipe_rows_perm ci legs qconj srt))).
  unfold rows0. rewrite map_map. cbn [r_sz]. apply grid_sum.
Qed.

Lemma rows_sizes_nonneg ci legs qconj srt : legs_ok legs -> nonneg (map r_sz (pipe_rows ci legs qconj srt)).
Proof.
  intros Hl. apply Forall_map. eapply Forall_impl; [|apply pipe_rows_ok].
  intros r (_ & -> & _). apply prodZ_nonneg, dims_nonneg, Hl.
Qed.

(* map_incoming_flat without q_map: running offset of the row of the block tuple + position inside the block *)
Definition flat_of (rows : list row) (legs : list leg) (t : list Z) : option Z :=
  match split_indices legs t with
  | None => None
  | Some (qs, ws) =>
      match find_row qs rows with
      | None => None
      | Some j => Some (offs (map r_sz rows) j + ravel (dims legs qs) ws)
      end
  end.

Definition qrow0 : qrow := mkQ 0 0 O [].

Definition group_ok (g : list row) : Prop := g <> [] /\ Forall (fun r => r_ch r = ghead g) g.

Lemma group_rows_ok bun rows : Forall group_ok (group_rows bun rows).
Proof.
  induction rows as [|r t IH]; [constructor|]. cbn [group_rows].
  destruct (group_rows bun t) as [|[|r' g] gs]; [repeat constructor; discriminate ..|].
  inversion IH as [|? ? [_ Hg] Hgs]; subst.
  destruct (bun && veqb (r_ch r) (r_ch r')) eqn:V.
  - apply andb_prop in V. destruct V as [_ V]. apply list_eqb_eq in V.
    constructor; [|exact Hgs]. split; [discriminate|]. unfold ghead in *. cbn [hd] in *.
    constructor; [reflexivity|]. eapply Forall_impl; [|exact Hg]. cbn beta. intros a Ha. congruence.
  - constructor; [|exact IH]. split; [discriminate|]. repeat constructor.
Qed.

Lemma group_concat bun rows : concat (group_rows bun rows) = rows.
Proof.
  induction rows as [|r t IH]; [reflexivity|]. cbn [group_rows]. pose proof (group_rows_ok bun t) as F.
  destruct (group_rows bun t) as [|[|r' g] gs]; rewrite <- IH.
  - reflexivity.
  - inversion F as [|? ? [Hne _] _]. congruence.
  - destruct (bun && veqb (r_ch r) (r_ch r')); reflexivity.
Qed.

Lemma group_nonneg bun rows : nonneg (map r_sz rows) -> Forall (fun g => nonneg (map r_sz g)) (group_rows bun rows).
Proof.
  unfold nonneg. intros H. rewrite <- (group_concat bun rows), concat_map, Forall_concat, Forall_map in H. exact H.
Qed.

Lemma nth_gsize gs I : nth I (map gsize gs) 0 = gsize (nth I gs []).
Proof. change 0 with (gsize []). apply map_nth. Qed.

Lemma nth_ghead gs I : nth I (map ghead gs) [] = ghead (nth I gs []).
Proof. change (@nil Z) with (ghead []) at 1. apply map_nth. Qed.

Lemma qm_group_length I g : length (qm_group I g) = length g.
Proof. unfold qm_group. rewrite map_length, seq_length. reflexivity. Qed.

Lemma qm_group_nth I g i : (i < length g)%nat ->
  nth i (qm_group I g) qrow0 = mkQ (offs (map r_sz g) i) (offs (map r_sz g) (S i)) I (r_q (nth i g row0)).
Proof. intros H. unfold qm_group. rewrite nth_map_seq by exact H. reflexivity. Qed.

Lemma qm_blocks_length gs : forall I0, length (qm_blocks I0 gs) = length (concat gs).
Proof.
  induction gs as [|g gs IH]; intros I0; [reflexivity|]. cbn [qm_blocks concat].
  rewrite !app_length, qm_group_length, IH. reflexivity.
Qed.

Lemma tag_from_length gs : forall I0, length (tag_from I0 gs) = length (concat gs).
Proof.
  induction gs as [|g gs IH]; intros I0; [reflexivity|]. cbn [tag_from concat].
  rewrite !app_length, repeat_length, IH. reflexivity.
Qed.

Lemma tag_from_ge gs : forall I0 x, In x (tag_from I0 gs) -> (I0 <= x)%nat.
Proof.
  induction gs as [|g gs IH]; intros I0 x H; cbn [tag_from] in H; [destruct H|].
  apply in_app_or in H. destruct H as [H|H]; [apply repeat_spec in H; lia|]. apply IH in H. lia.
Qed.

Lemma tag_from_sorted gs : forall I0, StronglySorted le (tag_from I0 gs).
Proof.
  induction gs as [|g gs IH]; intros I0; cbn [tag_from]; [constructor|]. apply ss_app; [|apply IH|].
  - generalize (length g). intros n. induction n as [|n IHn]; cbn [repeat]; constructor; [exact IHn|].
    apply Forall_forall. intros y Hy. apply repeat_spec in Hy. lia.
  - intros x y Hx Hy. apply repeat_spec in Hx. apply tag_from_ge in Hy. lia.
Qed.

(* one decomposition j -> (group k, position i) for the rows, the block-wise q_map, the tags and the running offsets *)
Lemma group_pos gs : forall I0 j, (j < length (concat gs))%nat ->
  exists k i, (k < length gs)%nat /\ (i < length (nth k gs []))%nat /\
    nth j (concat gs) row0 = nth i (nth k gs []) row0 /\
    nth j (qm_blocks I0 gs) qrow0 = nth i (qm_group (I0 + k) (nth k gs [])) qrow0 /\
    nth j (tag_from I0 gs) O = (I0 + k)%nat /\
    offs (map r_sz (concat gs)) j = offs (map gsize gs) k + offs (map r_sz (nth k gs [])) i /\
    offs (map r_sz (concat gs)) (S j) = offs (map gsize gs) k + offs (map r_sz (nth k gs [])) (S i).
Proof.
  induction gs as [|g gs IH]; intros I0 j Hj; [cbn in Hj; lia|].
  cbn [concat qm_blocks tag_from length map] in *. rewrite app_length in Hj. rewrite map_app.
  destruct (Nat.lt_ge_cases j (length g)) as [H|H].
  - exists 0%nat, j. rewrite !app_nth1, Nat.add_0_r by (rewrite ?qm_group_length, ?repeat_length; exact H).
    rewrite (nth_indep _ _ I0), nth_repeat by (rewrite repeat_length; exact H).
    rewrite !offs_app_l, offs_0 by (rewrite map_length; lia). cbn [nth]. repeat split; lia.
  - destruct (IH (S I0) (j - length g)%nat ltac:(lia)) as (k & i & Hk & Hi & E1 & E2 & E3 & E4 & E5).
    exists (S k), i. rewrite !app_nth2 by (rewrite ?qm_group_length, ?repeat_length; exact H).
    rewrite qm_group_length, repeat_length, !offs_app_r, map_length by (rewrite map_length; lia).
    replace (S j - length g)%nat with (S (j - length g)) by lia.
    rewrite Nat.add_succ_r, offs_cons. cbn [nth]. unfold gsize at 1 3. repeat split; lia || assumption.
Qed.

Section PipeInit.
  Variables (ci : chinfo) (legs : list leg) (qconj : Z) (srt bun : bool).
  Let p := pipe_init ci legs qconj srt bun.
  Let rows := pipe_rows ci legs qconj srt.
  Let gs := group_rows bun rows.
  Let C : concat gs = rows := group_concat bun rows.

  Lemma pipe_init_legs : p_legs p = legs.
  Proof. reflexivity. Qed.

  Lemma pipe_init_qconj : p_qconj p = qconj.
  Proof. reflexivity. Qed.

  Lemma pipe_init_rows : p_rows p = rows.
  Proof. reflexivity. Qed.

  Lemma pipe_init_sizes : map fst (p_blocks p) = map gsize gs.
  Proof. apply map_fst_combine. rewrite !map_length. reflexivity. Qed.

  Lemma pipe_init_charges : map snd (p_blocks p) = map ghead gs.
  Proof. apply map_snd_combine. rewrite !map_length. reflexivity. Qed.

  Lemma pipe_init_nblocks : length (p_blocks p) = length gs.
  Proof. rewrite <- (map_length gsize gs), <- pipe_init_sizes. symmetry. apply map_length. Qed.

  Lemma pipe_init_qmap_slices : p_qmap_slices p = slices_of (map glen gs).
  Proof. reflexivity. Qed.

  Lemma pipe_init_qmap_length : length (p_qmap p) = length rows.
  Proof. unfold p, pipe_init. cbn [p_qmap]. rewrite map_length. apply seq_length. Qed.

  Lemma pipe_init_qmap_nth j : (j < length rows)%nat ->
    let I := nth j (tag_from 0 gs) O in
    nth j (p_qmap p) qrow0 =
    mkQ (offs (map r_sz rows) j - offs (map gsize gs) I) (offs (map r_sz rows) (S j) - offs (map gsize gs) I) I (r_q (nth j rows row0)).
  Proof. intros Hj. unfold p, pipe_init. cbn [p_qmap]. rewrite nth_map_seq by exact Hj. reflexivity. Qed.

  Lemma mif_flat_of t : map_incoming_flat p t = flat_of rows legs t.
  Proof.
    unfold map_incoming_flat, flat_of. rewrite pipe_init_legs, pipe_init_rows, pipe_init_sizes.
    destruct (split_indices legs t) as [[qs ws]|]; [|reflexivity].
    destruct (find_row qs rows) as [j|] eqn:E; [|reflexivity].
    apply find_row_some in E. destruct E as [Hj _].
    rewrite pipe_init_qmap_nth by exact Hj. cbn [q_Is q_b0]. f_equal. lia.
  Qed.

  Section Bijection.
    Hypothesis Hlegs : legs_ok legs.
    Let N := prodZ (map ind_len legs).
    Let Hnn : nonneg (map r_sz rows) := rows_sizes_nonneg ci legs qconj srt Hlegs.
    (* lia takes this from the context wherever it needs k < N *)
    Let Htot : sumZ (map r_sz rows) = N := pipe_rows_total ci legs qconj srt.

    Lemma row_at j : (j < length rows)%nat ->
      tuple_ok (map nblocks legs) (r_q (nth j rows row0)) /\
      nth j (map r_sz rows) 0 = prodZ (dims legs (r_q (nth j rows row0))).
    Proof.
      intros Hj. destruct (proj1 (Forall_nth _ _) (pipe_rows_ok ci legs qconj srt) j row0 Hj) as (Hq & Hsz & _).
      rewrite nth_r_sz. split; assumption.
    Qed.

    Lemma incoming_then_outgoing t : idx_ok legs t ->
      exists k, map_incoming_flat p t = Some k /\ 0 <= k < N /\ map_outgoing_flat p k = Some t.
    Proof.
      intros Ht. unfold map_outgoing_flat. rewrite mif_flat_of, pipe_init_rows, pipe_init_legs.
      unfold flat_of. destruct (split_ok legs Hlegs t Ht) as (qs & ws & -> & Hq & Hw & Hj).
      destruct (find_row_in qs rows (pipe_rows_in ci legs qconj srt qs Hq)) as (j & Ej). rewrite Ej.
      destruct (find_row_some _ _ _ Ej) as [Hjl Hjq].
      destruct (row_at j Hjl) as [_ Hsz]. rewrite Hjq in Hsz.
      pose proof (ravel_range _ _ Hw) as Hr. rewrite <- Hsz in Hr.
      assert (Hjl' : (j < length (map r_sz rows))%nat) by (rewrite map_length; exact Hjl).
      pose proof (offs_nonneg _ Hnn j) as H0. pose proof (offs_block_le _ Hnn j Hjl') as H1.
      eexists. split; [reflexivity|]. split; [lia|].
      destruct (_ <? 0) eqn:En; [lia|]. rewrite locate_complete by assumption.
      cbv zeta. rewrite Hjq, unravel_ravel, Hj by exact Hw. reflexivity.
    Qed.

    Lemma outgoing_then_incoming k : 0 <= k < N ->
      exists t, map_outgoing_flat p k = Some t /\ idx_ok legs t /\ map_incoming_flat p t = Some k.
    Proof.
      intros Hk. unfold map_outgoing_flat. rewrite pipe_init_rows, pipe_init_legs.
      destruct (k <? 0) eqn:En; [lia|].
      destruct (locate_some _ Hnn k ltac:(lia)) as (j & w & -> & Hjl & Hw & ->).
      rewrite map_length in Hjl. destruct (row_at j Hjl) as [Hq Hsz]. rewrite Hsz in Hw.
      set (q := r_q (nth j rows row0)) in *. cbv zeta.
      pose proof (dims_nonneg legs Hlegs q) as Hd.
      destruct (join_ok legs Hlegs q _ Hq (unravel_range _ Hd w Hw)) as [Es Hi].
      eexists. split; [reflexivity|]. split; [exact Hi|].
      rewrite mif_flat_of. unfold flat_of. rewrite Es.
      unfold q. rewrite find_row_nodup by (apply pipe_rows_nodup || exact Hjl). fold q.
      rewrite ravel_unravel by assumption. reflexivity.
    Qed.
    Theorem split_combine_fn :
      (forall (f : list Z -> Z) t, idx_ok legs t -> split_fn p (combine_fn p f) t = f t) /\
      (forall (g : Z -> Z) k, 0 <= k < N -> combine_fn p (split_fn p g) k = g k) /\
      (forall (f : list Z -> Z) t, idx_ok legs t ->
         exists k, map_incoming_flat p t = Some k /\ 0 <= k < N /\ combine_fn p f k = f t) /\
      (forall (g : Z -> Z) k, 0 <= k < N ->
         exists t, map_outgoing_flat p k = Some t /\ idx_ok legs t /\ split_fn p g t = g k).
    Proof.
      repeat split.
      - intros f t Ht. destruct (incoming_then_outgoing t Ht) as (k & E1 & _ & E2).
        unfold split_fn, combine_fn. rewrite E1, E2. reflexivity.
      - intros g k Hk. destruct (outgoing_then_incoming k Hk) as (t & E1 & _ & E2).
        unfold split_fn, combine_fn. rewrite E1, E2. reflexivity.
      - intros f t Ht. destruct (incoming_then_outgoing t Ht) as (k & E1 & Hk & E2).
        exists k. unfold combine_fn. rewrite E2. auto.
      - intros g k Hk. destruct (outgoing_then_incoming k Hk) as (t & E1 & Ht & E2).
        exists t. unfold split_fn. rewrite E2. auto.
    Qed.
  End Bijection.

  Lemma pipe_init_blockwise : p_qmap p = qm_blocks 0 gs.
  Proof.
    apply (nth_ext _ _ qrow0 qrow0); rewrite pipe_init_qmap_length, <- C; [symmetry; apply qm_blocks_length|].
    intros j Hj. rewrite pipe_init_qmap_nth by (rewrite <- C; exact Hj). cbv zeta. rewrite <- C.
    destruct (group_pos gs 0%nat j Hj) as (k & i & Hk & Hi & -> & -> & -> & -> & ->).
    rewrite qm_group_nth by exact Hi. cbn [Nat.add]. f_equal; lia.
  Qed.

  Lemma qmap_block_charge j : (j < length rows)%nat ->
    nth (q_Is (nth j (p_qmap p) qrow0)) (map snd (p_blocks p)) [] = r_ch (nth j rows row0).
  Proof.
    intros Hj. rewrite pipe_init_blockwise, pipe_init_charges.
    destruct (group_pos gs 0%nat j ltac:(rewrite C; exact Hj)) as (k & i & Hk & Hi & Er & -> & _).
    rewrite C in Er. rewrite Er, qm_group_nth, nth_ghead by exact Hi. cbn [q_Is Nat.add].
    destruct (proj1 (Forall_nth _ _) (group_rows_ok bun rows) k [] Hk) as [_ Fg].
    symmetry. exact (proj1 (Forall_nth _ _) Fg i row0 Hi).
  Qed.

  Theorem fusion_rule t : legs_ok legs -> idx_ok legs t ->
    exists qs ws I, split_indices legs t = Some (qs, ws) /\ block_of p t = Some I /\
      nth I (map snd (p_blocks p)) [] = make_valid ci (vscale qconj (vsum (length ci) (tuple_charges legs qs))).
  Proof.
    intros Hl Ht. destruct (split_ok legs Hl t Ht) as (qs & ws & E & Hq & _ & _).
    destruct (find_row_in qs rows (pipe_rows_in ci legs qconj srt qs Hq)) as (j & Ej).
    destruct (find_row_some _ _ _ Ej) as [Hjl Hjq].
    exists qs, ws, (q_Is (nth j (p_qmap p) qrow0)). split; [exact E|]. split.
    - unfold block_of. rewrite pipe_init_legs, pipe_init_rows, E, Ej. reflexivity.
    - rewrite qmap_block_charge by exact Hjl.
      destruct (proj1 (Forall_nth _ _) (pipe_rows_ok ci legs qconj srt) j row0 Hjl) as (_ & _ & Ech).
      rewrite <- Hjq. exact Ech.
  Qed.

  Theorem qmap_shape j : legs_ok legs -> (j < length (p_rows p))%nat ->
    let qr := nth j (p_qmap p) (mkQ 0 0 O []) in
    let osz := map fst (p_blocks p) in
    0 <= q_b0 qr /\ q_b1 qr = q_b0 qr + r_sz (nth j (p_rows p) row0) /\
    offs osz (q_Is qr) + q_b1 qr <= offs osz (S (q_Is qr)) /\ q_q qr = r_q (nth j (p_rows p) row0) /\
    length (p_qmap p) = length (p_rows p).
  Proof.
    intros Hl. cbv zeta. rewrite pipe_init_qmap_length, pipe_init_rows, pipe_init_blockwise, pipe_init_sizes. intros Hj.
    destruct (group_pos gs 0%nat j ltac:(rewrite C; exact Hj)) as (k & i & Hk & Hi & Er & E & _).
    fold qrow0. rewrite C in Er. rewrite E, Er, qm_group_nth by exact Hi. cbn [q_b0 q_b1 q_Is q_q Nat.add].
    set (g := nth k gs []) in *.
    assert (Hg : nonneg (map r_sz g)).
    { apply (proj1 (Forall_nth _ _) (group_nonneg bun rows (rows_sizes_nonneg ci legs qconj srt Hl))), Hk. }
    pose proof (offs_nonneg _ Hg i). pose proof (offs_le_sum _ Hg (S i)).
    rewrite (offs_step (map r_sz g) i), nth_r_sz in * by (rewrite map_length; exact Hi).
    rewrite (offs_step (map gsize gs) k), nth_gsize by (rewrite map_length; exact Hk). fold g.
    unfold gsize. repeat split; lia.
  Qed.
End PipeInit.
