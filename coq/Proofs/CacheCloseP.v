(* Model/CacheClose.v (property C20, close()): under `exit` every worker step decreases `wsteps`, so the join of close()
   returns; `closed_st` is absorbing. *)
From TenpyV Require Import Base.Prelude Model.Cache Model.CacheThread Proofs.CacheThreadP Model.CacheClose.
Open Scope Z_scope.

Lemma caller_step_status qmax b b' : caller_step qmax b = Some b' -> t_status b' = t_status b.
Proof. intros H. apply (caller_cframe qmax b b' H). Qed.

Lemma worker_step_pc fail_at b b' : worker_step fail_at b = Some b' -> t_pc b' = t_pc b.
Proof. intros H. apply (worker_frame fail_at b b' H). Qed.

Lemma worker_step_c_dec fail_at st : c_exit st = true -> t_status (c_base st) <> WDead ->
  exists b', worker_step_c fail_at st = Some (with_base st b') /\
             (wsteps b' < wsteps (c_base st))%nat /\ t_pc b' = t_pc (c_base st).
Proof.
  intros He Hd. unfold worker_step_c, worker_step, wsteps. rewrite He.
  destruct (t_status (c_base st)) eqn:Es; [| | |contradiction].
  - eexists. split; [reflexivity|]. cbn. split; [lia|reflexivity].
  - eexists. split; [reflexivity|].
    destruct (match fail_at with Some n => _ | None => _ end); [|destruct (exec_task _ _ _) as [[d l]|]];
      cbn; split; try reflexivity; lia.
  - destruct (t_queue (c_base st)); (eexists; split; [reflexivity|]); cbn; split; try reflexivity; lia.
Qed.

Lemma wsteps_dead b : wsteps b = 0%nat -> t_status b = WDead.
Proof. unfold wsteps. destruct (t_status b); intros; try lia. reflexivity. Qed.

Lemma is_dead_iff b : is_dead b = true <-> t_status b = WDead.
Proof. unfold is_dead. destruct (t_status b); split; intros; try discriminate; reflexivity. Qed.

Lemma d_has_nil k : d_has k [] = false.
Proof. reflexivity. Qed.

(* closed_st, the part about the base state *)
Definition post (b : tstate) : Prop := t_status b = WDead /\ t_loaded b = [] /\ pc_quiet b.

Definition only_died (b b' : tstate) : Prop :=
  exists l, t_outs b' = l ++ t_outs b /\ Forall (fun o => o = TWorkerDied \/ o = TOk) l.

Lemma only_died_refl b : only_died b b.
Proof. exists []. split; [reflexivity|constructor]. Qed.

Lemma only_died_one b b' o : t_outs b' = o :: t_outs b -> o = TWorkerDied \/ o = TOk -> only_died b b'.
Proof. intros E Ho. exists [o]. split; [exact E|]. constructor; [exact Ho|constructor]. Qed.

Lemma start_op_post qmax b op : t_status b = WDead -> t_loaded b = [] ->
  let b' := start_op qmax b op in
  t_status b' = WDead /\ t_loaded b' = [] /\
  ((t_pc b' = PIdle /\ exists o, t_outs b' = o :: t_outs b /\
     (o = TWorkerDied \/ (o = TOk /\ exists k, op = SPreload k /\ ks_mem k (t_waiting b) = true))) \/
   (exists k, op = SLoad k /\ ks_mem k (t_waiting b) = true /\ t_pc b' = PLoadB k /\ t_outs b' = t_outs b)).
Proof.
  intros Hs Hl. cbn zeta. rewrite (start_op_dead qmax b op (dead_WDead b Hs)). unfold needs_worker. rewrite Hl.
  destruct op as [k|k|k v|k]; cbn [d_has d_get negb andb]; [destruct (ks_mem k (t_waiting b)) eqn:Ew..| |]; cbn;
    (split; [auto|split; [auto|]]).
  - right. exists k. auto.
  - left. split; [reflexivity|]. exists TWorkerDied. auto.
  - left. split; [reflexivity|]. exists TOk. split; [reflexivity|]. right. split; [reflexivity|]. exists k. auto.
  - left. split; [reflexivity|]. exists TWorkerDied. auto.
  - left. split; [reflexivity|]. exists TWorkerDied. auto.
  - left. split; [reflexivity|]. exists TWorkerDied. auto.
Qed.

Lemma start_op_closed qmax b op : post b -> post (start_op qmax b op) /\ only_died b (start_op qmax b op).
Proof.
  intros (Hs & Hl & _). destruct (start_op_post qmax b op Hs Hl) as (A & B & C). unfold post, pc_quiet.
  destruct C as [(C & o & Eo & Ho)|(k & _ & _ & C & Eo)].
  - split; [auto|]. apply (only_died_one _ _ o Eo). destruct Ho as [->|[-> _]]; auto.
  - split; [eauto|]. exists []. split; [exact Eo|constructor].
Qed.

Lemma loadb_post qmax b k : t_status b = WDead -> t_loaded b = [] -> t_pc b = PLoadB k ->
  exists b', caller_step qmax b = Some b' /\ t_status b' = WDead /\ t_loaded b' = [] /\ t_pc b' = PIdle /\
             t_outs b' = TWorkerDied :: t_outs b.
Proof.
  intros Hs Hl Hp. unfold caller_step. rewrite Hp, Hl, d_has_nil, (dead_WDead b Hs).
  eexists. split; [reflexivity|]. cbn. auto.
Qed.

Lemma closed_worker fail_at st : closed_st st -> worker_step_c fail_at st = None.
Proof.
  intros (_ & _ & Hs & _). unfold worker_step_c. rewrite Hs, (worker_step_dead fail_at _ Hs).
  destruct (c_exit st); reflexivity.
Qed.

Lemma closed_step qmax fail_at st c : closed_st st ->
  closed_st (cl_step qmax fail_at st c) /\ only_died (c_base st) (c_base (cl_step qmax fail_at st c)) /\
  incl (c_outs st) (c_outs (cl_step qmax fail_at st c)).
Proof.
  intros Hc. assert (Hstay : closed_st st /\ only_died (c_base st) (c_base st) /\ incl (c_outs st) (c_outs st))
    by (split; [exact Hc|split; [apply only_died_refl|apply incl_refl]]).
  unfold cl_step. destruct c; [|rewrite (closed_worker fail_at st Hc); exact Hstay].
  destruct Hc as (Ho & Hp & Hb). unfold caller_step_c, closed_st. rewrite Hp, Ho.
  destruct (proj2 (proj2 Hb)) as [Hq|[k Hq]]; rewrite Hq.
  - destruct (c_prog st) as [|[op|] rest]; [exact Hstay| |].
    + destruct (start_op_closed qmax (c_base st) op Hb) as [A B]. cbn. auto using incl_refl.
    + cbn. split; [auto|]. split; [apply only_died_refl|apply incl_tl, incl_refl].
  - destruct Hb as (Hs & Hl & _). destruct (loadb_post qmax (c_base st) k Hs Hl Hq) as (b' & -> & A & B & C & D).
    cbn. split; [unfold pc_quiet; repeat split; auto|]. split; [|apply incl_refl]. apply (only_died_one _ _ _ D). auto.
Qed.

Lemma closed_forever qmax fail_at : forall sched st, closed_st st ->
  let st' := cl_run qmax fail_at sched st in
  closed_st st' /\ worker_step_c fail_at st' = None /\
  exists l, t_outs (c_base st') = l ++ t_outs (c_base st) /\ Forall (fun o => o = TWorkerDied \/ o = TOk) l.
Proof.
  induction sched as [|c sched IH]; intros st Hc; cbn zeta; cbn [cl_run fold_left].
  - split; [exact Hc|]. split; [apply closed_worker; exact Hc|apply only_died_refl].
  - destruct (closed_step qmax fail_at st c Hc) as (H1 & (l1 & E1 & F1) & _).
    destruct (IH _ H1) as (A & B & l2 & E2 & F2). fold (cl_run qmax fail_at sched (cl_step qmax fail_at st c)).
    split; [exact A|]. split; [exact B|]. exists (l2 ++ l1). split.
    + rewrite E2, E1, app_assoc. reflexivity.
    + apply Forall_app. split; assumption.
Qed.

Lemma second_close qmax st rest : closed_st st -> t_pc (c_base st) = PIdle -> c_prog st = CClose :: rest ->
  exists st', caller_step_c qmax st = Some st' /\ c_outs st' = CAlreadyClosed :: c_outs st /\ closed_st st'.
Proof.
  intros (Ho & Hp & Hb) Hpc Hprog. unfold caller_step_c. rewrite Hp, Hpc, Hprog, Ho.
  eexists. split; [reflexivity|]. split; [reflexivity|exact (conj eq_refl (conj eq_refl Hb))].
Qed.

Definition joining (st : cstate) : Prop :=
  c_opened st = false /\ t_pc (c_base st) = PIdle /\
  ((c_pc st = CJoin /\ c_exit st = true /\ t_loaded (c_base st) = t_loaded (c_base st)) \/
   (closed_st st /\ In CClosedOk (c_outs st))).

Definition done (st : cstate) : Prop := closed_st st /\ In CClosedOk (c_outs st).

(* worker_thread.join() returns: close() finishes *)
Lemma done_joined (b : tstate) ex rest outs : t_status b = WDead -> t_pc b = PIdle ->
  done (mkC (close_finish b) ex false CNone rest (CClosedOk :: outs)).
Proof.
  intros Hs Hp. split; [|left; reflexivity]. unfold closed_st, close_finish, pc_quiet. cbn. repeat split; auto.
Qed.

Lemma done_step qmax fail_at st c : done st -> done (cl_step qmax fail_at st c).
Proof. intros [Hc Hin]. destruct (closed_step qmax fail_at st c Hc) as (H1 & _ & H3). exact (conj H1 (H3 _ Hin)). Qed.

Lemma done_run qmax fail_at : forall sched st, done st -> done (cl_run qmax fail_at sched st).
Proof.
  induction sched as [|c l IH]; intros s Hs; cbn [cl_run fold_left]; [exact Hs|].
  apply IH. apply done_step. exact Hs.
Qed.

Lemma count_worker_cons c sched : count_worker (c :: sched) = ((if c then 0 else 1) + count_worker sched)%nat.
Proof. unfold count_worker. cbn [filter]. destruct c; cbn; reflexivity. Qed.

Lemma join_progress qmax fail_at : forall sched st,
  c_pc st = CJoin -> c_exit st = true -> c_opened st = false -> t_pc (c_base st) = PIdle ->
  (wsteps (c_base st) <= count_worker sched)%nat ->
  done (cl_run qmax fail_at (sched ++ [true]) st).
Proof.
  induction sched as [|c sched IH]; intros st Hp He Ho Hpc Hn; cbn [app cl_run fold_left].
  - assert (Hd : t_status (c_base st) = WDead) by (apply wsteps_dead; cbn in Hn; lia).
    unfold cl_step, caller_step_c. rewrite Hp, (proj2 (is_dead_iff _) Hd), Ho. apply done_joined; assumption.
  - fold (cl_run qmax fail_at (sched ++ [true]) (cl_step qmax fail_at st c)).
    rewrite count_worker_cons in Hn. destruct c.
    + (* caller: joins if the thread is gone, is blocked otherwise *)
      unfold cl_step, caller_step_c. rewrite Hp. destruct (is_dead (c_base st)) eqn:Ed; [|apply IH; auto].
      apply done_run. rewrite Ho. apply done_joined; [apply is_dead_iff; exact Ed|exact Hpc].
    + unfold cl_step. destruct (t_status (c_base st)) eqn:Es.
      1-3: destruct (worker_step_c_dec fail_at st He ltac:(rewrite Es; discriminate)) as (b' & -> & Hlt & G);
        apply IH; cbn; try assumption; try congruence; lia.
      unfold worker_step_c. rewrite He, Es, (worker_step_dead fail_at _ Es). apply IH; auto.
      unfold wsteps. rewrite Es. lia.
Qed.

Lemma close_no_deadlock qmax fail_at : forall st rest sched,
  c_pc st = CNone -> t_pc (c_base st) = PIdle -> c_prog st = CClose :: rest -> c_opened st = true ->
  (wsteps (c_base st) <= count_worker sched)%nat ->
  let st' := cl_run qmax fail_at (true :: sched ++ [true]) st in
  closed_st st' /\ In CClosedOk (c_outs st') /\ worker_step_c fail_at st' = None.
Proof.
  intros st rest sched Hp Hpc Hprog Ho Hn. cbn zeta.
  assert (Hdone : done (cl_run qmax fail_at (true :: sched ++ [true]) st)).
  { change (cl_run qmax fail_at (true :: sched ++ [true]) st)
      with (cl_run qmax fail_at (sched ++ [true]) (cl_step qmax fail_at st true)).
    unfold cl_step at 1, caller_step_c. rewrite Hp, Hpc, Hprog, Ho. cbn [negb].
    destruct (is_dead (c_base st)) eqn:Ed.
    - apply done_run, done_joined; [apply is_dead_iff; exact Ed|exact Hpc].
    - apply join_progress; cbn; auto. }
  destruct Hdone as [Hc Hin]. split; [exact Hc|]. split; [exact Hin|apply closed_worker; exact Hc].
Qed.
