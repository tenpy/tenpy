(* C17 - proofs about Model/Heap.v: totality of the memoised copy.  A late node (the loader: tuples are
   memoised after their children) can be entered again while it is being copied (it is not in the memo yet), so the
   recursion depth is not bounded by the number of nodes.  When no late node lies on a reference cycle of late nodes
   only, it is bounded: on the stack of active visits every early node occurs once (it is in the memo), and between two
   early nodes the late nodes form a path of late steps, which cannot repeat a node.  With K a bound on the length of
   such a path the measure is (unvisited nodes) * (K+1) + (K - length of the current late path): K = nodes in general
   (fuel (nodes+1)^2), K = 1 when the children of late nodes are early, K = 0 without late nodes (saving). *)
From TenpyV Require Import Base.Prelude Base.Lists Model.Heap Proofs.HeapP.

Lemma nodup_bounded_length (n : nat) (P : list nat) : NoDup P -> (forall p, In p P -> p < n) -> length P <= n.
Proof.
  intros ND Hlt. rewrite <- (seq_length n 0). apply NoDup_incl_length; [exact ND|].
  intros p Hp. apply in_seq. specialize (Hlt p Hp). lia.
Qed.

Fixpoint unvisited (N : nat) (m : nat -> option nat) : nat :=
  match N with
  | 0 => 0
  | S n => (match m n with None => 1 | Some _ => 0 end) + unvisited n m
  end.

Lemma unvisited_le N m : unvisited N m <= N.
Proof. induction N as [|n IH]; cbn [unvisited]; [lia|]. destruct (m n); lia. Qed.

Lemma unvisited_mono N (m m' : nat -> option nat) : (forall c c', m c = Some c' -> m' c = Some c') ->
  unvisited N m' <= unvisited N m.
Proof.
  intros E. induction N as [|n IH]; cbn [unvisited]; [lia|].
  destruct (m n) as [v|] eqn:L; [rewrite (E n v L)|destruct (m' n)]; lia.
Qed.

Lemma unvisited_alloc N st x v : x < N -> mmap st x = None ->
  unvisited N (mmap (alloc st x v)) < unvisited N (mmap st).
Proof.
  intros Hx L. induction N as [|n IH]; [lia|]. cbn [unvisited].
  destruct (Nat.eq_dec x n) as [->|E].
  - rewrite alloc_lookup, L. pose proof (unvisited_mono n _ _ (alloc_ext st n v L)). lia.
  - rewrite (alloc_lookup_other st x v n) by congruence. assert (IH' := IH ltac:(lia)). lia.
Qed.

Definition unvisited_below (N : nat) (st0 st : state) : Prop := memo_bij st /\ unvisited N (mmap st) <= unvisited N (mmap st0).

Lemma visit_below late h f N st0 c st st1 c1 :
  unvisited_below N st0 st -> visit late h f c st = Some (st1, c1) -> unvisited_below N st0 st1.
Proof.
  intros [W U] V. destruct (visit_ok late h f c st st1 c1 W V) as [(W1 & E & _) _].
  split; [exact W1|]. pose proof (unvisited_mono N _ _ E). lia.
Qed.

Lemma visit_list_total f (Q : state -> Prop) cs :
  (forall c st st1 c1, Q st -> f c st = Some (st1, c1) -> Q st1) ->
  (forall c st, In c cs -> Q st -> exists st1 c1, f c st = Some (st1, c1)) ->
  forall st, Q st -> exists st1 cs', visit_list f cs st = Some (st1, cs').
Proof.
  intros Hinv. induction cs as [|c t IH]; intros Hf st HQ; cbn [visit_list]; [eauto|].
  destruct (Hf c st (or_introl eq_refl) HQ) as (st1 & c1 & V1). rewrite V1.
  destruct (IH (fun c0 st0 Hc0 => Hf c0 st0 (or_intror Hc0)) st1 (Hinv _ _ _ _ HQ V1)) as (st2 & t' & V2).
  rewrite V2. eauto.
Qed.

Section Total.
  Variable late : node -> bool.
  Variable h : heap.
  Hypothesis Hclosed : closed h.
  Hypothesis Hacyc : no_late_cycle late h.
  (* K bounds the number of distinct nodes on a path of late steps that ends in a late node *)
  Variable K : nat.
  Hypothesis HK : forall x nd P, nth_error h x = Some nd -> late nd = true -> NoDup (x :: P) ->
    (forall p, In p P -> p < length h /\ late_reach late h p x) -> S (length P) <= K.

  (* P: the late nodes entered since the last early one, each with a path of late steps to x *)
  Definition fuel_suffices (fuel : nat) : Prop := forall x st P, memo_bij st -> x < length h -> NoDup P ->
    (forall p, In p P -> p < length h /\ late_reach late h p x) ->
    unvisited (length h) (mmap st) * S K + (K - length P) + 1 <= fuel ->
    exists st' x', visit late h fuel x st = Some (st', x').

  Lemma children_total f x nd st P : fuel_suffices f -> nth_error h x = Some nd -> memo_bij st -> NoDup P ->
    (forall c p, In c (children nd) -> In p P -> p < length h /\ late_reach late h p c) ->
    unvisited (length h) (mmap st) * S K + (K - length P) + 1 <= f ->
    exists st1 cs', visit_list (visit late h f) (children nd) st = Some (st1, cs').
  Proof.
    intros Hf Hn W ND HP Hfuel. pose proof (Hclosed x nd Hn) as Hcs. rewrite Forall_forall in Hcs.
    apply (visit_list_total (visit late h f) (unvisited_below (length h) st) (children nd) (visit_below late h f _ _)).
    - intros c st0 Hin [W0 U0]. apply (Hf c st0 P W0 (Hcs c Hin) ND (fun p => HP c p Hin)).
      pose proof (Nat.mul_le_mono_r _ _ (S K) U0). lia.
    - split; [exact W|apply le_n].
  Qed.

  Lemma visit_total_gen : forall fuel, fuel_suffices fuel.
  Proof.
    induction fuel as [|f IH]; intros x st P W Hx ND HP Hfuel; [lia|].
    cbn [visit]. destruct (lookup x (st_memo st)) as [v|] eqn:L; [eauto|].
    destruct (nth_error h x) as [nd|] eqn:Hn; [|apply nth_error_None in Hn; lia].
    destruct (late nd) eqn:Hl.
    - (* late: x joins the current late path, the memo is as it was *)
      assert (ND' : NoDup (x :: P)).
      { constructor; [|exact ND]. intros Hin. exact (Hacyc x (proj2 (HP x Hin))). }
      pose proof (HK x nd P Hn Hl ND' HP) as Hlen.
      destruct (children_total f x nd st (x :: P) IH Hn W ND') as (st1 & cs' & V).
      + intros c p Hin [<-|Hp].
        * split; [exact Hx|]. apply lr_step. exists nd. auto.
        * destruct (HP p Hp) as [Hplt Hpr]. split; [exact Hplt|]. apply (lr_trans _ _ _ _ _ Hpr). exists nd. auto.
      + cbn [length]. lia.
      + rewrite V. destruct (lookup x (st_memo st1)); eauto.
    - (* early: x enters the memo, a new late path starts below it *)
      pose proof (unvisited_alloc (length h) st x nd Hx L) as Hu. apply Nat.mul_le_mono_r with (p := S K) in Hu.
      destruct (children_total f x nd (alloc st x nd) [] IH Hn (memo_bij_alloc st x nd W L) (NoDup_nil _)) as (st1 & cs' & V).
      + intros c p _ [].
      + cbn [length]. lia.
      + unfold alloc in V. rewrite V. eauto.
  Qed.

  Lemma copy_total_K r fuel : r < length h -> S (length h) * S K <= fuel ->
    exists h1 r1, copy late fuel h r = Some (h1, r1).
  Proof.
    intros Hr Hfuel. unfold copy.
    destruct (visit_total_gen fuel r (mkState [] []) [] memo_bij_init Hr (NoDup_nil _)) as (st & r1 & V).
    { intros p []. }
    { cbn [length]. pose proof (unvisited_le (length h) (mmap (mkState [] []))) as HU.
      pose proof (Nat.mul_le_mono_r _ _ (S K) HU). lia. }
    rewrite V. eauto.
  Qed.
End Total.

Lemma copy_total late h fuel : closed h -> no_late_cycle late h -> S (length h) * S (length h) <= fuel ->
  forall r, r < length h -> exists h1 r1, copy late fuel h r = Some (h1, r1).
Proof.
  intros Hc Ha Hfuel r Hr. apply (copy_total_K late h Hc Ha (length h)); [|exact Hr|exact Hfuel].
  intros x nd P Hn Hl ND HP. change (length (x :: P) <= length h). apply nodup_bounded_length; [exact ND|].
  intros p [<-|Hp]; [exact (nth_error_some_lt _ _ _ Hn)|apply HP, Hp].
Qed.

Lemma never_no_late_cycle h : no_late_cycle never h.
Proof. intros x Hr. destruct (late_reach_source never h x x Hr) as [nd [_ Hl]]. discriminate. Qed.

Lemma save_total h r : closed h -> r < length h -> exists h1 r1, save (S (length h)) h r = Some (h1, r1).
Proof.
  intros Hc Hr. unfold save. apply (copy_total_K never h Hc (never_no_late_cycle h) 0); [|exact Hr|lia].
  intros x nd P _ Hl. discriminate.
Qed.

Lemma ranked_no_late_cycle late h (rk : nat -> nat) :
  (forall x c nd', late_step late h x c -> nth_error h c = Some nd' -> late nd' = true -> rk c < rk x) ->
  no_late_cycle late h.
Proof.
  intros Hrk.
  assert (H : forall x c, late_reach late h x c ->
              forall nd', nth_error h c = Some nd' -> late nd' = true -> rk c < rk x).
  { induction 1 as [x c Hs|x y c Hr IH Hs]; intros nd' Hn Hl.
    - eapply Hrk; eassumption.
    - pose proof (Hrk y c nd' Hs Hn Hl) as H1. destruct Hs as [ndy [Hy [Hly Hin]]].
      pose proof (IH ndy Hy Hly). lia. }
  intros x Hr. destruct (late_reach_source late h x x Hr) as [nd [Hn Hl]].
  specialize (H x x Hr nd Hn Hl). lia.
Qed.

Lemma flat_no_late_cycle late h : late_flat late h -> no_late_cycle late h.
Proof.
  intros Hf. apply (ranked_no_late_cycle late h (fun _ => 0)).
  intros x c nd' Hs Hn Hl. rewrite (Hf x c nd' Hs Hn) in Hl. discriminate.
Qed.

Lemma flat_reach_target late h p x : late_flat late h -> late_reach late h p x ->
  forall nd, nth_error h x = Some nd -> late nd = false.
Proof. intros Hf Hr nd Hn. destruct Hr as [y c Hs|y z c _ Hs]; exact (Hf _ _ nd Hs Hn). Qed.

Lemma copy_total_flat late h fuel : closed h -> late_flat late h -> 2 * length h + 2 <= fuel ->
  forall r, r < length h -> exists h1 r1, copy late fuel h r = Some (h1, r1).
Proof.
  intros Hc Hf Hfuel r Hr. apply (copy_total_K late h Hc (flat_no_late_cycle late h Hf) 1); [|exact Hr|lia].
  intros x nd P Hn Hl _ HP. destruct P as [|p P]; [cbn [length]; lia|].
  destruct (HP p (or_introl eq_refl)) as [_ Hreach].
  rewrite (flat_reach_target late h p x Hf Hreach nd Hn) in Hl. discriminate.
Qed.

Lemma load_total h r : closed h -> no_late_cycle is_tuple h -> r < length h ->
  exists h1 r1, load (S (length h) * S (length h)) h r = Some (h1, r1).
Proof. intros Hc Ha Hr. unfold load. apply copy_total; [exact Hc|exact Ha|apply le_n|exact Hr]. Qed.

Lemma load_total_flat h r : closed h -> late_flat is_tuple h -> r < length h ->
  exists h1 r1, load (S (length h) * S (length h)) h r = Some (h1, r1).
Proof. intros Hc Hf Hr. apply load_total; [exact Hc|apply flat_no_late_cycle, Hf|exact Hr]. Qed.

Lemma roundtrip_total_from_load h r f2 : closed h -> r < length h ->
  (forall m1 h1 r1, iso m1 h r h1 r1 -> closed h1 -> r1 < length h1 -> length h1 <= length h ->
     exists h2 r2, load f2 h1 r1 = Some (h2, r2)) ->
  exists h2 r2 m, roundtrip (S (length h)) f2 h r = Some (h2, r2) /\ iso m h r h2 r2.
Proof.
  intros Hc Hr Hload.
  destruct (save_total h r Hc Hr) as (h1 & r1 & S1).
  destruct (copy_iso _ _ _ _ _ _ S1) as [m1 I1].
  destruct (Hload m1 h1 r1 I1 (iso_closed _ _ _ _ _ I1) (iso_root_lt _ _ _ _ _ I1) (iso_length_le _ _ _ _ _ I1))
    as (h2 & r2 & L).
  assert (RT : roundtrip (S (length h)) f2 h r = Some (h2, r2)).
  { unfold roundtrip. rewrite S1. exact L. }
  destruct (roundtrip_iso _ _ _ _ _ _ RT) as [m Im].
  exists h2, r2, m. split; assumption.
Qed.

Lemma closed_sound h : forallb (fun n => forallb (fun c => c <? length h) (children n)) h = true -> closed h.
Proof.
  intros H x n Hn. rewrite forallb_forall in H. specialize (H n (nth_error_In _ _ Hn)).
  rewrite forallb_forall in H. apply Forall_forall. intros c Hc. apply Nat.ltb_lt, H, Hc.
Qed.

Definition late_at (late : node -> bool) (h : heap) (c : nat) : bool :=
  match nth_error h c with Some nd => late nd | None => false end.

Definition late_steps_ok (late : node -> bool) (h : heap) (ok : nat -> nat -> bool) : bool :=
  forallb (fun x => match nth_error h x with
                    | Some nd => negb (late nd) || forallb (fun c => negb (late_at late h c) || ok x c) (children nd)
                    | None => true
                    end) (seq 0 (length h)).

Lemma late_steps_ok_sound late h ok : late_steps_ok late h ok = true ->
  forall x c nd', late_step late h x c -> nth_error h c = Some nd' -> late nd' = true -> ok x c = true.
Proof.
  intros H x c nd' [nd [Hn [Hl Hin]]] Hc Hlc. unfold late_steps_ok in H. rewrite forallb_forall in H.
  assert (Hx : In x (seq 0 (length h))).
  { apply in_seq. pose proof (nth_error_some_lt _ _ _ Hn). lia. }
  specialize (H x Hx). rewrite Hn, Hl in H. cbn [negb orb] in H. rewrite forallb_forall in H.
  specialize (H c Hin). unfold late_at in H. rewrite Hc, Hlc in H. exact H.
Qed.

Lemma ranked_sound late h (rk : nat -> nat) :
  late_steps_ok late h (fun x c => rk c <? rk x) = true -> no_late_cycle late h.
Proof.
  intros H. apply (ranked_no_late_cycle late h rk). intros x c nd' Hs Hc Hlc.
  apply Nat.ltb_lt. exact (late_steps_ok_sound late h _ H x c nd' Hs Hc Hlc).
Qed.

Lemma late_flat_sound late h : late_steps_ok late h (fun _ _ => false) = true -> late_flat late h.
Proof.
  intros H x c nd' Hs Hc. destruct (late nd') eqn:Hlc; [|reflexivity].
  symmetry. exact (late_steps_ok_sound late h _ H x c nd' Hs Hc Hlc).
Qed.

Definition ex_reentry : heap :=
  [NTuple [1]; NTuple [2; 3]; NList [0]; NList [0; 4]; Leaf 7%Z].

Lemma ex_reentry_ok :
  closed ex_reentry /\ no_late_cycle is_tuple ex_reentry /\ ~ late_flat is_tuple ex_reentry /\
  load (S (length ex_reentry)) ex_reentry 0 = None /\
  exists h1, load (S (length ex_reentry) * S (length ex_reentry)) ex_reentry 0 = Some (h1, 3) /\
             canon h1 3 = canon ex_reentry 0.
Proof.
  split; [|split; [|split; [|split]]].
  - apply closed_sound. reflexivity.
  - apply (ranked_sound is_tuple ex_reentry (fun x => 5 - x)). reflexivity.
  - intros Hf. specialize (Hf 0 1 (NTuple [2; 3])). cbn in Hf.
    assert (H : true = false); [apply Hf; [|reflexivity]|discriminate].
    exists (NTuple [1]). cbn. auto.
  - vm_compute. reflexivity.
  - vm_compute. eexists. split; reflexivity.
Qed.

(* T0 = (T1,), T1 = (T2,), T2 = (L3, L4, L5), Li = [T0]: loading from T0 needs depth 15 > 2 * 6 + 2 *)
Definition ex_deep : heap := [NTuple [1]; NTuple [2]; NTuple [3; 4; 5]; NList [0]; NList [0]; NList [0]].

Lemma ex_deep_ok :
  closed ex_deep /\ no_late_cycle is_tuple ex_deep /\
  load (2 * length ex_deep + 2) ex_deep 0 = None /\
  exists h1 r1, load (S (length ex_deep) * S (length ex_deep)) ex_deep 0 = Some (h1, r1).
Proof.
  split; [|split; [|split]].
  - apply closed_sound. reflexivity.
  - apply (ranked_sound is_tuple ex_deep (fun x => 6 - x)). reflexivity.
  - vm_compute. reflexivity.
  - vm_compute. eexists. eexists. reflexivity.
Qed.
