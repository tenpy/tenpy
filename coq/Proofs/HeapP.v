(* C17, Model/Heap.v: the memo of the depth-first copy, read as a partial map, stays injective and onto the output, and
   at the end it is the isomorphism (sharing and cycles included); isomorphisms compose (save then load). *)
From TenpyV Require Import Base.Prelude Base.Lists Model.Heap.

Lemma set_nth_length l i v : length (set_nth l i v) = length l.
Proof. revert i. induction l as [|a l IH]; intros [|i]; cbn; try reflexivity. rewrite IH. reflexivity. Qed.

Lemma set_nth_same l i v : i < length l -> nth_error (set_nth l i v) i = Some v.
Proof.
  revert i. induction l as [|a l IH]; intros [|i]; cbn; intros H; try lia; [reflexivity|].
  apply IH. lia.
Qed.

Lemma set_nth_other l i j v : j <> i -> nth_error (set_nth l i v) j = nth_error l j.
Proof.
  revert i j. induction l as [|a l IH]; intros [|i] [|j]; cbn; intros H; try reflexivity; try congruence.
  apply IH. congruence.
Qed.

Definition mmap (st : state) (x : nat) : option nat := lookup x (st_memo st).

(* the second clause makes `length (st_out st)` an id that no entry of the memo points to: the next cell to allocate *)
Definition memo_bij (st : state) : Prop :=
  (forall x y v, mmap st x = Some v -> mmap st y = Some v -> x = y) /\
  (forall i, i < length (st_out st) <-> exists x, mmap st x = Some i).

Definition memo_ext (st st' : state) : Prop :=
  forall c c', mmap st c = Some c' -> mmap st' c = Some c'.

Lemma rel_ids_ext st st' cs cs' : memo_ext st st' -> rel_ids (mmap st) cs cs' -> rel_ids (mmap st') cs cs'.
Proof. intros E F. induction F as [|c c' cs cs' H _ IH]; constructor; [exact (E c c' H)|exact IH]. Qed.

Lemma memo_bij_init : memo_bij (mkState [] []).
Proof. split; [discriminate|]. intros i. cbn. split; [lia|intros [x H]; discriminate]. Qed.

(* Model/Heap.v:visit writes this record out at its two allocations (a late node after its children, an early one before
   them); visit_ok and HeapP2.visit_total_gen meet it there by conversion *)
Definition alloc (st : state) (x : nat) (v : node) : state :=
  mkState ((x, length (st_out st)) :: st_memo st) (st_out st ++ [v]).

Lemma alloc_lookup st x v : mmap (alloc st x v) x = Some (length (st_out st)).
Proof. cbn. rewrite Nat.eqb_refl. reflexivity. Qed.

Lemma alloc_lookup_other st x v y : y <> x -> mmap (alloc st x v) y = mmap st y.
Proof. intros H. cbn. destruct (Nat.eqb x y) eqn:E; [apply Nat.eqb_eq in E; congruence|reflexivity]. Qed.

Lemma alloc_ext st x v : mmap st x = None -> memo_ext st (alloc st x v).
Proof. intros L c c' H. rewrite alloc_lookup_other; [exact H|]. intros ->. congruence. Qed.

Lemma alloc_lookup_inv st x v y w : mmap (alloc st x v) y = Some w ->
  (y = x /\ w = length (st_out st)) \/ (y <> x /\ mmap st y = Some w).
Proof.
  destruct (Nat.eq_dec y x) as [->|N]; [rewrite alloc_lookup|rewrite alloc_lookup_other by exact N]; intros H.
  - left. inversion H. auto.
  - right. auto.
Qed.

Lemma memo_bij_alloc st x v : memo_bij st -> mmap st x = None -> memo_bij (alloc st x v).
Proof.
  intros [Inj Onto] L.
  assert (Hnew : forall y, mmap st y <> Some (length (st_out st))).
  { intros y H. assert (K : length (st_out st) < length (st_out st)) by (apply Onto; eauto). lia. }
  split.
  - intros a b w Ha Hb. apply alloc_lookup_inv in Ha, Hb.
    destruct Ha as [[-> ->]|[Na Ha]], Hb as [[-> Hw]|[Nb Hb]].
    + reflexivity.
    + destruct (Hnew b Hb).
    + subst w. destruct (Hnew a Ha).
    + exact (Inj a b w Ha Hb).
  - intros i. cbn [alloc st_out]. rewrite app_length. cbn [length]. split.
    + intros Hi. destruct (Nat.eq_dec i (length (st_out st))) as [->|Ni]; [exists x; apply alloc_lookup|].
      destruct (proj1 (Onto i) ltac:(lia)) as [y Hy]. exists y. exact (alloc_ext st x v L y i Hy).
    + intros [y Hy]. apply alloc_lookup_inv in Hy. destruct Hy as [[_ ->]|[_ Hy]]; [lia|].
      assert (i < length (st_out st)) by (apply Onto; eauto). lia.
Qed.

Section Spec.
  Variable late : node -> bool.
  Variable h : heap.

  Definition copied (st' : state) (y y' : nat) : Prop :=
    exists n cs', nth_error h y = Some n /\
      nth_error (st_out st') y' = Some (with_children n cs') /\
      rel_ids (mmap st') (children n) cs'.

  (* the entries a visit adds to the memo are complete when it returns *)
  Definition step_ok (st st' : state) : Prop :=
    memo_bij st' /\ memo_ext st st' /\
    length (st_out st) <= length (st_out st') /\
    (forall i, i < length (st_out st) -> nth_error (st_out st') i = nth_error (st_out st) i) /\
    (forall y y', mmap st' y = Some y' -> mmap st y = None -> copied st' y y').

  Lemma step_ok_refl st : memo_bij st -> step_ok st st.
  Proof.
    intros W. split; [exact W|]. split; [intros c c' H; exact H|]. split; [lia|]. split; [reflexivity|].
    intros y y' A B. rewrite A in B. discriminate.
  Qed.

  Lemma copied_ext st1 st2 y y1 : copied st1 y y1 -> step_ok st1 st2 -> copied st2 y y1.
  Proof.
    intros (n & cs' & Hn & Ho & F) (_ & E & _ & Hold & _).
    exists n, cs'. split; [exact Hn|]. split.
    - rewrite (Hold y1 (nth_error_some_lt _ _ _ Ho)). exact Ho.
    - exact (rel_ids_ext _ _ _ _ E F).
  Qed.

  Lemma step_ok_trans st st1 st2 : step_ok st st1 -> step_ok st1 st2 -> step_ok st st2.
  Proof.
    intros (W1 & E1 & L1 & O1 & N1) S2. pose proof S2 as (W2 & E2 & L2 & O2 & N2).
    split; [exact W2|]. split; [intros c c' H; exact (E2 c c' (E1 c c' H))|].
    split; [lia|]. split.
    - intros i Hi. rewrite O2 by lia. apply O1. exact Hi.
    - intros y y' Hy Hnone. destruct (mmap st1 y) as [y1|] eqn:L.
      + rewrite (E2 y y1 L) in Hy. inversion Hy; subst y'.
        exact (copied_ext _ _ _ _ (N1 y y1 L Hnone) S2).
      + exact (N2 y y' Hy L).
  Qed.

  Definition visit_spec (f : nat -> state -> option (state * nat)) : Prop :=
    forall x st st' x', memo_bij st -> f x st = Some (st', x') ->
      step_ok st st' /\ mmap st' x = Some x'.

  Lemma visit_list_ok f : visit_spec f -> forall cs st st' cs', memo_bij st ->
    visit_list f cs st = Some (st', cs') ->
    step_ok st st' /\ rel_ids (mmap st') cs cs'.
  Proof.
    intros Hf. induction cs as [|c t IH]; intros st st' cs' W H; cbn in H.
    - inversion H; subst. split; [apply step_ok_refl; exact W|constructor].
    - destruct (f c st) as [[st1 c1]|] eqn:F; [|discriminate].
      destruct (visit_list f t st1) as [[st2 t']|] eqn:V; [|discriminate].
      inversion H; subst. destruct (Hf _ _ _ _ W F) as [S1 L1].
      destruct (IH _ _ _ (proj1 S1) V) as [S2 F2].
      split; [eapply step_ok_trans; eassumption|].
      constructor; [|exact F2]. destruct S2 as (_ & E2 & _). exact (E2 c c1 L1).
  Qed.

  Lemma alloc_late_ok st1 x nd cs' : memo_bij st1 -> mmap st1 x = None ->
    nth_error h x = Some nd ->
    rel_ids (mmap st1) (children nd) cs' ->
    step_ok st1 (alloc st1 x (with_children nd cs')).
  Proof.
    intros W L Hn F. pose proof (alloc_ext st1 x (with_children nd cs') L) as E.
    split; [exact (memo_bij_alloc _ _ _ W L)|]. split; [exact E|]. cbn [alloc st_out].
    split; [rewrite app_length; lia|]. split.
    - intros i Hi. apply nth_error_app1. exact Hi.
    - intros y y' Hy Hnone. apply alloc_lookup_inv in Hy.
      destruct Hy as [[-> ->]|[_ Hy]]; [|rewrite Hy in Hnone; discriminate].
      exists nd, cs'. split; [exact Hn|]. split; [|exact (rel_ids_ext _ _ _ _ E F)].
      cbn. rewrite nth_error_app2, Nat.sub_diag by lia. reflexivity.
  Qed.

  (* an early node: allocated (with a placeholder) before its children, completed afterwards; the entries made
     meanwhile stand at other places, the memo being injective *)
  Lemma finish_early_ok st x nd st1 cs' : mmap st x = None ->
    nth_error h x = Some nd ->
    step_ok (alloc st x nd) st1 ->
    rel_ids (mmap st1) (children nd) cs' ->
    step_ok st (mkState (st_memo st1) (set_nth (st_out st1) (length (st_out st)) (with_children nd cs'))) /\
    mmap st1 x = Some (length (st_out st)).
  Proof.
    intros L Hn (W1 & E1 & L1 & O1 & N1) F.
    pose proof (E1 _ _ (alloc_lookup st x nd)) as Lx.
    split; [|exact Lx].
    cbn in L1, O1. rewrite app_length in L1, O1. cbn in L1, O1.
    split.
    { split; [exact (proj1 W1)|]. cbn. intros i. rewrite set_nth_length. apply (proj2 W1). }
    split.
    { intros c c' H. exact (E1 c c' (alloc_ext st x nd L c c' H)). }
    cbn [st_out]. rewrite set_nth_length. split; [lia|]. split.
    - intros i Hi. rewrite set_nth_other by lia. rewrite O1 by lia. apply nth_error_app1. exact Hi.
    - intros y y' Hy Hnone. change (mmap st1 y = Some y') in Hy. destruct (Nat.eq_dec y x) as [->|Hne].
      + rewrite Lx in Hy. inversion Hy; subst y'.
        exists nd, cs'. split; [exact Hn|]. split; [|exact F].
        cbn. apply set_nth_same. lia.
      + rewrite <- (alloc_lookup_other st x nd y Hne) in Hnone.
        destruct (N1 y y' Hy Hnone) as (n0 & cs0 & A & B & C).
        exists n0, cs0. split; [exact A|]. split; [|exact C].
        cbn. rewrite set_nth_other; [exact B|]. intros ->. exact (Hne (proj1 W1 _ _ _ Hy Lx)).
  Qed.

  Lemma visit_ok : forall fuel, visit_spec (visit late h fuel).
  Proof.
    induction fuel as [|f IH]; intros x st st' x' W H.
    - cbn in H. destruct (lookup x (st_memo st)) eqn:L; [|discriminate].
      inversion H; subst. split; [apply step_ok_refl; exact W|exact L].
    - cbn [visit] in H. destruct (lookup x (st_memo st)) as [v|] eqn:L.
      { inversion H; subst. split; [apply step_ok_refl; exact W|exact L]. }
      destruct (nth_error h x) as [nd|] eqn:Hn; [|discriminate].
      destruct (late nd) eqn:Hl.
      + destruct (visit_list (visit late h f) (children nd) st) as [[st1 cs']|] eqn:V; [|discriminate].
        destruct (visit_list_ok _ IH _ _ _ _ W V) as [S1 F1].
        destruct (lookup x (st_memo st1)) as [v|] eqn:L1.
        * inversion H; subst. split; assumption.
        * inversion H; subst. clear H.
          split; [|apply alloc_lookup]. eapply step_ok_trans; [exact S1|].
          exact (alloc_late_ok st1 x nd cs' (proj1 S1) L1 Hn F1).
      + match type of H with context [visit_list ?f ?cs ?s] =>
          destruct (visit_list f cs s) as [[st1 cs']|] eqn:V; [|discriminate] end.
        inversion H; subst. clear H.
        assert (W0 := memo_bij_alloc st x nd W L).
        destruct (visit_list_ok _ IH _ _ _ _ W0 V) as [S1 F1].
        exact (finish_early_ok st x nd st1 cs' L Hn S1 F1).
  Qed.
End Spec.

Lemma with_children_rel m n cs' : rel_ids m (children n) cs' -> node_rel m n (with_children n cs').
Proof.
  destruct n as [v|cs|cs|cs|kvs|c ats]; cbn; unfold rel_ids; intros H.
  - reflexivity.
  - exact H.
  - exact H.
  - exact H.
  - apply Forall2_app_inv_l in H. destruct H as (l1 & l2 & H1 & H2 & ->).
    assert (E1 : length l1 = length kvs).
    { apply Forall2_length in H1. rewrite map_length in H1. auto. }
    assert (E2 : length l2 = length kvs).
    { apply Forall2_length in H2. rewrite map_length in H2. auto. }
    rewrite <- E1. rewrite firstn_app_len, skipn_app_len.
    rewrite map_fst_combine, map_snd_combine by lia. split; assumption.
  - assert (E : length cs' = length ats).
    { apply Forall2_length in H. rewrite map_length in H. auto. }
    split; [reflexivity|]. split.
    + rewrite map_fst_combine; [reflexivity|rewrite map_length; lia].
    + rewrite map_snd_combine; [exact H|rewrite map_length; lia].
Qed.

Lemma copy_iso late fuel h r h' r' :
  copy late fuel h r = Some (h', r') -> exists m, iso m h r h' r'.
Proof.
  unfold copy. destruct (visit late h fuel r (mkState [] [])) as [[st r1]|] eqn:V; [|discriminate].
  intros H. inversion H; subst. clear H.
  destruct (visit_ok late h fuel r _ _ _ memo_bij_init V) as [([Inj Onto] & _ & _ & _ & N) Lr].
  exists (mmap st). constructor.
  - exact Lr.
  - intros x x' Hx. destruct (N x x' Hx eq_refl) as (n & cs' & A & B & C).
    exists n, (with_children n cs'). split; [exact A|]. split; [exact B|].
    apply with_children_rel. exact C.
  - exact Inj.
  - intros i Hi. apply Onto, Hi.
Qed.

Definition opt_comp (m1 m2 : nat -> option nat) (x : nat) : option nat :=
  match m1 x with Some y => m2 y | None => None end.

Lemma rel_ids_comp m1 m2 a b c : rel_ids m1 a b -> rel_ids m2 b c -> rel_ids (opt_comp m1 m2) a c.
Proof.
  unfold rel_ids. intros H. revert c.
  induction H as [|x y a b Hxy _ IH]; intros c H2; inversion H2; subst; constructor.
  - unfold opt_comp. rewrite Hxy. assumption.
  - apply IH. assumption.
Qed.

Lemma node_rel_comp m1 m2 n n1 n2 :
  node_rel m1 n n1 -> node_rel m2 n1 n2 -> node_rel (opt_comp m1 m2) n n2.
Proof.
  destruct n, n1; cbn; try contradiction; destruct n2; cbn; try contradiction.
  - intros; congruence.
  - apply rel_ids_comp.
  - apply rel_ids_comp.
  - apply rel_ids_comp.
  - intros [A B] [C D]. split; eapply rel_ids_comp; eassumption.
  - intros (A & B & C) (D & E & F). split; [congruence|]. split; [congruence|].
    eapply rel_ids_comp; eassumption.
Qed.

Lemma iso_comp m1 m2 h r h1 r1 h2 r2 :
  iso m1 h r h1 r1 -> iso m2 h1 r1 h2 r2 -> iso (opt_comp m1 m2) h r h2 r2.
Proof.
  intros [R1 N1 I1 S1] [R2 N2 I2 S2]. constructor.
  - unfold opt_comp. rewrite R1. exact R2.
  - intros x x' H. unfold opt_comp in H. destruct (m1 x) as [y|] eqn:E; [|discriminate].
    destruct (N1 x y E) as (n & n1 & A & B & C).
    destruct (N2 y x' H) as (n1' & n2 & A' & B' & C').
    rewrite B in A'. inversion A'; subst n1'.
    exists n, n2. split; [exact A|]. split; [exact B'|]. eapply node_rel_comp; eassumption.
  - intros x y v Hx Hy. unfold opt_comp in Hx, Hy.
    destruct (m1 x) as [x1|] eqn:Ex; [|discriminate].
    destruct (m1 y) as [y1|] eqn:Ey; [|discriminate].
    assert (x1 = y1) by (eapply I2; eassumption). subst y1. eapply I1; eassumption.
  - intros i Hi. destruct (S2 i Hi) as [y Hy].
    destruct (N2 y i Hy) as (n1 & n2 & A & _ & _).
    destruct (S1 y (nth_error_some_lt _ _ _ A)) as [x Hx]. exists x. unfold opt_comp. rewrite Hx. exact Hy.
Qed.

Lemma roundtrip_iso f1 f2 h r h2 r2 :
  roundtrip f1 f2 h r = Some (h2, r2) -> exists m, iso m h r h2 r2.
Proof.
  unfold roundtrip, save, load. destruct (copy never f1 h r) as [[h1 r1]|] eqn:S; [|discriminate].
  intros L. destruct (copy_iso _ _ _ _ _ _ S) as [m1 I1]. destruct (copy_iso _ _ _ _ _ _ L) as [m2 I2].
  exists (opt_comp m1 m2). eapply iso_comp; eassumption.
Qed.

Lemma iso_identity m h r h' r' x y x' y' :
  iso m h r h' r' -> m x = Some x' -> m y = Some y' -> (x = y <-> x' = y').
Proof.
  intros [_ _ I _] Hx Hy. split.
  - intros ->. rewrite Hx in Hy. inversion Hy. reflexivity.
  - intros ->. eapply I; eassumption.
Qed.

Lemma late_reach_source late h x c : late_reach late h x c -> exists nd, nth_error h x = Some nd /\ late nd = true.
Proof.
  induction 1 as [x c Hs|x y c Hr IH Hs]; [|exact IH].
  destruct Hs as [nd [Hn [Hl _]]]. exists nd. split; assumption.
Qed.

Lemma node_rel_children m n n' : node_rel m n n' -> rel_ids m (children n) (children n').
Proof.
  destruct n, n'; cbn; try contradiction; unfold rel_ids; intros H; try exact H.
  - constructor.
  - destruct H as [A B]. apply Forall2_app; assumption.
  - destruct H as (_ & _ & C). exact C.
Qed.

Lemma node_rel_tuple m n n' : node_rel m n n' -> is_tuple n' = is_tuple n.
Proof. destruct n, n'; cbn; try contradiction; reflexivity. Qed.

Lemma rel_ids_in_r m cs cs' c' : rel_ids m cs cs' -> In c' cs' -> exists c, In c cs /\ m c = Some c'.
Proof.
  unfold rel_ids. induction 1 as [|c d cs cs' Hcd _ IH]; intros Hin; [contradiction|].
  destruct Hin as [<-|Hin].
  - exists c. split; [left; reflexivity|exact Hcd].
  - destruct (IH Hin) as [c0 [H1 H2]]. exists c0. split; [right; exact H1|exact H2].
Qed.

Section IsoTransport.
  Variables (m : nat -> option nat) (h : heap) (r : nat) (h' : heap) (r' : nat).
  Hypothesis I : iso m h r h' r'.

  Lemma iso_lt x x' : m x = Some x' -> x < length h /\ x' < length h'.
  Proof.
    intros Hx. destruct (iso_node _ _ _ _ _ I x x' Hx) as (n & n' & A & B & _).
    split; eapply nth_error_some_lt; eassumption.
  Qed.

  Lemma iso_root_lt : r' < length h'.
  Proof. exact (proj2 (iso_lt r r' (iso_root _ _ _ _ _ I))). Qed.

  Lemma iso_image x x' n' : m x = Some x' -> nth_error h' x' = Some n' ->
    exists n, nth_error h x = Some n /\ node_rel m n n'.
  Proof.
    intros Hx Hn'. destruct (iso_node _ _ _ _ _ I x x' Hx) as (n & n'' & A & B & C).
    rewrite Hn' in B. inversion B; subst n''. exists n. split; assumption.
  Qed.

  Lemma iso_preimage x' n' : nth_error h' x' = Some n' ->
    exists x n, m x = Some x' /\ nth_error h x = Some n /\ node_rel m n n'.
  Proof.
    intros Hn'. destruct (iso_surj _ _ _ _ _ I x' (nth_error_some_lt _ _ _ Hn')) as [x Hx].
    destruct (iso_image x x' n' Hx Hn') as (n & A & C). exists x, n. auto.
  Qed.

  Lemma iso_closed : closed h'.
  Proof.
    intros x' n' Hn'. destruct (iso_preimage x' n' Hn') as (x & n & _ & _ & C).
    apply node_rel_children in C. apply Forall_forall. intros c' Hc'.
    destruct (rel_ids_in_r _ _ _ _ C Hc') as [c [_ Hc]]. exact (proj2 (iso_lt c c' Hc)).
  Qed.

  (* the images of 0 .. length h - 1 cover 0 .. length h' - 1 *)
  Lemma iso_length_le : length h' <= length h.
  Proof.
    rewrite <- (seq_length (length h') 0), <- (seq_length (length h) 0).
    rewrite <- (map_length (fun x => match m x with Some i => i | None => 0 end) (seq 0 (length h))).
    apply NoDup_incl_length; [apply seq_NoDup|]. intros i Hi. apply in_seq in Hi.
    destruct (iso_surj _ _ _ _ _ I i) as [x Hx]; [lia|]. apply in_map_iff. exists x. rewrite Hx.
    split; [reflexivity|]. apply in_seq. pose proof (proj1 (iso_lt x i Hx)). lia.
  Qed.

  (* the rest holds of every choice of late nodes that related nodes agree on; is_tuple is one: node_rel_tuple *)
  Variable late : node -> bool.
  Hypothesis Hlate : forall n n', node_rel m n n' -> late n' = late n.

  Lemma iso_late_step x' c' : late_step late h' x' c' -> forall x, m x = Some x' ->
    exists c, m c = Some c' /\ late_step late h x c.
  Proof.
    intros [n' [Hn' [Hl Hin]]] x Hx. destruct (iso_image x x' n' Hx Hn') as (n & A & C).
    pose proof (Hlate _ _ C) as Ht. apply node_rel_children in C.
    destruct (rel_ids_in_r _ _ _ _ C Hin) as [c [Hcin Hmc]].
    exists c. split; [exact Hmc|]. exists n. split; [exact A|]. split; [congruence|exact Hcin].
  Qed.

  Lemma iso_late_reach x' y' : late_reach late h' x' y' -> forall x, m x = Some x' ->
    exists y, m y = Some y' /\ late_reach late h x y.
  Proof.
    induction 1 as [x' c' Hs|x' y' c' Hr IH Hs]; intros x Hx.
    - destruct (iso_late_step x' c' Hs x Hx) as [c [Hc Hsc]]. exists c. split; [exact Hc|apply lr_step, Hsc].
    - destruct (IH x Hx) as [y [Hy Hry]].
      destruct (iso_late_step y' c' Hs y Hy) as [c [Hc Hsc]].
      exists c. split; [exact Hc|]. eapply lr_trans; eassumption.
  Qed.

  Lemma iso_no_late_cycle : no_late_cycle late h -> no_late_cycle late h'.
  Proof.
    intros Ha x' Hr. destruct (late_reach_source _ _ _ _ Hr) as [n' [Hn' _]].
    destruct (iso_preimage x' n' Hn') as (x & _ & Hx & _).
    destruct (iso_late_reach x' x' Hr x Hx) as [y [Hy Hry]].
    rewrite (iso_inj _ _ _ _ _ I y x x' Hy Hx) in Hry. exact (Ha x Hry).
  Qed.

  Lemma iso_late_flat : late_flat late h -> late_flat late h'.
  Proof.
    intros Hf x' c' nd' Hs Hn'. pose proof Hs as [n' [Hx' _]].
    destruct (iso_preimage x' n' Hx') as (x & _ & Hx & _).
    destruct (iso_late_step x' c' Hs x Hx) as [c [Hc Hsc]].
    destruct (iso_image c c' nd' Hc Hn') as (nc & A & C).
    rewrite (Hlate _ _ C). exact (Hf x c nc Hsc A).
  Qed.
End IsoTransport.
