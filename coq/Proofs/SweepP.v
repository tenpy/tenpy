(* Property C13, energy clause: the Rayleigh-Ritz bound E0 <x|x> <= <x|H|x> for H = diag d and integer amplitudes x. *)
From TenpyV Require Import Base.Prelude Model.Sweep Proofs.SweepP2.

Lemma no_stale_bounded : forall L n, (n = 1 \/ n = 2)%nat -> (n < L <= 24)%nat -> no_stale L n 3 = true.
Proof. intros L n Hn HL. apply no_stale_all; [exact Hn|lia]. Qed.

Open Scope Z_scope.
Fixpoint e_num (d x : list Z) : Z :=
  match d, x with di :: d', xi :: x' => di * xi * xi + e_num d' x' | _, _ => 0 end.
Fixpoint e_den (d x : list Z) : Z :=
  match d, x with _ :: d', xi :: x' => xi * xi + e_den d' x' | _, _ => 0 end.
Lemma energy_variational_diag E0 d x : Forall (fun di => E0 <= di) d -> E0 * e_den d x <= e_num d x.
Proof.
  intros H. revert x. induction H as [|di d Hd _ IH]; intros x; [cbn; lia|].
  destruct x as [|xi x]; cbn [e_num e_den]; [lia|].
  specialize (IH x). assert (0 <= xi * xi) by nia. nia.
Qed.
