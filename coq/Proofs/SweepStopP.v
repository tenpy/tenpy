(* Property C13, chi lists and sweep counts (Model/SweepStop.v).  Invariant `inv`: the recorded sweeps are numbered
   0, 1, .. and each ran with `chi_of o` of its number; the chi_max in the state is that of the last sweep made, which is
   what a sweep without a key of its own runs with (one_sweep_chi).  default_min_sweeps >= max_key then gives the ramp
   theorem. *)
From TenpyV Require Import Base.Prelude Model.SweepStop.

Lemma chi_get_in : forall l k c, chi_get l k = Some c -> In k (map fst l).
Proof.
  intros l k c H. unfold chi_get in H.
  destruct (find (fun p => (fst p =? k)%nat) l) as [p|] eqn:E; [|discriminate].
  apply find_some in E. destruct E as [Hin Hk]. apply Nat.eqb_eq in Hk. subst k.
  apply in_map. exact Hin.
Qed.

Lemma max_key_ge : forall l k, In k (map fst l) -> (k <= max_key l)%nat.
Proof.
  induction l as [|p l IH]; intros k H; [destruct H|].
  cbn [map max_key fold_right] in *. destruct H as [H|H].
  - subst k. apply Nat.le_max_l.
  - specialize (IH k H). unfold max_key in IH. etransitivity; [exact IH|apply Nat.le_max_r].
Qed.

Lemma chi_get_above : forall l k, (max_key l < k)%nat -> chi_get l k = None.
Proof.
  intros l k H. destruct (chi_get l k) as [c|] eqn:E; [|reflexivity].
  apply chi_get_in in E. apply max_key_ge in E. lia.
Qed.

Lemma in_keys_get : forall l k, In k (map fst l) -> exists c, chi_get l k = Some c.
Proof.
  intros l k H. unfold chi_get.
  destruct (find (fun p => (fst p =? k)%nat) l) as [p|] eqn:E; [eexists; reflexivity|].
  exfalso. apply in_map_iff in H. destruct H as [p [Hp Hin]].
  pose proof (find_none _ _ E p Hin) as Hn. cbn in Hn. subst k. rewrite Nat.eqb_refl in Hn. discriminate.
Qed.

Lemma max_key_in : forall l, l <> [] -> In (max_key l) (map fst l).
Proof.
  induction l as [|p l IH]; intros H; [congruence|].
  cbn [map max_key fold_right]. fold (max_key l).
  destruct l as [|q l'].
  - left. cbn. lia.
  - assert (Hq : q :: l' <> []) by discriminate. specialize (IH Hq).
    destruct (Nat.max_spec (fst p) (max_key (q :: l'))) as [[_ E]|[_ E]]; rewrite E.
    + right. exact IH.
    + left. reflexivity.
Qed.

Lemma latest_hit : forall l chi0 s c, chi_get l s = Some c -> latest l chi0 s = Some c.
Proof. intros l chi0 s c H. destruct s; cbn [latest]; rewrite H; reflexivity. Qed.

Lemma latest_spec : forall l chi0 s,
  (exists k c, (k <= s)%nat /\ chi_get l k = Some c /\ latest l chi0 s = Some c /\
               forall k', (k < k' <= s)%nat -> chi_get l k' = None) \/
  (latest l chi0 s = chi0 /\ forall k', (k' <= s)%nat -> chi_get l k' = None).
Proof.
  intros l chi0. induction s as [|s IH]; cbn [latest].
  - destruct (chi_get l 0) as [c|] eqn:E.
    + left. exists 0%nat, c. repeat split; auto. intros k' Hk. lia.
    + right. split; auto. intros k' Hk. assert (k' = 0)%nat by lia. subst. exact E.
  - destruct (chi_get l (S s)) as [c|] eqn:E.
    + left. exists (S s), c. repeat split; auto. intros k' Hk. lia.
    + destruct IH as [[k [c [Hk [Hg [Hl Hn]]]]]|[Hl Hn]].
      * left. exists k, c. repeat split; auto. intros k' Hk'.
        destruct (Nat.eq_dec k' (S s)) as [->|Hne]; [exact E|]. apply Hn. lia.
      * right. split; auto. intros k' Hk'.
        destruct (Nat.eq_dec k' (S s)) as [->|Hne]; [exact E|]. apply Hn. lia.
Qed.

Lemma latest_above : forall l chi0 s, l <> [] -> (max_key l <= s)%nat -> latest l chi0 s = chi_get l (max_key l).
Proof.
  intros l chi0 s Hl. destruct (in_keys_get l _ (max_key_in l Hl)) as [c Hc]. rewrite Hc.
  induction s as [|s IH]; intros Hs.
  - apply latest_hit. replace 0%nat with (max_key l) by lia. exact Hc.
  - destruct (Nat.eq_dec (max_key l) (S s)) as [E|Hne]; [apply latest_hit; rewrite <- E; exact Hc|].
    cbn [latest]. rewrite chi_get_above by lia. apply IH. lia.
Qed.

Definition chi_of (o : sopts) (s : nat) : option nat :=
  match o_chis o with Some l => latest l (o_chi0 o) s | None => o_chi0 o end.

Definition inv (o : sopts) (st : sst) (acc : list sweep_rec) : Prop :=
  map rec_no acc = seq 0 (s_sweeps st) /\
  Forall (fun r => rec_chi r = chi_of o (rec_no r)) acc /\
  s_chi st = match s_sweeps st with O => o_chi0 o | S s => chi_of o s end.

Lemma one_sweep_chi : forall o st,
  s_chi st = match s_sweeps st with O => o_chi0 o | S s => chi_of o s end ->
  s_sweeps (fst (one_sweep o st)) = S (s_sweeps st) /\
  snd (one_sweep o st) = (s_sweeps st, chi_of o (s_sweeps st), snd (snd (one_sweep o st))) /\
  s_chi (fst (one_sweep o st)) = chi_of o (s_sweeps st).
Proof.
  intros o st Hc. unfold one_sweep, chi_of in *.
  destruct (o_chis o) as [l|]; cbn [fst snd s_sweeps s_chi].
  - destruct (chi_get l (s_sweeps st)) as [c|] eqn:E; cbn [fst snd].
    + rewrite (latest_hit l _ _ c E). repeat split; reflexivity.
    + assert (HL : latest l (o_chi0 o) (s_sweeps st) = s_chi st).
      { rewrite Hc. destruct (s_sweeps st) as [|s]; cbn [latest]; rewrite E; reflexivity. }
      rewrite HL. repeat split; reflexivity.
  - assert (HL : s_chi st = o_chi0 o) by (rewrite Hc; destruct (s_sweeps st); reflexivity).
    rewrite HL. repeat split; reflexivity.
Qed.

Lemma inv_one_sweep : forall o st acc, inv o st acc ->
  inv o (fst (one_sweep o st)) (acc ++ [snd (one_sweep o st)]).
Proof.
  intros o st acc [Hn [Hf Hc]].
  destruct (one_sweep_chi o st Hc) as [Hs [Hr Hc']].
  unfold inv. rewrite Hs. split; [|split].
  - rewrite map_app, Hn, seq_S. cbn [map]. rewrite Hr. reflexivity.
  - apply Forall_app. split; [exact Hf|]. constructor; [|constructor].
    rewrite Hr. reflexivity.
  - exact Hc'.
Qed.

Lemma inv_sweeps_n : forall o n st acc, inv o st acc ->
  inv o (fst (sweeps_n o n st)) (acc ++ snd (sweeps_n o n st)).
Proof.
  intros o. induction n as [|n IH]; intros st acc H; cbn [sweeps_n fst snd].
  - rewrite app_nil_r. exact H.
  - apply inv_one_sweep in H. apply IH in H.
    rewrite <- app_assoc in H. exact H.
Qed.

Lemma inv_init : forall o, inv o (init_sst o) [].
Proof. intros o. unfold inv, init_sst. cbn. auto. Qed.

Lemma run_loop_inv : forall o fuel st convs acc reason st' recs rest,
  inv o st acc ->
  run_loop o fuel st convs acc = Some (reason, st', recs, rest) ->
  inv o st' recs /\
  match reason with
  | Converged => (min_sweeps o < s_sweeps st')%nat /\ s_mixer st' = None
  | MaxSweeps => (o_max o < s_sweeps st')%nat
  end.
Proof.
  intros o. induction fuel as [|f IH]; intros st convs acc reason st' recs rest Hinv Hrun; [discriminate|].
  cbn [run_loop] in Hrun.
  destruct (o_max o <? s_sweeps st)%nat eqn:Emax.
  - inversion Hrun; subst. split; [exact Hinv|]. apply Nat.ltb_lt in Emax. exact Emax.
  - destruct (min_sweeps o <? s_sweeps st)%nat eqn:Emin.
    + destruct convs as [|c cs]; [discriminate|].
      destruct c.
      * destruct (s_mixer st) as [m|] eqn:Emix.
        -- (* mixer_deactivate: inv does not mention the mixer *)
           eapply IH; [|exact Hrun]. apply inv_sweeps_n. exact Hinv.
        -- inversion Hrun; subst. split; [exact Hinv|]. apply Nat.ltb_lt in Emin. split; [exact Emin|exact Emix].
      * eapply IH; [|exact Hrun]. apply inv_sweeps_n. exact Hinv.
    + eapply IH; [|exact Hrun]. apply inv_sweeps_n. exact Hinv.
Qed.

Lemma default_min_ge_keys : forall nsc l, (max_key l <= default_min_sweeps nsc (Some l))%nat.
Proof. intros nsc l. unfold default_min_sweeps. apply Nat.le_max_l. Qed.

(* the fuel o_max o + 3 of run_model is one more than the o_max o + 2 rounds of run_loop that can occur when
   o_nsc o >= 1 (every round but the stopping one adds o_nsc o sweeps, and a round that starts with more than o_max o
   sweeps stops); with o_nsc o = 0 no fuel is enough.  Neither is stated as a lemma. *)
Theorem chi_ramp_completes : forall o l convs reason st recs rest,
  o_chis o = Some l -> l <> [] ->
  run_model o convs = Some (reason, st, recs, rest) ->
  map rec_no recs = seq 0 (s_sweeps st) /\
  Forall (fun r => rec_chi r = latest l (o_chi0 o) (rec_no r)) recs /\
  (reason = Converged -> o_min o = None ->
     (max_key l < s_sweeps st)%nat /\
     (forall k c, chi_get l k = Some c -> In (k, Some c) (map fst recs)) /\
     s_chi st = chi_get l (max_key l) /\ s_mixer st = None).
Proof.
  intros o l convs reason st recs rest Hl Hne Hrun.
  unfold run_model in Hrun.
  destruct (run_loop_inv o _ _ _ _ _ _ _ _ (inv_init o) Hrun) as [[Hn [Hf Hc]] Hr].
  assert (Hf' : Forall (fun r => rec_chi r = latest l (o_chi0 o) (rec_no r)) recs).
  { eapply Forall_impl; [|exact Hf]. intros r Hr'. cbn beta in Hr'. unfold chi_of in Hr'. rewrite Hl in Hr'. exact Hr'. }
  split; [exact Hn|]. split; [exact Hf'|].
  intros -> Hmin. destruct Hr as [Hlt Hmix].
  assert (Hk : (max_key l < s_sweeps st)%nat).
  { unfold min_sweeps in Hlt. rewrite Hmin, Hl in Hlt. pose proof (default_min_ge_keys (o_nsc o) l). lia. }
  split; [exact Hk|]. split; [|split; [|exact Hmix]].
  - intros k c Hg.
    assert (Hks : (k < s_sweeps st)%nat).
    { apply chi_get_in in Hg. apply max_key_ge in Hg. lia. }
    assert (Hin : In k (map rec_no recs)) by (rewrite Hn; apply in_seq; lia).
    apply in_map_iff in Hin. destruct Hin as [r [Hrk Hrin]].
    rewrite Forall_forall in Hf'. specialize (Hf' r Hrin). rewrite Hrk in Hf'.
    rewrite (latest_hit l _ k c Hg) in Hf'.
    apply in_map_iff. exists r. split; [|exact Hrin].
    destruct r as [[no ch] mx]. cbn in *. subst. reflexivity.
  - destruct (s_sweeps st) as [|s] eqn:Es; [lia|].
    rewrite Hc. unfold chi_of. rewrite Hl. apply latest_above; [exact Hne|lia].
Qed.

Lemma early_stop_possible : exists o l convs st recs rest,
  o_chis o = Some l /\ run_model o convs = Some (Converged, st, recs, rest) /\ (s_sweeps st <= max_key l)%nat.
Proof.
  exists (mkSopts 1 (Some 1%nat) 20 (Some [(0, 2); (6, 16)]%nat) None false true None None), [(0, 2); (6, 16)]%nat, [true],
         (mkSst 2 (Some 2%nat) None), [(0, Some 2, false); (1, Some 2, false)]%nat, [].
  split; [reflexivity|]. split; [vm_compute; reflexivity|]. vm_compute. lia.
Qed.
