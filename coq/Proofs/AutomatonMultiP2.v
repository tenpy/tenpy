(* add_multi_coupling_term's splitting at switchLR (split_term of Model/AutomatonMulti.v under the precondition split_ok
   of Model/AutomatonSplit.v) keeps the operator, and the stored form satisfies mterm_ok, so adding it to a graph adds
   exactly the term. *)
From TenpyV Require Import Base.Prelude Model.Automaton Model.AutomatonMulti Model.AutomatonSplit
  Proofs.AutomatonP Proofs.AutomatonMultiP.
Open Scope Z_scope.

Lemma hd_rev_last {A} (l : list A) d : hd d (rev l) = last l d.
Proof.
  induction l as [|x l IH] using rev_ind; [reflexivity|].
  rewrite rev_app_distr, last_last. reflexivity.
Qed.

(* the right path in ascending order, as nf_mterm reads it *)
Definition rsplit (ops : list (nat * Z)) (strs : list Z) (sw : nat) : list triple :=
  rev (split_right (rev ops) (rev strs) sw).

Lemma split_left_cons i a ops s strs sw :
  split_left ((i, a) :: ops) (s :: strs) sw = if (i <? sw)%nat then (i, a, s) :: split_left ops strs sw else [].
Proof. reflexivity. Qed.
Lemma op_switch_cons i a ops strs prev sw :
  op_switch ((i, a) :: ops) strs prev sw =
  if Nat.eqb sw i then a else if (sw <? i)%nat then prev
  else match strs with s :: strs' => op_switch ops strs' s sw | [] => prev end.
Proof. reflexivity. Qed.

Lemma ops_asc_hd x y ops : ops_asc (x :: y :: ops) = true -> (fst x < fst y)%nat /\ ops_asc (y :: ops) = true.
Proof.
  change (ops_asc (x :: y :: ops)) with ((fst x <? fst y)%nat && ops_asc (y :: ops)).
  rewrite andb_true_iff, Nat.ltb_lt. auto.
Qed.
Lemma ops_asc_cons x ops : ops_asc (x :: ops) = true -> ops_asc ops = true.
Proof. destruct ops; [reflexivity|apply ops_asc_hd]. Qed.

Lemma ops_asc_lt : forall ops x, ops_asc (x :: ops) = true -> forall z, In z ops -> (fst x < fst z)%nat.
Proof.
  induction ops as [|y ops IH]; intros x H z Hz; [destruct Hz|].
  destruct (ops_asc_hd _ _ _ H) as [Hxy H'].
  destruct Hz as [<-|Hz]; [exact Hxy|]. specialize (IH y H' z Hz). lia.
Qed.

(* split_right stops at the first site <= sw, so the second part counts only if every site of the first lies above sw *)
Lemma split_right_app : forall l r l' r' sw, length l = length r ->
  split_right (l ++ l') (r ++ r') sw =
  split_right l r sw ++ (if forallb (fun y => (sw <? fst y)%nat) l then split_right l' r' sw else []).
Proof.
  induction l as [|[i a] l IH]; intros [|s r] l' r' sw Hlen; try discriminate Hlen.
  - reflexivity.
  - cbn [app split_right forallb fst]. destruct (sw <? i)%nat; [|reflexivity].
    cbn [andb app]. rewrite IH by (injection Hlen as Hlen; exact Hlen). reflexivity.
Qed.

Lemma rsplit_cons2 x y ops s strs sw : ops_asc (y :: ops) = true -> length ops = length strs ->
  rsplit (x :: y :: ops) (s :: strs) sw =
  (if (sw <? fst y)%nat then [(fst y, snd y, s)] else []) ++ rsplit (y :: ops) strs sw.
Proof.
  intros Ha Hlen. unfold rsplit. cbn [rev]. rewrite <- (app_nil_r (rev strs)) at 2.
  rewrite <- app_assoc, !split_right_app, !rev_app_distr by (rewrite !rev_length; exact Hlen).
  destruct x as [i a], y as [j b]. cbn [app split_right fst snd].
  destruct (Nat.ltb_spec sw j) as [Hj|_].
  - assert (E : forallb (fun y => (sw <? fst y)%nat) (rev ops) = true).
    { apply forallb_forall. intros z Hz. apply in_rev in Hz.
      pose proof (ops_asc_lt ops (j, b) Ha z Hz) as Hjz. cbn [fst] in Hjz. apply Nat.ltb_lt. lia. }
    rewrite E. reflexivity.
  - destruct (forallb _ (rev ops)); reflexivity.
Qed.

Definition tail_word (ops : list (nat * Z)) (strs : list Z) : word :=
  match ops with
  | [] => []
  | x :: ops' => match ops', strs with
                 | y :: _, s :: strs' => wstring (S (fst x)) (fst y - fst x - 1) s ++ term_word ops' strs'
                 | _, _ => []
                 end
  end.
Lemma term_word_cons x ops strs : term_word (x :: ops) strs = consop (fst x) (snd x) (tail_word (x :: ops) strs).
Proof. destruct x as [i a]. cbn [term_word tail_word fst snd]. destruct ops as [|[j b] ops]; reflexivity. Qed.

Lemma rword_rsplit : forall ops x strs sw, ops_asc (x :: ops) = true -> length ops = length strs ->
  (sw <= fst x)%nat -> rword (rsplit (x :: ops) strs sw) (S (fst x)) = tail_word (x :: ops) strs.
Proof.
  induction ops as [|y ops IH]; intros x strs sw Ha Hlen Hx; destruct strs as [|s strs]; try discriminate Hlen.
  - destruct x. reflexivity.
  - injection Hlen as Hlen.
    destruct (ops_asc_hd _ _ _ Ha) as [Hxy Ha2].
    rewrite (rsplit_cons2 _ _ _ _ _ _ Ha2 Hlen). cbn [tail_word].
    destruct (sw <? fst y)%nat eqn:E; [|lia].
    cbn [app rword tsite top tstr fst snd].
    rewrite IH; [|exact Ha2|exact Hlen|lia].
    rewrite term_word_cons.
    replace (fst y - S (fst x))%nat with (fst y - fst x - 1)%nat by lia. reflexivity.
Qed.

Lemma split_left_ge i a ops strs sw : (sw <= i)%nat -> split_left ((i, a) :: ops) strs sw = [].
Proof.
  intro H. destruct strs as [|s strs]; [reflexivity|].
  cbn [split_left]. destruct (i <? sw)%nat eqn:E; [lia|reflexivity].
Qed.

(* acc holds the triples already passed, last one first, as lword wants them *)
Lemma split_word : forall ops strs sw prev acc, ops_asc ops = true -> length ops = S (length strs) ->
  (fst (hd dflt_op ops) <= sw)%nat -> (sw <= fst (last ops dflt_op))%nat ->
  lword (rev (split_left ops strs sw) ++ acc) sw ++
    consop sw (op_switch ops strs prev sw) (rword (rsplit ops strs sw) (S sw))
  = lword acc (fst (hd dflt_op ops)) ++ term_word ops strs.
Proof.
  induction ops as [|x ops IH]; intros strs sw prev acc Ha Hlen Hlo Hhi; [cbn [length] in Hlen; lia|].
  destruct x as [i a]. cbn [hd fst] in *.
  destruct (Nat.eq_dec i sw) as [->|Hne].
  - (* switchLR is the site of this operator *)
    rewrite split_left_ge by lia. cbn [rev app op_switch]. rewrite Nat.eqb_refl, term_word_cons. cbn [fst snd].
    change (S sw) with (S (fst (sw, a))).
    rewrite rword_rsplit; [reflexivity|exact Ha|cbn [length] in Hlen; lia|cbn [fst]; lia].
  - destruct ops as [|[j b] ops]; [cbn [last fst] in Hhi; lia|].
    destruct strs as [|s strs]; [cbn [length] in Hlen; lia|].
    cbn [length] in Hlen.
    destruct (ops_asc_hd _ _ _ Ha) as [Hij Ha2]. cbn [fst] in Hij.
    rewrite split_left_cons, op_switch_cons, (rsplit_cons2 _ _ _ _ _ _ Ha2), (term_word_cons (i, a)) by lia.
    cbn [tail_word fst snd].
    destruct (Nat.ltb_spec i sw) as [_|]; [|lia].
    destruct (Nat.eqb_spec sw i) as [|_]; [lia|].
    destruct (Nat.ltb_spec sw i) as [|_]; [lia|].
    destruct (Nat.ltb_spec sw j) as [Hj|Hj].
    + (* switchLR lies strictly between this operator and the next one *)
      rewrite split_left_ge by lia.
      rewrite op_switch_cons. destruct (Nat.eqb_spec sw j) as [|_]; [lia|].
      destruct (Nat.ltb_spec sw j) as [_|]; [|lia].
      cbn [rev app lword rword tsite top tstr fst snd].
      change (S j) with (S (fst (j, b))). rewrite rword_rsplit; [|exact Ha2|lia|cbn [fst]; lia].
      rewrite <- (term_word_cons (j, b)), <- app_assoc, <- consop_app. do 2 f_equal.
      replace (j - i - 1)%nat with ((sw - i - 1) + S (j - S sw))%nat by lia.
      rewrite wstring_app. cbn [wstring].
      replace (S i + (sw - i - 1))%nat with sw by lia.
      rewrite <- app_assoc, <- consop_app. reflexivity.
    + (* the next operator is still left of (or on) switchLR *)
      cbn [rev app]. rewrite <- (app_assoc _ [(i, a, s)] acc). cbn [app].
      eapply eq_trans; [apply (IH strs sw s ((i, a, s) :: acc) Ha2); [cbn [length]; lia|cbn [hd fst]; lia|exact Hhi]|].
      cbn [app lword hd tsite top tstr fst snd]. rewrite <- app_assoc, <- consop_app. reflexivity.
Qed.

Lemma split_ok_iff ops strs sw : split_ok ops strs sw = true <->
  ops_asc ops = true /\ length ops = S (length strs) /\
  (fst (hd dflt_op ops) <= sw)%nat /\ (sw <= fst (last ops dflt_op))%nat.
Proof. unfold split_ok. rewrite !andb_true_iff, Nat.eqb_eq, !Nat.leb_le. tauto. Qed.

Theorem split_term_nf : forall ops strs sw w, split_ok ops strs sw = true ->
  nf_mterm (split_term ops strs sw w) = (w, term_word ops strs).
Proof.
  intros ops strs sw w H. apply split_ok_iff in H. destruct H as (Ha & Hlen & Hlo & Hhi).
  unfold nf_mterm, split_term. cbn [mt_w mt_left mt_right mt_sw mt_op]. f_equal.
  rewrite <- (app_nil_r (rev (split_left ops strs sw))).
  exact (split_word ops strs sw 0 [] Ha Hlen Hlo Hhi).
Qed.

Lemma asc_split_left : forall ops strs sw lo, ops_asc ops = true -> (lo <= fst (hd dflt_op ops))%nat ->
  asc lo (split_left ops strs sw) sw = true.
Proof.
  induction ops as [|[i a] ops IH]; intros strs sw lo Ha Hlo; [reflexivity|].
  destruct strs as [|s strs]; [reflexivity|].
  rewrite split_left_cons. destruct (i <? sw)%nat eqn:E; [|reflexivity].
  cbn [asc tsite fst hd] in *.
  destruct ops as [|y ops]; [cbn [split_left asc]; lia|].
  destruct (ops_asc_hd _ _ _ Ha) as [Hiy Ha2]. rewrite IH; [lia|exact Ha2|]. cbn [hd fst] in *. lia.
Qed.

Fixpoint ops_desc (ops : list (nat * Z)) : bool :=
  match ops with
  | [] => true
  | x :: ops' => match ops' with [] => true | y :: _ => (fst y <? fst x)%nat end && ops_desc ops'
  end.
Lemma ops_desc_rev_app : forall ops acc, ops_asc ops = true -> ops_desc acc = true ->
  match ops, acc with x :: _, y :: _ => (fst y < fst x)%nat | _, _ => True end ->
  ops_desc (rev ops ++ acc) = true.
Proof.
  induction ops as [|x ops IH]; intros acc Ha Hd Hc; [exact Hd|].
  cbn [rev]. rewrite <- app_assoc. apply IH.
  - exact (ops_asc_cons _ _ Ha).
  - cbn [app ops_desc]. rewrite Hd, andb_true_r. destruct acc as [|y acc]; [reflexivity|].
    apply Nat.ltb_lt. exact Hc.
  - destruct ops as [|z ops]; [exact I|]. exact (proj1 (ops_asc_hd _ _ _ Ha)).
Qed.
Lemma ops_desc_rev ops : ops_asc ops = true -> ops_desc (rev ops) = true.
Proof.
  intro Ha. rewrite <- (app_nil_r (rev ops)). apply ops_desc_rev_app; [exact Ha|reflexivity|].
  destruct ops; exact I.
Qed.
Lemma desc_split_right : forall rops rstrs sw hi, ops_desc rops = true -> (fst (hd dflt_op rops) < hi)%nat ->
  desc hi (split_right rops rstrs sw) sw = true.
Proof.
  induction rops as [|[i a] rops IH]; intros rstrs sw hi Hd Hhi; [reflexivity|].
  destruct rstrs as [|s rstrs]; [reflexivity|].
  cbn [split_right]. destruct (sw <? i)%nat eqn:E; [|reflexivity].
  cbn [desc tsite fst hd] in *.
  destruct rops as [|y rops]; [cbn [split_right desc]; lia|].
  change (ops_desc ((i, a) :: y :: rops)) with ((fst y <? fst (i, a))%nat && ops_desc (y :: rops)) in Hd.
  apply andb_true_iff in Hd. destruct Hd as [Hiy Hd]. rewrite IH; [lia|exact Hd|]. cbn [hd fst] in *. lia.
Qed.

Theorem split_term_ok : forall L ops strs sw w, split_ok ops strs sw = true ->
  (fst (last ops dflt_op) < L)%nat -> mterm_ok L (split_term ops strs sw w) = true.
Proof.
  intros L ops strs sw w H HL. apply split_ok_iff in H. destruct H as (Ha & _ & _ & Hhi).
  apply mterm_ok_iff. unfold split_term. cbn [mt_left mt_right mt_sw]. split; [lia|]. split.
  - apply asc_split_left; [exact Ha|lia].
  - apply desc_split_right; [apply ops_desc_rev; exact Ha|rewrite hd_rev_last; exact HL].
Qed.

Theorem add_split_term : forall g ops strs sw w, mwf g -> split_ok ops strs sw = true ->
  (fst (last ops dflt_op) < length g)%nat ->
  mwf (add_mterm g (split_term ops strs sw w)) /\
  peq (denote (close (add_mterm g (split_term ops strs sw w)))) ((w, term_word ops strs) :: denote (close g)).
Proof.
  intros g ops strs sw w Hg Hok HL.
  rewrite <- (split_term_nf ops strs sw w Hok).
  apply add_to_graph_multi; [exact Hg|apply split_term_ok; assumption].
Qed.

Example split_ok_ex :
  split_ok [(0%nat, 5); (2%nat, 6); (4%nat, 7); (5%nat, 8)] [9; 2; 0] 3 = true /\
  split_ok [(0%nat, 5); (2%nat, 6); (4%nat, 7); (5%nat, 8)] [9; 2; 0] 0 = true /\
  split_ok [(0%nat, 5); (2%nat, 6); (4%nat, 7); (5%nat, 8)] [9; 2; 0] 5 = true /\
  split_ok [(1%nat, 5); (4%nat, 6)] [7] 2 = true.
Proof. vm_compute. repeat split; reflexivity. Qed.
