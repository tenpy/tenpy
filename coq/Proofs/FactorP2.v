(* Model/Factor2.v.  lq: the plan is qr_charges on the transposed matrix, so the charge rules of the lq factors are those of qr read
   through tmat (rule2 is symmetric).  eigh / eig: the loop of _eig_worker is a run of item assignments into a list indexed by the
   sector (set_loop); a slice assignment into resw replaces one sector vector of a concatenation, so the sector sizes are an
   invariant of the loop, and with one stored block per sector the result has the closed form read off stored_at. *)
From TenpyV Require Import Base.Prelude Base.Lists Model.ChargeL Model.Leg Model.Factor Model.Factor2 Proofs.ChargeP Proofs.LegP Proofs.FactorP.
Open Scope Z_scope.

(* shares its short name with Lists.map_nth_seq, which has no f; below both are called by their qualified names *)
Lemma map_nth_seq {A B} (f : A -> B) (d : A) (l : list A) :
  map (fun i => f (nth i l d)) (seq 0 (length l)) = map f l.
Proof. rewrite <- (map_map (fun i => nth i l d) f), Lists.map_nth_seq. reflexivity. Qed.

Lemma tmat_wf ci a : mat_wf ci a -> mat_wf ci (tmat a).
Proof.
  intros (Hlen & Hval & HcL & HcR & Hd). unfold mat_wf, tmat. cbn [mL mR mq mdata].
  repeat split; try assumption.
  apply Forall_map. revert Hd. apply Forall_impl. intros [i j] (Hi & Hj & Hr). cbn [fst snd] in *.
  repeat split; try assumption. rewrite rule2_comm. exact Hr.
Qed.

(* (j, b) in r_map: block j of a.legs[1] became the inner block b *)
Definition lrow_ok (ci : chinfo) (a : mat) (iq : Z) (qL qQ : cvec) (jb : nat * block) : Prop :=
  let '(j, b) := jb in
  rule2 ci (vscale (- iq) (snd b)) (leg_charge (mR a) j) qQ = true /\
  (forall i, In (i, j) (mdata a) -> rule2 ci (leg_charge (mL a) i) (vscale iq (snd b)) qL = true).

Theorem lq_charges_ok ci a ks complete qQ iq : (iq = 1 \/ iq = -1) -> (qc (mR a) = 1 \/ qc (mR a) = -1) ->
  mat_wf ci a -> req_wf ci qQ ->
  let p := lq_charges ci a ks complete qQ iq in
  make_valid ci (vadd (r_qR p) (r_qQ p)) = mq a /\
  r_qQ p = make_valid ci (q_req ci qQ) /\
  Forall (lrow_ok ci a iq (r_qR p) (r_qQ p)) (r_map p) /\
  qc (r_inner p) = iq /\ blocks (r_inner p) = map snd (r_map p) /\
  contractible ci (r_inner p) (conj_leg (r_inner p)) = true.
Proof.
  intros Hiq Hq0 Hwf Hreq p.
  destruct (qr_charges_ok ci (tmat a) ks complete qQ iq Hiq Hq0 (tmat_wf ci a Hwf) Hreq)
    as (H1 & H2 & H3 & H4 & H5 & _).
  fold (lq_charges ci a ks complete qQ iq) in H1, H2, H3, H4, H5. fold p in H1, H2, H3, H4, H5.
  cbn [tmat mq] in H1.
  split; [rewrite vadd_comm; exact H1|]. split; [exact H2|]. split; [|split; [exact H4|split; [exact H5|apply conj_contractible]]].
  rewrite Forall_forall in H3. apply Forall_forall. intros [j b] Hin. specialize (H3 _ Hin).
  unfold qrow_ok in H3. cbn [tmat mL mR mdata] in H3. destruct H3 as [HQ HL]. unfold lrow_ok. split.
  - rewrite rule2_comm. exact HQ.
  - intros i Hi. rewrite rule2_comm. apply HL. apply in_map_iff. exists (i, j). split; [reflexivity|exact Hi].
Qed.

Lemma set_nth_length {A} i (x : A) l : length (set_nth i x l) = length l.
Proof.
  unfold set_nth. destruct (i <? length l)%nat eqn:E; [|reflexivity].
  rewrite app_length, firstn_length. cbn [length]. rewrite skipn_length. lia.
Qed.

Lemma set_nth_same {A} i (x d : A) l : (i < length l)%nat -> nth i (set_nth i x l) d = x.
Proof.
  intros H. unfold set_nth. destruct (i <? length l)%nat eqn:E; [|lia].
  rewrite app_nth2; rewrite firstn_length; [|lia]. replace (i - Nat.min i (length l))%nat with 0%nat by lia. reflexivity.
Qed.

Lemma set_nth_other {A} i j (x d : A) l : i <> j -> nth j (set_nth i x l) d = nth j l d.
Proof.
  intros H. unfold set_nth. destruct (i <? length l)%nat eqn:E; [|reflexivity].
  revert i j H E. induction l as [|y l IH]; intros i j H E; cbn [length] in E; [lia|].
  destruct i, j; try lia; cbn [firstn skipn app nth]; try reflexivity. apply IH; [lia|]. cbn [length] in E. lia.
Qed.

Lemma set_nth_split {A} i (x : A) l : (i < length l)%nat ->
  set_nth i x l = firstn i l ++ x :: skipn (S i) l.
Proof. intros H. unfold set_nth. destruct (i <? length l)%nat eqn:E; [reflexivity|lia]. Qed.

Lemma set_slice_concat {A} (ws : list (list A)) qi rw : (qi < length ws)%nat ->
  length rw = length (nth qi ws []) ->
  set_slice (length (concat (firstn qi ws))) rw (concat ws) = concat (set_nth qi rw ws).
Proof.
  intros H L. rewrite set_nth_split by exact H.
  assert (E : concat ws = concat (firstn qi ws) ++ nth qi ws [] ++ concat (skipn (S qi) ws)).
  { rewrite (nth_split_at qi [] ws H) at 1. rewrite concat_app. reflexivity. }
  rewrite concat_app. cbn [concat]. unfold set_slice. rewrite E.
  set (A0 := concat (firstn qi ws)). set (C0 := concat (skipn (S qi) ws)). set (x := nth qi ws []) in *.
  rewrite firstn_app_len, L, <- app_length, (app_assoc A0 x), skipn_app_len. reflexivity.
Qed.

Definition zlen {A} (s : list A) : Z := Z.of_nat (length s).

Lemma offs_zlen {A} (ws : list (list A)) : forall qi,
  offs (map zlen ws) qi = Z.of_nat (length (concat (firstn qi ws))).
Proof.
  induction ws as [|s ws IH]; intros qi; [rewrite offs_nil; destruct qi; reflexivity|].
  destruct qi; [reflexivity|]. cbn [map]. rewrite offs_cons, IH. cbn [firstn concat]. rewrite app_length. unfold zlen. lia.
Qed.

Lemma zlen_concat {A} (ws : list (list A)) : Z.of_nat (length (concat ws)) = sumZ (map zlen ws).
Proof. rewrite <- offs_all, map_length, offs_zlen, firstn_all. reflexivity. Qed.

Lemma map_set_nth_same {A B} (f : A -> B) i x (d : A) l : f x = f (nth i l d) -> map f (set_nth i x l) = map f l.
Proof.
  intros H. unfold set_nth. destruct (i <? length l)%nat eqn:E; [|reflexivity].
  rewrite (nth_split_at i d l) at 3 by lia. rewrite !map_app. cbn [map]. rewrite H. reflexivity.
Qed.

Section EigP.
  Context {B W : Type}.
  Variable eye : Z -> B.
  Variable w0 : W.
  Variable eigb : nat -> list W * B.

  Fixpoint set_loop {A} (g : nat -> nat -> A) (data : list (nat * nat)) (k : nat) (xs : list A) : list A :=
    match data with
    | [] => xs
    | (qi, _) :: dt => set_loop g dt (S k) (set_nth qi (g qi k) xs)
    end.

  Lemma set_loop_length {A} (g : nat -> nat -> A) data : forall k xs, length (set_loop g data k xs) = length xs.
  Proof.
    induction data as [|[qi qj] dt IH]; intros k xs; [reflexivity|]. cbn [set_loop]. rewrite IH. apply set_nth_length.
  Qed.

  Lemma stored_at_none q data : forall k, ~ In q (map fst data) -> stored_at q data k = None.
  Proof.
    induction data as [|[qi qj] dt IH]; intros k H; [reflexivity|]. cbn [stored_at map fst In] in *.
    destruct (Nat.eqb qi q) eqn:E; [apply Nat.eqb_eq in E; tauto|]. apply IH. tauto.
  Qed.

  Lemma set_loop_nth {A} (g : nat -> nat -> A) (d : A) data : forall k xs q,
    NoDup (map fst data) -> Forall (fun ij => (fst ij < length xs)%nat) data ->
    nth q (set_loop g data k xs) d = match stored_at q data k with Some k' => g q k' | None => nth q xs d end.
  Proof.
    induction data as [|[qi qj] dt IH]; intros k xs q ND Hb; [reflexivity|].
    cbn [map fst] in ND. inversion ND as [|? ? Hni ND']; subst. inversion Hb as [|? ? Hq Hb']; subst. cbn [fst] in Hq.
    cbn [set_loop stored_at]. rewrite IH; [|exact ND'|].
    - destruct (Nat.eqb qi q) eqn:E.
      + apply Nat.eqb_eq in E. subst q. rewrite stored_at_none by exact Hni. apply set_nth_same, Hq.
      + apply Nat.eqb_neq in E. destruct (stored_at q dt (S k)); [reflexivity|]. apply set_nth_other, E.
    - rewrite Forall_forall in *. intros ij Hin. rewrite set_nth_length. apply Hb', Hin.
  Qed.

  Lemma set_loop_sectors {A} (g : nat -> nat -> A) (init : nat -> A) data k n :
    NoDup (map fst data) -> Forall (fun ij => (fst ij < n)%nat) data ->
    set_loop g data k (map init (seq 0 n)) =
    map (fun q => match stored_at q data k with Some k' => g q k' | None => init q end) (seq 0 n).
  Proof.
    intros ND Hb. assert (L : length (map init (seq 0 n)) = n) by (rewrite map_length; apply seq_length).
    apply nth_ext with (d := init 0%nat) (d' := init 0%nat).
    - rewrite set_loop_length, L, map_length, seq_length. reflexivity.
    - intros q Hq. rewrite set_loop_length, L in Hq. rewrite set_loop_nth by (rewrite ?L; assumption).
      rewrite !nth_map_seq by exact Hq. reflexivity.
  Qed.

  (* what iteration k writes for sector qi: the item of resv._data, the sector of resw *)
  Definition item_v (qi k : nat) : nat * nat * B := (qi, qi, snd (eigb k)).
  Definition item_w (qi k : nat) : list W := fst (eigb k).

  Definition eig_sizes (l : leg) (data : list (nat * nat)) (k0 : nat) : Prop :=
    forall k qi qj, nth_error data k = Some (qi, qj) -> zlen (fst (eigb (k0 + k))) = fst (blk l qi).

  Lemma eig_loop_segments l : forall data k vs ws,
    map zlen ws = bsz l -> Forall (fun ij => (fst ij < nblocks l)%nat) data -> eig_sizes l data k ->
    eig_loop eigb l data k (vs, concat ws) = (set_loop item_v data k vs, concat (set_loop item_w data k ws)) /\
    map zlen (set_loop item_w data k ws) = bsz l.
  Proof.
    induction data as [|[qi qj] dt IH]; intros k vs ws Hws Hb Hsz; [split; [reflexivity|exact Hws]|].
    inversion Hb as [|? ? Hq Hb']; subst. cbn [fst] in Hq.
    cbn [eig_loop set_loop fst snd]. unfold item_v at 2, item_w at 2 4. destruct (eigb k) as [rw rv] eqn:Ek. cbn [fst snd].
    assert (Lws : length ws = nblocks l) by (unfold nblocks; rewrite <- (map_length zlen ws), Hws; unfold bsz; apply map_length).
    assert (Lrw : zlen rw = fst (blk l qi)).
    { specialize (Hsz 0%nat qi qj eq_refl). rewrite Nat.add_0_r, Ek in Hsz. exact Hsz. }
    assert (Lq : fst (blk l qi) = zlen (nth qi ws [])).
    { transitivity (nth qi (bsz l) 0); [symmetry; exact (map_nth fst (blocks l) (0, []) qi)|].
      rewrite <- Hws. exact (map_nth zlen ws [] qi). }
    rewrite <- Hws, offs_zlen, Nat2Z.id. rewrite set_slice_concat; [|lia|unfold zlen in *; lia].
    rewrite Hws. apply IH.
    - rewrite <- Hws. apply map_set_nth_same with (d := []). rewrite Lrw. exact Lq.
    - exact Hb'.
    - intros k' qi' qj' Hn. replace (S k + k')%nat with (k + S k')%nat by lia. apply (Hsz (S k') qi' qj'). exact Hn.
  Qed.

  Lemma concat_repeat_blocks (bs : list block) : Forall (fun b => 0 <= fst b) bs ->
    concat (map (fun b => repeat w0 (Z.to_nat (fst b))) bs) = repeat w0 (Z.to_nat (sumZ (map fst bs))).
  Proof.
    induction 1 as [|b bs Hb Hbs IH]; [reflexivity|]. cbn [map concat sumZ]. rewrite IH.
    assert (0 <= sumZ (map fst bs)) by (apply sumZ_nonneg; rewrite Forall_map; exact Hbs).
    rewrite Z2Nat.inj_add by lia. symmetry. apply repeat_app.
  Qed.

  Definition sizes_nonneg (l : leg) : Prop := Forall (fun b => 0 <= fst b) (blocks l).

  Definition zeros_w (l : leg) : list (list W) := map (fun b : block => repeat w0 (Z.to_nat (fst b))) (blocks l).

  Lemma zeros_w_sizes l : sizes_nonneg l -> map zlen (zeros_w l) = bsz l.
  Proof.
    intros Hnn. unfold zeros_w, bsz. rewrite map_map. apply map_ext_in. intros b Hin. unfold zlen. rewrite repeat_length.
    unfold sizes_nonneg in Hnn. rewrite Forall_forall in Hnn. specialize (Hnn _ Hin). lia.
  Qed.

  Lemma eig_plan_loop l data :
    sizes_nonneg l -> Forall (fun ij => (fst ij < nblocks l)%nat) data -> eig_sizes l data 0 ->
    eig_plan eye w0 eigb l data = (set_loop item_v data 0 (diag_data eye l), concat (set_loop item_w data 0 (zeros_w l))) /\
    map zlen (set_loop item_w data 0 (zeros_w l)) = bsz l.
  Proof.
    intros Hnn Hb Hsz. unfold eig_plan.
    replace (repeat w0 (Z.to_nat (ind_len l))) with (concat (zeros_w l)) by (apply concat_repeat_blocks, Hnn).
    apply eig_loop_segments; [apply zeros_w_sizes, Hnn|exact Hb|exact Hsz].
  Qed.

  Lemma eig_plan_length l data :
    sizes_nonneg l -> Forall (fun ij => (fst ij < nblocks l)%nat) data -> eig_sizes l data 0 ->
    Z.of_nat (length (snd (eig_plan eye w0 eigb l data))) = ind_len l.
  Proof.
    intros Hnn Hb Hsz. destruct (eig_plan_loop l data Hnn Hb Hsz) as [-> Hz]. cbn [snd].
    rewrite zlen_concat, Hz. reflexivity.
  Qed.

  Theorem eig_structure l data :
    sizes_nonneg l -> NoDup (map fst data) -> Forall (fun ij => (fst ij < nblocks l)%nat) data ->
    eig_sizes l data 0 ->
    eig_plan eye w0 eigb l data =
      (map (fun q => (q, q, sector_v eye eigb l data q)) (seq 0 (nblocks l)),
       concat (map (sector_w w0 eigb l data) (seq 0 (nblocks l)))).
  Proof.
    intros Hnn ND Hb Hsz. destruct (eig_plan_loop l data Hnn Hb Hsz) as [-> _]. f_equal.
    - unfold diag_data. rewrite set_loop_sectors by assumption.
      apply map_ext. intros q. unfold sector_v. destruct (stored_at q data 0); reflexivity.
    - f_equal. unfold zeros_w. rewrite <- (FactorP2.map_nth_seq (fun b : block => repeat w0 (Z.to_nat (fst b))) (0, []) (blocks l)).
      rewrite set_loop_sectors by assumption.
      apply map_ext. intros q. unfold sector_w, blk. destruct (stored_at q data 0); reflexivity.
  Qed.

End EigP.

Lemma eig_diag_rule ci l q : charges_wf ci l -> (q < nblocks l)%nat ->
  rule2 ci (leg_charge l q) (leg_charge (conj_leg l) q) (vzero (length ci)) = true.
Proof.
  intros Hc Hq. apply rule2_iff. rewrite <- make_valid_vzero. apply f_equal.
  pose proof (leg_charge_length ci l q Hc Hq) as L. unfold leg_charge in *. rewrite vscale_length in L.
  change (blk (conj_leg l) q) with (blk l q). cbn [conj_leg qc]. vec_lia (length ci).
Qed.
