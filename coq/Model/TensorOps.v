(* Operations of np_conserved on the storage model of Model/Tensor.v, written after the code
   (itranspose / conj / iscale_prefactor / ibinary_blockwise + iadd_prefactor_other / outer / block pairing of
   tensordot).  Definitions only.  Tie: correspondence (K), see Model/TensorCheck.v. *)
From TenpyV Require Import Base.Prelude Model.Charge Model.Tensor.
Open Scope Z_scope.

(* ---- np.transpose / Array.itranspose:  new.legs[k] = old.legs[p[k]], _qdata[:, p], blocks transposed,
        _qdata_sorted = False.  Not here: the early return of the code for p = range(rank), which keeps the claim
        (Model/TensorProg.v, itranspose) *)
Definition gather {A} (d : A) (p : list nat) (l : list A) : list A := map (fun k => nth k l d) p.
Fixpoint index_of (k : nat) (p : list nat) : nat :=
  match p with [] => 0%nat | x :: t => if (x =? k)%nat then 0%nat else S (index_of k t) end.
Definition invperm (p : list nat) : list nat := map (fun k => index_of k p) (seq 0 (length p)).

Definition transpose (p : list nat) (a : arr) : arr :=
  mkArr (gather dleg p (legs a)) (qtot a)
        (map (fun b : block => (gather 0%nat p (fst b), fun j => snd b (gather 0%nat (invperm p) j))) (blks a))
        false.

(* ---- Array.conj: legs conjugated, qtotal = make_valid(-qtotal), entries conjugated, _qdata untouched *)
Definition conj (ci : chinfo) (a : arr) : arr :=
  mkArr (map conj_leg (legs a)) (make_valid ci (vneg (qtot a)))
        (map (fun b : block => (fst b, fun i => cconj (snd b i))) (blks a)) (qsorted a).

(* ---- Array.iscale_prefactor: prefactor == 0 drops all blocks and claims sortedness *)
Definition scale_blocks (s : C) (bs : list block) : list block :=
  map (fun b : block => (fst b, fun i => cmul s (snd b i))) bs.
Definition scale (s : C) (a : arr) : arr :=
  if ceqb s c0 then mkArr (legs a) (qtot a) [] true
  else mkArr (legs a) (qtot a) (scale_blocks s (blks a)) (qsorted a).

(* ---- Array.isort_qdata: TRUSTS the claim; otherwise (stable) sort of the rows *)
Fixpoint insert_block (b : block) (l : list block) : list block :=
  match l with
  | [] => [b]
  | c :: t => if row_lt (fst c) (fst b) then c :: insert_block b t else b :: l
  end.
Definition sort_blocks (l : list block) : list block := fold_right insert_block [] l.
Definition isort_qdata (a : arr) : arr :=
  if qsorted a then a else mkArr (legs a) (qtot a) (sort_blocks (blks a)) true.

(* ---- Array.ibinary_blockwise(np.add): merge of two lexsorted block lists *)
Definition badd (f g : list nat -> C) : list nat -> C := fun i => cadd (f i) (g i).
Fixpoint merge (la : list block) : list block -> list block :=
  match la with
  | [] => fun lb => lb
  | ba :: ta =>
      fix aux (lb : list block) : list block :=
        match lb with
        | [] => la
        | bb :: tb =>
            if row_eqb (fst ba) (fst bb) then (fst ba, badd (snd ba) (snd bb)) :: merge ta tb
            else if row_lt (fst bb) (fst ba) then bb :: aux tb
            else ba :: merge ta lb
        end
  end.

(* self.iadd_prefactor_other(alpha, other)  =  self.ibinary_blockwise(np.add, other * alpha)
   (labels in the same order: no transposition of `other`) *)
Definition add (alpha : C) (a b : arr) : arr :=
  let a1 := isort_qdata a in
  let b1 := isort_qdata (scale alpha b) in
  mkArr (legs a) (qtot a) (merge (blks a1) (blks b1)) true.

(* ---- outer: grid of block pairs, rows of `a` change fastest; _qdata_sorted = a.sorted and b.sorted *)
Definition outer_block (ra : nat) (ba bb : block) : block :=
  (fst ba ++ fst bb, fun idx => cmul (snd ba (firstn ra idx)) (snd bb (skipn ra idx))).
Definition outer (ci : chinfo) (a b : arr) : arr :=
  mkArr (legs a ++ legs b) (make_valid ci (vadd (qtot a) (qtot b)))
        (flat_map (fun bb => map (fun ba => outer_block (rank a) ba bb) (blks a)) (blks b))
        (qsorted a && qsorted b).

(* ---- tensordot(a, b, axes=k): last k legs of a with first k legs of b.
        Block pairing: a block of a and a block of b contribute to the result block
        (kept qindices of a ++ kept qindices of b) iff their contracted qindices agree. *)
Definition tdot_rows (k : nat) (a b : arr) : list (list nat) :=
  flat_map (fun rb => flat_map (fun ra =>
     if row_eqb (skipn (rank a - k) ra) (firstn k rb) then [firstn (rank a - k) ra ++ skipn k rb] else [])
     (rows a)) (rows b).
Definition tdot_legs (k : nat) (a b : arr) : list leg := firstn (rank a - k) (legs a) ++ skipn k (legs b).
Definition tdot_qtot (ci : chinfo) (a b : arr) : list Z := make_valid ci (vadd (qtot a) (qtot b)).
(* legs l (of a) and l' (of b) may be contracted: charges * qconj opposite (modulo), same block sizes *)
Definition contractible (ci : chinfo) (l l' : leg) : Prop :=
  bsz l = bsz l' /\
  forall q j, (j < length ci)%nat -> mv1 (nth j ci 1) (chg l q j + chg l' q j) = mv1 (nth j ci 1) 0.
