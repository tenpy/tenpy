(* C05: dense values of the block-sparse factors assembled by _svd_worker / qr around the per-block LAPACK
   calls (definitions only).  Blocks are matrices over Z given as functions nat -> nat -> Z; their
   dimensions are the block sizes of the two legs.  A rank-2 block-sparse matrix is
     (row block sizes, column block sizes, list of (row block, column block, block)),
   and its dense value at (r, c) is the sum of the stored blocks embedded at their slices (to_ndarray).
   The per-block factorisations are an INPUT of the assembly (records fac3 below); the theorems of
   Proofs/FactorDenseP.v, FactorDenseP2.v, FactorDenseP3.v quantify over them, with LAPACK's specification as hypotheses.
   Tie to the code: kept / svd_U / svd_V / svd_S / inner_sizes / svd_U_full and pos_diag are executed against
   npc.svd and npc.qr(pos_diag_R=True) by Model/FactorCase2.v (check_svd_dense_case, check_posdiag_case) in the
   'plan' stream of harness/c05.py, with the per-block LAPACK results replaced by recorded integer-valued
   matrices (_svd_worker: U_qdata = [qi_L, arange], VH_qdata = [arange, qi_R], new_leg_slices = cumulative kept
   ranks, S = concatenate); T05_svd_inner_sizes links them to the plan of Model/Factor.v. *)
From TenpyV Require Import Base.Prelude.
Open Scope Z_scope.

Definition dmat := nat -> nat -> Z.
Definition dvec := nat -> Z.

(* sum_{t < n} f t *)
Fixpoint sumn (n : nat) (f : nat -> Z) : Z :=
  match n with O => 0 | S k => sumn k f + f k end.

(* slices of a leg with block sizes szs *)
Definition boff (szs : list nat) (q : nat) : nat := list_sum (firstn q szs).
Definition bsize (szs : list nat) (q : nat) : nat := nth q szs 0%nat.
Definition inblk (szs : list nat) (q x : nat) : bool :=
  (boff szs q <=? x)%nat && (x <? boff szs q + bsize szs q)%nat.

Definition bent := (nat * nat * dmat)%type.
Definition bval (rs cs : list nat) (r c : nat) (e : bent) : Z :=
  let '(i, j, M) := e in
  if inblk rs i r && inblk cs j c then M (r - boff rs i)%nat (c - boff cs j)%nat else 0.
Definition dense (rs cs : list nat) (data : list bent) : dmat :=
  fun r c => sumZ (map (bval rs cs r c) data).

Definition mT (A : dmat) : dmat := fun r c => A c r.
Definition delta (a b : nat) : Z := if Nat.eqb a b then 1 else 0.
Definition of_rows (l : list (list Z)) : dmat := fun r c => nth c (nth r l []) 0.
Definition of_list (l : list Z) : dvec := fun t => nth t l 0.

(* ---- svd: result of the LAPACK call (after the cutoff) on one stored block: kept rank, U_b (rows x n),
   S_b (n), VH_b (n x cols) *)
Record fac3 := mkFac3 { f_n : nat; f_U : dmat; f_S : dvec; f_V : dmat }.
Definition sblock := (nat * nat * fac3)%type.
Definition sb_row (e : sblock) : nat := fst (fst e).
Definition sb_col (e : sblock) : nat := snd (fst e).
Definition sb_fac (e : sblock) : fac3 := snd e.

(* `if num > 0:` only blocks with kept singular values enter U, S, VH *)
Definition kept (fs : list sblock) : list sblock := filter (fun e => (0 <? f_n (sb_fac e))%nat) fs.
(* new_leg_slices = cumulative kept ranks *)
Definition inner_sizes (ks : list sblock) : list nat := map (fun e => f_n (sb_fac e)) ks.

(* entries (fx m e, fy m e, fm m e) for the m-th kept block e, m counting from m0 (qi_C = arange) *)
Fixpoint asm (fx fy : nat -> sblock -> nat) (fm : nat -> sblock -> dmat) (m : nat) (ks : list sblock) : list bent :=
  match ks with
  | [] => []
  | e :: t => (fx m e, fy m e, fm m e) :: asm fx fy fm (S m) t
  end.

(* U._qdata = [qi_L, qi_C], VH._qdata = [qi_C, qi_R] *)
Definition svd_U (ks : list sblock) : list bent :=
  asm (fun _ e => sb_row e) (fun m _ => m) (fun _ e => f_U (sb_fac e)) 0 ks.
Definition svd_V (ks : list sblock) : list bent :=
  asm (fun m _ => m) (fun _ e => sb_col e) (fun _ e => f_V (sb_fac e)) 0 ks.
(* S = np.concatenate(S) *)
Fixpoint svd_S (ks : list sblock) : dvec :=
  match ks with
  | [] => fun _ => 0
  | e :: t => fun x => if (x <? f_n (sb_fac e))%nat then f_S (sb_fac e) x else svd_S t (x - f_n (sb_fac e))%nat
  end.

(* the product the documentation promises to be a:  (U . diag(S) . VH)[r, c], inner dimension n *)
Definition usv (n : nat) (U : dmat) (s : dvec) (V : dmat) : dmat :=
  fun r c => sumn n (fun t => U r t * s t * V t c).
(* U_b diag(S_b) VH_b of one stored block *)
Definition fac_prod (f : fac3) : dmat := usv (f_n f) (f_U f) (f_S f) (f_V f).
Definition prod_ent (e : sblock) : bent := (sb_row e, sb_col e, fac_prod (sb_fac e)).

(* full_matrices=True: U.legs = [legs[0], legs[0].conj()], U._qdata = [qi_L, qi_L] for the stored blocks *)
Definition svd_U_full (fs : list sblock) : list bent :=
  map (fun e => (sb_row e, sb_row e, f_U (sb_fac e))) fs.

(* ---- qr(pos_diag_R=True) on one block, real entries: phase = r_diag / |r_diag| (1 for r_diag = 0, fix of F05.3),
   K = len(diag(R)) = min(P, N) for R of shape (P, N);  Q[:, :K] *= phase,  R[:K, :] *= conj(phase) *)
Definition phase_of (x : Z) : option Z := if x =? 0 then Some 1 else Some (Z.sgn x).
Fixpoint all_some {A} (l : list (option A)) : option (list A) :=
  match l with
  | [] => Some []
  | None :: _ => None
  | Some x :: t => match all_some t with Some r => Some (x :: r) | None => None end
  end.
Definition phases (K : nat) (R : dmat) : option (list Z) :=
  all_some (map (fun k => phase_of (R k k)) (seq 0 K)).
Definition pos_diag (P N : nat) (Q R : dmat) : option (dmat * dmat) :=
  match phases (Nat.min P N) R with
  | None => None
  | Some ph => Some (fun r k => Q r k * nth k ph 1, fun k c => nth k ph 1 * R k c)
  end.
