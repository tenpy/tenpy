(* Environments of an INFINITE MPS under the sweep protocol of mps_common.py (property C13, infinite bc):
   BaseEnvironment.get_LP / get_RP with the shift by unit cells (networks/mps.py: the nearest stored LP is searched at
   i, i-1, .., i-L+1 modulo L, then sites i0..i-1 are contracted and every intermediate stored at key (j+1) mod L),
   Sweep.update_env, free_no_longer_needed_envs and the infinite get_sweep_schedule of Model/Sweep.v.
   Definitions only (proofs in Proofs/SweepInfInvP.v and Proofs/SweepInfP.v).

   A stored environment carries, for each contracted site from the nearest to the farthest, ONE BOOLEAN: "this factor
   was contracted from the version of the site tensor that is current now".  Entry k of the LP stored at key i refers
   to site (i-1-k) mod L, entry k of the RP at key i to site (i+1+k) mod L.  psi.set_B on site j turns every entry
   referring to j to false; contracting a site prepends `true`.  Only the nearest `cap L = 2L + 2` entries are
   recorded (the environments of iDMRG grow by L sites per sweep; the truncation makes the state space finite).
   Environments lag BY DESIGN in iDMRG: factors belonging to other copies of the unit cell are older versions.
   Honest notion of freshness (`step_i` returns it): each of the two environments read for eff_H is current on every
   site of a WINDOW of L consecutive sites that contains the optimised sites: [0, L) while moving right,
   [n, L + n) while moving left; sites outside the window are other copies of the unit cell and may be old.
   Tie to the code: correspondence (K), harness/c13.py stream `env-trace-inf` with Model/SweepInfCheck.v
   `check_inf_run`: instrumented infinite DMRG runs (two-site and one-site engine, L = 2..4); after every local update
   the stored keys, every boolean of every stored tag, the ages and the two environments read for eff_H are compared
   with step_i / get_lp_i / get_rp_i replayed from init_i on the schedule entries the engine executed. *)
From TenpyV Require Import Base.Prelude Model.Sweep.

Definition btag := list bool.
Record ist := mkI { ilp : list (option btag); irp : list (option btag) }.

Definition cap (L : nat) : nat := 2 * L + 2.
(* site of entry 0 and of the next entry (indices stay below L: cheap to evaluate) *)
Definition site_l0 (L i : nat) : nat := (i + L - 1) mod L.                 (* (i - 1) mod L *)
Definition prev_site (L c : nat) : nat := match c with O => L - 1 | S c' => c' end.
Definition site_r0 (L i : nat) : nat := (i + 1) mod L.
Definition next_site (L c : nat) : nat := if (S c =? L)%nat then 0 else S c.

Fixpoint mark (nxt : nat -> nat) (j cur : nat) (t : btag) : btag :=
  match t with
  | [] => []
  | b :: t' => (b && negb (cur =? j)%nat) :: mark nxt j (nxt cur) t'
  end.
Fixpoint mark_all (first : nat -> nat) (nxt : nat -> nat) (j i : nat) (l : list (option btag)) : list (option btag) :=
  match l with
  | [] => []
  | o :: l' => (match o with Some t => Some (mark nxt j (first i) t) | None => None end) :: mark_all first nxt j (S i) l'
  end.
(* psi.set_B on site j (mod L) *)
Definition bump_i (L : nat) (s : ist) (j : nat) : ist :=
  mkI (mark_all (site_l0 L) (prev_site L) (j mod L) 0 (ilp s)) (mark_all (site_r0 L) (next_site L) (j mod L) 0 (irp s)).

(* nearest stored key at distance d = 0, 1, .., fuel - 1: key (base - d) mod L resp. (base + d) mod L *)
Fixpoint find_l (L : nat) (l : list (option btag)) (i d fuel : nat) : option (nat * btag) :=
  match fuel with
  | O => None
  | S f => match nth ((i + L - d) mod L) l None with
           | Some t => Some (d, t)
           | None => find_l L l i (S d) f
           end
  end.
Fixpoint find_r (L : nat) (l : list (option btag)) (i d fuel : nat) : option (nat * btag) :=
  match fuel with
  | O => None
  | S f => match nth ((i + d) mod L) l None with
           | Some t => Some (d, t)
           | None => find_r L l i (S d) f
           end
  end.

(* contract positions p, p+1, .., p+cnt-1 (p given as p + L to stay in nat) *)
Fixpoint extend_l (L : nat) (s : ist) (pL cnt : nat) (t : btag) : ist * btag :=
  match cnt with
  | O => (s, t)
  | S c => let t' := firstn (cap L) (true :: t) in
           extend_l L (mkI (set_nth (ilp s) ((pL + 1) mod L) (Some t')) (irp s)) (S pL) c t'
  end.
Definition get_lp_i (L : nat) (s : ist) (i : nat) : ist * option btag :=
  match find_l L (ilp s) i 0 L with
  | None => (s, None)                                      (* ValueError('No left part in the system???') *)
  | Some (d, t) => let r := extend_l L s (i + L - d) d t in (fst r, Some (snd r))
  end.
(* contract positions i+cnt, .., i+1 *)
Fixpoint extend_r (L : nat) (s : ist) (i cnt : nat) (t : btag) : ist * btag :=
  match cnt with
  | O => (s, t)
  | S c => let t' := firstn (cap L) (true :: t) in
           extend_r L (mkI (ilp s) (set_nth (irp s) ((i + c) mod L) (Some t'))) i c t'
  end.
Definition get_rp_i (L : nat) (s : ist) (i : nat) : ist * option btag :=
  match find_r L (irp s) i 0 L with
  | None => (s, None)
  | Some (d, t) => let r := extend_r L s i d t in (fst r, Some (snd r))
  end.

Definition del_lp_i (L : nat) (s : ist) (i : nat) : ist := mkI (set_nth (ilp s) (i mod L) None) (irp s).
Definition del_rp_i (L : nat) (s : ist) (i : nat) : ist := mkI (ilp s) (set_nth (irp s) (i mod L) None).

(* the first `need` recorded factors are current *)
Definition current_upto (need : nat) (t : option btag) : bool :=
  match t with
  | Some t => (need <=? length t)%nat && forallb (fun b => b) (firstn need t)
  | None => false
  end.

(* one entry of the infinite sweep; returns the new state and whether both environments read for eff_H are current on
   the window [w0, w0 + L), w0 = 0 moving right, n moving left *)
Definition step_i (L n : nat) (s : ist) (e : entry) : ist * bool :=
  match e with (i0, mr, (upl, upr)) =>
    let r1 := get_lp_i L s i0 in
    let r2 := get_rp_i L (fst r1) (i0 + n - 1) in
    let s2 := fst r2 in
    let w0 := if mr then 0%nat else n in
    let ok := current_upto (i0 - w0) (snd r1) && current_upto (w0 + L - 1 - (i0 + n - 1)) (snd r2) in
    let (iL, iR) := env_inds n i0 mr in
    let s3 := bump_i L (bump_i L s2 iL) iR in
    let s4 := del_rp_i L (del_lp_i L s3 iR) iL in
    let s5 := if upl then fst (get_lp_i L s4 iR) else s4 in
    let s6 := if upr then fst (get_rp_i L s5 iL) else s5 in
    let s7 :=
      if (n =? 2)%nat then
        let a := if upr then del_lp_i L s6 iL else s6 in
        if upl then del_rp_i L a iR else a
      else
        if (mr && upr)%bool then del_lp_i L s6 iL
        else if (negb mr && upl)%bool then del_rp_i L s6 iR else s6 in
    (s7, ok)
  end.

(* MPOEnvironment.__init__ for infinite bc without init_env_data: init_LP(0), init_RP(L-1) *)
Definition init_i (L : nat) : ist :=
  mkI (Some [] :: repeat None (L - 1)) (repeat None (L - 1) ++ [Some []]).

Definition exec_i (L n : nat) (s : ist) (es : list entry) : ist := fold_left (fun s e => fst (step_i L n s e)) es s.
Fixpoint run_ok_i (L n : nat) (s : ist) (es : list entry) : bool :=
  match es with
  | [] => true
  | e :: t => let r := step_i L n s e in snd r && run_ok_i L n (fst r) t
  end.
(* every environment read during k sweeps of the infinite schedule is current on its window *)
Definition no_stale_inf (L n k : nat) : bool := run_ok_i L n (init_i L) (repeat_list (schedule false L n) k).
