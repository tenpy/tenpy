(* Model of the sweep protocol of tenpy/algorithms/mps_common.py (property C13):
   Sweep.get_sweep_schedule, Sweep._update_env_inds, Sweep.update_env, Sweep.free_no_longer_needed_envs and
   BaseEnvironment.get_LP / get_RP / del_LP / del_RP (networks/mps.py).  Definitions only (proofs in
   Proofs/SweepP2.v).  Tie to the code: correspondence (K), harness/c13.py: instrumented DMRG runs.

   Every site carries a version number (bumped whenever psi.set_B writes the site); every stored environment
   carries the versions of the sites it was contracted from: LP[i] those of sites 0..i-1, RP[i] those of sites
   i+1..L-1.  A read is FRESH when these equal the current versions.  The numerical content (tensors, energies,
   truncation) is not modelled. *)
From TenpyV Require Import Base.Prelude.

(* ---- get_sweep_schedule.  m = number of right moves: L - n (finite), L (infinite) *)
Definition i0s (m : nat) : list nat := seq 0 m ++ rev (seq 1 m).
Definition move_rights (m : nat) : list bool := repeat true m ++ repeat false m.

Definition flags_finite (m : nat) : list (bool * bool) := repeat (true, false) m ++ repeat (false, true) m.
(* infinite, n = 2: [[T,T]]*2 + [[T,F]]*(L-2) + [[T,T]]*2 + [[F,T]]*(L-2) *)
Definition flags_inf2 (L : nat) : list (bool * bool) :=
  repeat (true, true) 2 ++ repeat (true, false) (L - 2) ++ repeat (true, true) 2 ++ repeat (false, true) (L - 2).
(* infinite, n = 1: [[T,T]] + [[T,F]]*(L-1) + [[T,T]] + [[F,T]]*(L-1) *)
Definition flags_inf1 (L : nat) : list (bool * bool) :=
  (true, true) :: repeat (true, false) (L - 1) ++ (true, true) :: repeat (false, true) (L - 1).

Definition entry := (nat * bool * (bool * bool))%type.     (* i0, move_right, (update_LP, update_RP) *)
Definition right_moves (finite : bool) (L n : nat) : nat := if finite then L - n else L.
Definition schedule (finite : bool) (L n : nat) : list entry :=
  let m := right_moves finite L n in
  combine (combine (i0s m) (move_rights m))
          (if finite then flags_finite m else if (n =? 2)%nat then flags_inf2 L else flags_inf1 L).

(* ---- environments of a finite chain *)
Definition tag := list nat.
Record st := mkSt { ver : list nat; lp : list (option tag); rp : list (option tag) }.

Fixpoint set_nth {A} (l : list A) (k : nat) (x : A) : list A :=
  match l, k with
  | [], _ => []
  | _ :: t, O => x :: t
  | y :: t, S k' => y :: set_nth t k' x
  end.
Definition bump (v : list nat) (i : nat) : list nat := set_nth v i (S (nth i v 0%nat)).

(* nearest stored LP at or left of i (fuel = i + 1 steps) *)
Fixpoint find_left (l : list (option tag)) (i fuel : nat) : option (nat * tag) :=
  match fuel with
  | O => None
  | S f => match nth i l None with
           | Some t => Some (i, t)
           | None => match i with O => None | S i' => find_left l i' f end
           end
  end.
(* contract sites j, j+1, .., j+cnt-1 onto an LP[j] with tag t, storing every intermediate *)
Fixpoint extend_left (s : st) (j cnt : nat) (t : tag) (store : bool) : st * tag :=
  match cnt with
  | O => (s, t)
  | S c => let t' := t ++ [nth j (ver s) 0%nat] in
           let s' := if store then mkSt (ver s) (set_nth (lp s) (S j) (Some t')) (rp s) else s in
           extend_left s' (S j) c t' store
  end.
Definition get_lp (s : st) (i : nat) (store : bool) : st * option tag :=
  match find_left (lp s) i (S i) with
  | None => (s, None)
  | Some (j, t) => let r := extend_left s j (i - j) t store in (fst r, Some (snd r))
  end.

Fixpoint find_right (l : list (option tag)) (i fuel : nat) : option (nat * tag) :=
  match fuel with
  | O => None
  | S f => match nth i l None with
           | Some t => Some (i, t)
           | None => find_right l (S i) f
           end
  end.
(* contract sites j, j-1, .., j-cnt+1 onto an RP[j] *)
Fixpoint extend_right (s : st) (j cnt : nat) (t : tag) (store : bool) : st * tag :=
  match cnt with
  | O => (s, t)
  | S c => let t' := nth j (ver s) 0%nat :: t in
           let s' := if store then mkSt (ver s) (lp s) (set_nth (rp s) (j - 1) (Some t')) else s in
           extend_right s' (j - 1) c t' store
  end.
Definition get_rp (s : st) (i : nat) (store : bool) : st * option tag :=
  match find_right (rp s) i (length (rp s) - i) with
  | None => (s, None)
  | Some (j, t) => let r := extend_right s j (j - i) t store in (fst r, Some (snd r))
  end.

Definition del_lp (s : st) (i : nat) : st := mkSt (ver s) (set_nth (lp s) i None) (rp s).
Definition del_rp (s : st) (i : nat) : st := mkSt (ver s) (lp s) (set_nth (rp s) i None).

Definition tag_eqb (a b : tag) : bool :=
  (length a =? length b)%nat && forallb (fun p => (fst p =? snd p)%nat) (combine a b).
Definition fresh_l (s : st) (i : nat) (t : option tag) : bool :=
  match t with Some t => tag_eqb t (firstn i (ver s)) | None => false end.
Definition fresh_r (s : st) (i : nat) (t : option tag) : bool :=
  match t with Some t => tag_eqb t (skipn (S i) (ver s)) | None => false end.

(* _update_env_inds *)
Definition env_inds (n i0 : nat) (mr : bool) : nat * nat :=
  if ((n =? 2)%nat || mr)%bool then (i0, S i0) else (i0 - 1, i0)%nat.

(* one entry of the sweep: make_eff_H reads LP[i0], RP[i0+n-1]; update_local writes two sites;
   update_env; free_no_longer_needed_envs.  Returns the new state and whether both reads were fresh. *)
Definition step (n : nat) (s : st) (e : entry) : st * bool :=
  match e with (i0, mr, (upl, upr)) =>
    let r1 := get_lp s i0 true in
    let r2 := get_rp (fst r1) (i0 + n - 1) true in
    let s2 := fst r2 in
    let ok := fresh_l s2 i0 (snd r1) && fresh_r s2 (i0 + n - 1) (snd r2) in
    let (iL, iR) := env_inds n i0 mr in
    let s3 := mkSt (bump (bump (ver s2) iL) iR) (lp s2) (rp s2) in
    let s4 := del_rp (del_lp s3 iR) iL in
    let s5 := if upl then fst (get_lp s4 iR true) else s4 in
    let s6 := if upr then fst (get_rp s5 iL true) else s5 in
    let s7 :=
      if (n =? 2)%nat then
        let a := if upr then del_lp s6 iL else s6 in
        if upl then del_rp a iR else a
      else
        if (mr && upr)%bool then del_lp s6 iL
        else if (negb mr && upl)%bool then del_rp s6 iR else s6 in
    (s7, ok)
  end.

Definition init_st (L : nat) : st :=
  mkSt (repeat 0%nat L) (Some [] :: repeat None (L - 1)) (repeat None (L - 1) ++ [Some []]).

Definition stored (l : list (option tag)) : list nat :=
  map fst (filter (fun p => match snd p with Some _ => true | None => false end) (combine (seq 0 (length l)) l)).

(* run entries; collect per step (fresh, stored LP indices, stored RP indices) *)
Fixpoint run (n : nat) (s : st) (es : list entry) : list (bool * list nat * list nat) * st :=
  match es with
  | [] => ([], s)
  | e :: t => let r := step n s e in
              let rest := run n (fst r) t in
              ((snd r, stored (lp (fst r)), stored (rp (fst r))) :: fst rest, snd rest)
  end.

Fixpoint repeat_list {A} (l : list A) (k : nat) : list A :=
  match k with O => [] | S k' => l ++ repeat_list l k' end.

(* all reads of `sweeps` sweeps of a finite chain are fresh and every stored environment is current *)
Definition all_current (s : st) : bool :=
  forallb (fun i => match nth i (lp s) None with Some t => tag_eqb t (firstn i (ver s)) | None => true end)
          (seq 0 (length (lp s))) &&
  forallb (fun i => match nth i (rp s) None with Some t => tag_eqb t (skipn (S i) (ver s)) | None => true end)
          (seq 0 (length (rp s))).
Fixpoint run_ok (n : nat) (s : st) (es : list entry) : bool :=
  match es with
  | [] => true
  | e :: t => let r := step n s e in snd r && all_current (fst r) && run_ok n (fst r) t
  end.
Definition no_stale (L n sweeps : nat) : bool :=
  run_ok n (init_st L) (repeat_list (schedule true L n) sweeps).

(* ---- correspondence checkers *)
Definition entry_eqb (a b : entry) : bool :=
  match a, b with (i, m, (p, q)), (i', m', (p', q')) =>
    (i =? i')%nat && Bool.eqb m m' && Bool.eqb p p' && Bool.eqb q q' end.
Fixpoint leqb {A} (eqb : A -> A -> bool) (l1 l2 : list A) : bool :=
  match l1, l2 with
  | [], [] => true
  | x :: t1, y :: t2 => eqb x y && leqb eqb t1 t2
  | _, _ => false
  end.
(* case: (finite, L, n, schedule returned by the implementation) *)
Definition check_schedule (x : bool * nat * nat * list entry) : bool :=
  match x with (fin, L, n, es) => leqb entry_eqb es (schedule fin L n) end.
(* case: (L, n, entries the implementation executed, per step: stored LP indices, stored RP indices) *)
Definition snap_eqb (a b : bool * list nat * list nat) : bool :=
  match a, b with (f, l, r), (f', l', r') => Bool.eqb f f' && leqb Nat.eqb l l' && leqb Nat.eqb r r' end.
Definition check_run (x : nat * nat * list entry * list (list nat * list nat)) : bool :=
  match x with (L, n, es, snaps) =>
    leqb snap_eqb (map (fun p => (true, fst p, snd p)) snaps) (fst (run n (init_st L) es)) end.
