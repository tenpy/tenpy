(* Kernels that exist twice in tenpy, continued (see Model/KernelsPyCy.v, Model/KernelsPyCy2.v).
   (a) `_sliced_copy(dest, dest_beg, src, src_beg, slice_shape)`
         py  charges.py:        dest[dst_sl] = src[src_sl]       (numpy strided slice assignment)
         cy  _npc_helper.pyx:   _sliced_copy adds the offsets sum(beg[i] * strides[i]) to the data pointers and
                                calls _sliced_strided_copy, which unrolls up to three dimensions, copies the last
                                dimension with memcpy and recurses three dimensions at a time for ndim >= 4
   Memory is a flat list of elements; strides, offsets and extents are natural numbers counted in ELEMENTS
   (width = 1; byte strides of the C code divided by the item size).  `dest` and `src` are different buffers.
   Definitions only; proofs in Proofs/KernelsPyCyP4.v (a) and Proofs/KernelsPyCyP5.v (c).  Hand transcriptions, evaluated by harness/c04.py against
   both configurations: (a) by Model/KernelsPyCy2Check.v ('sliced_copy' cases), (c) by Model/KernelsPyCy3Check.v
   ('itrans' cases). *)
From TenpyV Require Import Base.Prelude.

Section SlicedCopy.
  Context {A : Type}.
  Variable dflt : A.
  Variable src : list A.

  (* dest[p] = v *)
  Definition put (dest : list A) (p : nat) (v : A) : list A :=
    if (p <? length dest)%nat then firstn p dest ++ v :: skipn (S p) dest else dest.
  (* copy one element *)
  Definition cp (dest : list A) (po so : nat) : list A := put dest po (nth so src dflt).
  (* memcpy(&dest[doff], &src[soff], n * width) *)
  Definition memcpy (dest : list A) (doff soff n : nat) : list A :=
    fold_left (fun d t => cp d (doff + t) (soff + t)) (seq 0 n) dest.

  Fixpoint dotN (strides idx : list nat) : nat :=
    match strides, idx with
    | s :: st, i :: it => i * s + dotN st it
    | _, _ => 0
    end.
  Fixpoint addN (a b : list nat) : list nat :=
    match a, b with x :: a', y :: b' => (x + y) :: addN a' b' | _, _ => [] end.
  (* np.ndindex(shape): all multi-indices, last axis fastest *)
  Fixpoint ngrid (shape : list nat) : list (list nat) :=
    match shape with
    | [] => [[]]
    | n :: t => flat_map (fun i => map (cons i) (ngrid t)) (seq 0 n)
    end.

  (* py: dest[dbeg + k] = src[sbeg + k] for every multi-index k of the slice; an element with multi-index m
     lives at sum(m[i] * strides[i]) *)
  Definition sliced_copy_py (dest : list A) (dstr dbeg sstr sbeg shape : list nat) : list A :=
    fold_left (fun d k => cp d (dotN dstr (addN dbeg k)) (dotN sstr (addN sbeg k))) (ngrid shape) dest.

  (* cy: _sliced_strided_copy *)
  Fixpoint ssc (shape dstr sstr : list nat) (doff soff : nat) (dest : list A) : list A :=
    let d0 := nth 0 dstr 0 in let s0 := nth 0 sstr 0 in
    let d1 := nth 1 dstr 0 in let s1 := nth 1 sstr 0 in
    let d2 := nth 2 dstr 0 in let s2 := nth 2 sstr 0 in
    match shape with
    | [] => dest                                                             (* if ndim < 1: return *)
    | [l0] => memcpy dest doff soff l0
    | [l0; l1] =>
        fold_left (fun d i => memcpy d (doff + i * d0) (soff + i * s0) l1) (seq 0 l0) dest
    | [l0; l1; l2] =>
        fold_left (fun d i =>
          fold_left (fun d j => memcpy d (doff + (i * d0 + j * d1)) (soff + (i * s0 + j * s1)) l2) (seq 0 l1) d)
          (seq 0 l0) dest
    | l0 :: l1 :: l2 :: rest =>
        fold_left (fun d i =>
          fold_left (fun d j =>
            fold_left (fun d k =>
              ssc rest (skipn 3 dstr) (skipn 3 sstr)
                  (doff + (i * d0 + j * d1 + k * d2)) (soff + (i * s0 + j * s1 + k * s2)) d)
              (seq 0 l2) d)
            (seq 0 l1) d)
          (seq 0 l0) dest
    end.
  (* cy: _sliced_copy *)
  Definition sliced_copy_cy (dest : list A) (dstr dbeg sstr sbeg shape : list nat) : list A :=
    ssc shape dstr sstr (dotN dstr dbeg) (dotN sstr sbeg) dest.

  (* the elementwise reference both are compared with *)
  Definition ref_copy (shape dstr sstr : list nat) (doff soff : nat) (dest : list A) : list A :=
    fold_left (fun d k => cp d (doff + dotN dstr k) (soff + dotN sstr k)) (ngrid shape) dest.
End SlicedCopy.

(* memcpy of the last axis is right when the last axis is contiguous (stride = 1 element) in both arrays, or when
   at most one element is copied along it (numpy may report any stride for an axis of extent 1) *)
Fixpoint last_ok (shape dstr sstr : list nat) : Prop :=
  match shape, dstr, sstr with
  | [l], [d], [s] => (d = 1%nat /\ s = 1%nat) \/ (l <= 1)%nat
  | _ :: t, _ :: dt, _ :: st => last_ok t dt st
  | _, _, _ => True
  end.

(* C-contiguous strides of a shape, in elements *)
Fixpoint cstrides (shape : list nat) : list nat :=
  match shape with
  | [] => []
  | _ :: t => fold_right Nat.mul 1%nat t :: cstrides t
  end.

(* ============================================================================================== *)
(* (c) Array.itranspose (np_conserved.py)  vs  Array_itranspose / Array_itranspose_fast (_npc_helper.pyx)
       py   self.legs = [self.legs[a] for a in axes]; self.iset_leg_labels([labs[a] for a in axes])  (VALIDATES
            the labels: '' and duplicates raise ValueError); self._qdata = np.array(self._qdata[:, axes], order='C');
            self._qdata_sorted = False; self._data = [np.transpose(block, axes) ...]      (strided VIEWS)
       cy   loop appending old_legs[a], old_labels[a] (no validation); GETCONTIGUOUS(self._qdata[:, axes]);
            self._qdata_sorted = False; blocks: GETCONTIGUOUS(PyArray_Transpose(block, permute)) (C-contiguous COPIES)
   Legs are identifiers (the LegCharge objects are shared, not copied); a label is None (anonymous) or Some id,
   id 0 standing for the empty string. *)

(* a block: buffer + shape + element strides (offset 0) *)
Record view := mkView { v_buf : list Z; v_shape : list nat; v_strides : list nat }.
Record arr := mkArr {
  a_legs : list nat; a_labels : list (option nat); a_qdata : list (list Z);
  a_blocks : list view; a_sorted : bool }.

Definition pick {A} (d : A) (l : list A) (axes : list nat) : list A := map (fun a => nth a l d) axes.

(* iset_leg_labels: for i, l in enumerate(labels): None -> continue; '' -> raise; l in labels[i+1:] -> raise *)
Definition lab_eqb (x y : option nat) : bool :=
  match x, y with Some a, Some b => Nat.eqb a b | None, None => true | _, _ => false end.
Fixpoint labels_valid (ls : list (option nat)) : bool :=
  match ls with
  | [] => true
  | None :: t => labels_valid t
  | Some l :: t => negb (Nat.eqb l 0) && negb (existsb (lab_eqb (Some l)) t) && labels_valid t
  end.

(* np.transpose(block, axes): a view on the same buffer *)
Definition transpose_view (v : view) (axes : list nat) : view :=
  mkView (v_buf v) (pick 0%nat (v_shape v) axes) (pick 0%nat (v_strides v) axes).
(* the elements of a view in C order *)
Definition dense (v : view) : list Z :=
  map (fun m => nth (dotN (v_strides v) m) (v_buf v) 0%Z) (ngrid (v_shape v)).
(* np.PyArray_GETCONTIGUOUS of a view: a fresh C-contiguous buffer with the same elements *)
Definition contiguous (v : view) : view := mkView (dense v) (v_shape v) (cstrides (v_shape v)).

(* len(axes) != rank or len(set(axes)) != rank  (get_leg_indices has already rejected out-of-range entries) *)
Fixpoint nodupb (l : list nat) : bool :=
  match l with [] => true | x :: t => negb (existsb (Nat.eqb x) t) && nodupb t end.
Definition axes_ok (rank : nat) (axes : list nat) : bool :=
  Nat.eqb (length axes) rank && nodupb axes && forallb (fun a => (a <? rank)%nat) axes.
Definition is_identity (rank : nat) (axes : list nat) : bool :=
  if list_eq_dec Nat.eq_dec axes (seq 0 rank) then true else false.

(* None = ValueError *)
Definition itranspose_py (a : arr) (axes : list nat) : option arr :=
  let rank := length (a_legs a) in
  if negb (axes_ok rank axes) then None
  else if is_identity rank axes then Some a
  else let labs := pick None (a_labels a) axes in
       if labels_valid labs
       then Some (mkArr (pick 0%nat (a_legs a) axes) labs (map (fun row => pick 0%Z row axes) (a_qdata a))
                        (map (fun b => transpose_view b axes) (a_blocks a)) false)
       else None.

(* cy: the append loop of Array_itranspose_fast *)
Fixpoint append_loop {A B} (dA : A) (dB : B) (oldA : list A) (oldB : list B) (axes : list nat)
         (newA : list A) (newB : list B) : list A * list B :=
  match axes with
  | [] => (newA, newB)
  | a :: t => append_loop dA dB oldA oldB t (newA ++ [nth a oldA dA]) (newB ++ [nth a oldB dB])
  end.
Definition itranspose_cy (a : arr) (axes : list nat) : option arr :=
  let rank := length (a_legs a) in
  if negb (axes_ok rank axes) then None
  else if is_identity rank axes then Some a
  else let ll := append_loop 0%nat None (a_legs a) (a_labels a) axes [] [] in
       Some (mkArr (fst ll) (snd ll) (map (fun row => pick 0%Z row axes) (a_qdata a))
                   (map (fun b => contiguous (transpose_view b axes)) (a_blocks a)) false).

(* what an observer sees of a block / of an Array (memory layout is not observable) *)
Definition view_obs (v : view) : list nat * list Z := (v_shape v, dense v).
Definition arr_obs (a : arr) :=
  (a_legs a, a_labels a, a_qdata a, map view_obs (a_blocks a), a_sorted a).
Definition prodN (l : list nat) : nat := fold_right Nat.mul 1%nat l.

(* label validity as a predicate on positions (proof vocabulary) *)
Definition LP (ls : list (option nat)) : Prop :=
  forall i j, i < length ls -> j < length ls -> i <> j -> nth i ls None = nth j ls None -> nth i ls None = None.
Definition LQ (ls : list (option nat)) : Prop := ~ In (Some 0) ls.

(* equality of two results up to the observables; None = ValueError on both sides *)
Definition opt_obs_eq (x y : option arr) : Prop :=
  match x, y with
  | Some u, Some w => arr_obs u = arr_obs w
  | None, None => True
  | _, _ => False
  end.
