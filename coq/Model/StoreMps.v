(* MPS layer on the store (heap) model Model/Store.v: tenpy.networks.mps.MPS as a record of tensor REFERENCES
   into the heap of Store.v, per-site canonical-form labels, the norm and the singular values.
   Definitions only; proofs in Proofs/StoreMpsP.v, statements in Props/C03.v (theorems T03_mps_... and, through
   `legs_view`, T03_legs_shared_across_tensors).
   Every heap effect below is one of the eleven transformers `exec h o` of Store.v (which harness/c03.py ties to
   the code by replaying histories); the definitions of this file are replayed on MPS-level histories executed by the
   code (stream `mps-history` of harness/c03.py, Model/StoreMpsCheck.v `check_mps_history`: mps_init, get_B, set_B,
   run_meas and exec against the observed changes of the caller's tensors and of psi._B[j]).  They are
   a reading of tenpy/networks/mps.py, case of trivial charge shift (shift_Array_unit_cells returns its argument:
   `if self.chinfo.trivial_shift or dx_0 == 0: return self`) and label_p=None:

     MPS.__init__   self._B = [B.astype(dtype, copy=True).itranspose(self._B_labels) for B in Bs]
                    astype(copy=True) = fresh _qdata + fresh blocks, legs shared  (OCopy true);
                    itranspose on that copy: new _qdata, np.transpose views of its own blocks (OMeta)
     get_B          B = self._B[i]; if copy: B = B.copy()  (OCopy true);
                    new_form None -> B as it is; old_form None and new_form given -> ValueError (None below);
                    per axis with new_form[k]-old_form[k] != 0: B = B.scale_axis(S**diff, axis)  (OScaleAxis: a NEW tensor);
                    otherwise B itself: with copy=False and matching form the STORED Array object is returned
     set_B          self.form[i] = form; self._B[i] = B.itranspose(self._B_labels)   (OMeta on the caller's B, then the
                    reference is stored: "No copy is made!")
     measurements   programs of get_B calls and operations of Store.v that are not in-place, plus in-place methods
                    that bind fresh blocks (itranspose, iconj, ireplace_label, iproject ...) on tensors created during the
                    measurement. *)
From TenpyV Require Import Base.Prelude Model.Store.
Open Scope Z_scope.

(* canonical form of a site: None = not canonical, Some (nuL, nuR) = exponents of the singular values on the two
   bonds, in units of 1/2:  B = (0,2)  A = (2,0)  C = (1,1)  G = (0,0)  Th = (2,2) *)
Definition form : Type := option (Z * Z).
Definition form_B : form := Some (0, 2).
Definition form_A : form := Some (2, 0).
Definition form_C : form := Some (1, 1).
Definition form_G : form := Some (0, 0).
Definition form_Th : form := Some (2, 2).

Record mps := mkMps {
  sites : list nat;        (* self._B : references to Array objects of the heap *)
  forms : list form;       (* self.form *)
  nrm : Z;                 (* self.norm *)
  svs : list (list Z)      (* self._S : singular values on the bonds 0 .. L (plain values) *)
}.
Definition site (m : mps) (i : nat) : nat := nth i (sites m) 0%nat.

(* what a caller can observe of the MPS: the values of its site tensors, forms, norm, singular values *)
Definition mps_view (h : heap) (m : mps) : list value * list form * Z * list (list Z) :=
  (map (denote h) (sites m), forms m, nrm m, svs m).

Definition mps_wf (h : heap) (m : mps) : Prop :=
  Forall (live h) (sites m) /\ length (forms m) = length (sites m).

(* the site tensors are pairwise different objects with pairwise disjoint block buffers *)
Definition sep_refs (h : heap) (cs : list nat) : Prop :=
  NoDup cs /\ forall x y, In x cs -> In y cs -> x <> y -> shares_buffer h x y = false.
Definition mps_sep (h : heap) (m : mps) : Prop := sep_refs h (sites m).

(* ---- MPS.__init__ *)
Definition perm_cols (perm : list nat) (t : list (list nat)) : list (list nat) :=
  map (fun row => map (fun k => nth k row 0%nat) perm) t.          (* _qdata[:, axes] *)
(* one input tensor (reference b, axes permutation bringing its labels to vL, p, vR) *)
Definition init_site (h : heap) (bp : nat * list nat) : heap * nat :=
  let hc := exec h (OCopy true (fst bp)) in
  exec (fst hc) (OMeta (snd hc) (perm_cols (snd bp)) (snd bp)).
Fixpoint init_sites (h : heap) (Bs : list (nat * list nat)) : heap * list nat :=
  match Bs with
  | [] => (h, [])
  | bp :: t => let hc := init_site h bp in
               let r := init_sites (fst hc) t in (fst r, snd hc :: snd r)
  end.
Definition mps_init (h : heap) (Bs : list (nat * list nat)) (fms : list form) (n : Z) (sv : list (list Z))
  : heap * mps :=
  let r := init_sites h Bs in (fst r, mkMps (snd r) fms n sv).

(* ---- MPS.get_B(i, form, copy); sc S d is the block function of scale_axis(S**d) *)
Definition scale_step (sc : list Z -> Z -> list Z -> list Z) (hr : heap * nat) (sv : list Z) (d : Z) : heap * nat :=
  if Z.eqb d 0 then hr else exec (fst hr) (OScaleAxis (snd hr) (sc sv d)).
Definition get_B (sc : list Z -> Z -> list Z -> list Z) (h : heap) (m : mps) (i : nat) (fm : form) (copy : bool)
  : option (heap * nat) :=
  let hr := if copy then exec h (OCopy true (site m i)) else (h, site m i) in
  match fm with
  | None => Some hr
  | Some (nl, nr) =>
      match nth i (forms m) None with
      | None => None
      | Some (pl, pr) =>
          Some (scale_step sc (scale_step sc hr (nth i (svs m) []) (nl - pl)) (nth (S i) (svs m) []) (nr - pr))
      end
  end.
(* the requested form needs no conversion *)
Definition form_matches (m : mps) (i : nat) (fm : form) : Prop :=
  fm = None \/ (fm <> None /\ fm = nth i (forms m) None).

(* ---- MPS.set_B(i, B, form) *)
Definition set_B (h : heap) (m : mps) (i b : nat) (fm : form) (perm : list nat) : heap * mps :=
  (fst (exec h (OMeta b (perm_cols perm) perm)),
   mkMps (upd (sites m) i b) (upd (forms m) i fm) (nrm m) (svs m)).

(* ---- measurement programs *)
Inductive mstep :=
| MsGet (i : nat) (fm : form) (copy : bool)
| MsOp (o : op).
(* an operation allowed inside a measurement that started when the heap had n0 tensors: not in-place, or an in-place
   method binding fresh blocks to a tensor created during the measurement *)
Definition meas_op_ok (n0 : nat) (o : op) : Prop :=
  match inplace_receiver o with
  | None => True
  | Some r => writes_buffers o = false /\ (n0 <= r)%nat
  end.
Fixpoint run_meas (sc : list Z -> Z -> list Z -> list Z) (h : heap) (m : mps) (prog : list mstep) : heap :=
  match prog with
  | [] => h
  | MsGet i fm cp :: t =>
      match get_B sc h m i fm cp with
      | Some hr => run_meas sc (fst hr) m t
      | None => h                                   (* the exception ends the measurement *)
      end
  | MsOp o :: t => run_meas sc (fst (exec h o)) m t
  end.
Fixpoint meas_ok (sc : list Z -> Z -> list Z -> list Z) (n0 : nat) (h : heap) (m : mps) (prog : list mstep) : Prop :=
  match prog with
  | [] => True
  | MsGet i fm cp :: t =>
      (i < length (sites m))%nat /\
      match get_B sc h m i fm cp with
      | Some hr => meas_ok sc n0 (fst hr) m t
      | None => True
      end
  | MsOp o :: t => op_ok h o /\ meas_op_ok n0 o /\ meas_ok sc n0 (fst (exec h o)) m t
  end.

(* ---- LegCharge objects as seen through a tensor: the contents of the legs of x *)
Definition legs_view (h : heap) (x : nat) : list legrec := map (fun i => nth i (legs h) dleg) (lg (obj h x)).
(* the value a transposed copy must have *)
Definition transpose_value (perm : list nat) (v : value) : value :=
  let '(b, t, l, lb, q) := v in
  (b, perm_cols perm t, map (fun k => nth k l dleg) perm, map (fun k => nth k lb 0%nat) perm, q).

(* ---- histories at the MPS level: the owner of the MPS and other callers interleave get_B calls, measurement
   programs and arbitrary operations of the store model on tensors they hold.  A step `POp o` is admissible when o is
   applicable and no site tensor of the MPS is in may_change h o, i.e. o is not an in-place method on a site or on a
   tensor sharing a block buffer with a site (the contract of get_B(copy=False): "it should not be inplace modified"). *)
Inductive mps_op :=
| PGet (i : nat) (fm : form) (cp : bool)
| PMeas (prog : list mstep)
| POp (o : op).
Definition mps_step (sc : list Z -> Z -> list Z -> list Z) (h : heap) (m : mps) (p : mps_op) : heap :=
  match p with
  | PGet i fm cp => match get_B sc h m i fm cp with Some hr => fst hr | None => h end
  | PMeas prog => run_meas sc h m prog
  | POp o => fst (exec h o)
  end.
Fixpoint mps_run (sc : list Z -> Z -> list Z -> list Z) (h : heap) (m : mps) (ps : list mps_op) : heap :=
  match ps with [] => h | p :: t => mps_run sc (mps_step sc h m p) m t end.
Definition mps_step_ok (sc : list Z -> Z -> list Z -> list Z) (h : heap) (m : mps) (p : mps_op) : Prop :=
  match p with
  | PGet i _ _ => (i < length (sites m))%nat
  | PMeas prog => meas_ok sc (length (objs h)) h m prog
  | POp o => op_ok h o /\ forall c, In c (sites m) -> ~ In c (may_change h o)
  end.
Fixpoint mps_run_ok (sc : list Z -> Z -> list Z -> list Z) (h : heap) (m : mps) (ps : list mps_op) : Prop :=
  match ps with [] => True | p :: t => mps_step_ok sc h m p /\ mps_run_ok sc (mps_step sc h m p) m t end.
