(* Model of tenpy/tools/cache.py: DictCache over an abstract Storage (property C20).
   Definitions only; proofs in Proofs/CacheP.v.  Tie to the code: correspondence (K),
   harness/c20.py streams "cache" / "cache-threaded" / "sched".

   Keys and values are integers (the harness uses the keys "k0", "k1", ... and integer values).
   The model states what the class documents (a dictionary that keeps some values in RAM):
     __setitem__   long_term_keys.add, storage.save, refresh short_term_cache if a short-term key
     __getitem__   short_term_cache hit | KeyError if not in long_term_keys | storage.load (+ cache it)
     get           default if not in long_term_keys, else __getitem__
     __delitem__   if present: long_term_keys.remove, storage.delete AND forget the short-term copy
     preload       short_term_keys.add for all keys, then storage.preload for the present ones
                   (KeyError at the first missing one if raise_missing)
     set_short_term_keys   replace short_term_keys, evict everything else from short_term_cache
   The storage is abstract: four operations on a state; `storage_ok` is the contract a storage has
   to meet (stated with an abstraction function to a partial map and an invariant, so that storages
   whose load changes their state, like ThreadedStorage, are instances).  *)
From TenpyV Require Import Base.Prelude.
Open Scope Z_scope.

(* ---- association lists and key sets (sorted insertion so that keys() is canonical) *)
Fixpoint d_get (k : Z) (d : list (Z * Z)) : option Z :=
  match d with
  | [] => None
  | (k', v') :: t => if k =? k' then Some v' else d_get k t
  end.
Fixpoint d_set (k v : Z) (d : list (Z * Z)) : list (Z * Z) :=
  match d with
  | [] => [(k, v)]
  | (k', v') :: t => if k <? k' then (k, v) :: d
                     else if k =? k' then (k, v) :: t else (k', v') :: d_set k v t
  end.
Definition d_del (k : Z) (d : list (Z * Z)) : list (Z * Z) := filter (fun p => negb (fst p =? k)) d.
Definition d_has (k : Z) (d : list (Z * Z)) : bool := match d_get k d with Some _ => true | None => false end.

Definition ks_mem (k : Z) (s : list Z) : bool := existsb (fun x => x =? k) s.
Fixpoint ks_add (k : Z) (s : list Z) : list Z :=
  match s with
  | [] => [k]
  | x :: t => if k <? x then k :: s else if k =? x then s else x :: ks_add k t
  end.
Definition ks_del (k : Z) (s : list Z) : list Z := filter (fun x => negb (x =? k)) s.
Definition ks_of_list (l : list Z) : list Z := fold_left (fun a k => ks_add k a) l [].

(* ---- the storage interface *)
Record storage_ops (St : Type) := mkSOps {
  s_load : St -> Z -> St * option Z;       (* None: the storage cannot produce the value *)
  s_save : St -> Z -> Z -> St;
  s_delete : St -> Z -> St;
  s_preload : St -> Z -> St
}.
Arguments mkSOps {St}. Arguments s_load {St}. Arguments s_save {St}. Arguments s_delete {St}. Arguments s_preload {St}.

(* contract: `abs s` is the partial map the storage denotes; DictCache only ever loads, preloads
   and deletes keys it has saved, so the contract is only needed for those *)
Definition storage_ok {St} (o : storage_ops St) (abs : St -> Z -> option Z) (inv : St -> Prop) : Prop :=
  (forall s k v, inv s -> abs s k = Some v ->
     snd (s_load o s k) = Some v /\ inv (fst (s_load o s k)) /\
     forall k', abs (fst (s_load o s k)) k' = abs s k') /\
  (forall s k v, inv s ->
     inv (s_save o s k v) /\ abs (s_save o s k v) k = Some v /\
     forall k', k' <> k -> abs (s_save o s k v) k' = abs s k') /\
  (forall s k, inv s -> abs s k <> None ->
     inv (s_delete o s k) /\ forall k', k' <> k -> abs (s_delete o s k) k' = abs s k') /\
  (forall s k, inv s -> abs s k <> None ->
     inv (s_preload o s k) /\ forall k', abs (s_preload o s k) k' = abs s k').

(* the trivial Storage (a dict), also the model of a correct disk storage *)
Definition dict_storage : storage_ops (list (Z * Z)) :=
  mkSOps (fun s k => (s, d_get k s)) (fun s k v => d_set k v s) (fun s k => d_del k s) (fun s _ => s).

(* ---- DictCache *)
Record cache (St : Type) := mkC {
  c_store : St;                 (* long_term_storage *)
  c_ltk : list Z;               (* long_term_keys *)
  c_stc : list (Z * Z);         (* short_term_cache *)
  c_stk : list Z                (* short_term_keys *)
}.
Arguments mkC {St}. Arguments c_store {St}. Arguments c_ltk {St}. Arguments c_stc {St}. Arguments c_stk {St}.

Inductive c_op :=
| CSet (k v : Z)
| CGetItem (k : Z)
| CGet (k : Z)
| CDel (k : Z)
| CContains (k : Z)
| CPreload (ks : list Z) (raise_missing : bool)
| CShort (ks : list Z)
| CKeys.

Inductive c_out :=
| ONone
| OVal (v : Z)
| OAbsent                 (* get() returned the default *)
| OKeyError
| OBool (b : bool)
| OKeys (ks : list Z)     (* sorted(cache.keys()) *)
| OStorageError.          (* the storage failed to return a value it was given; never happens over a storage that
                             meets the contract: the outputs are then those of d_run (Proofs/CacheP.v,
                             dictcache_refines_dict), and d_step below has no such output *)

Section WithStorage.
  Context {St : Type} (o : storage_ops St).

  Definition c_getitem (c : cache St) (k : Z) : cache St * c_out :=
    match d_get k (c_stc c) with
    | Some v => (c, OVal v)
    | None =>
        if ks_mem k (c_ltk c) then
          let (s', r) := s_load o (c_store c) k in
          match r with
          | Some v => (mkC s' (c_ltk c) (if ks_mem k (c_stk c) then d_set k v (c_stc c) else c_stc c)
                           (c_stk c), OVal v)
          | None => (mkC s' (c_ltk c) (c_stc c) (c_stk c), OStorageError)
          end
        else (c, OKeyError)
    end.

  (* second loop of preload(): returns the storage and whether a KeyError was raised *)
  Fixpoint preload_loop (s : St) (ltk ks : list Z) (rm : bool) : St * bool :=
    match ks with
    | [] => (s, false)
    | k :: t => if ks_mem k ltk then preload_loop (s_preload o s k) ltk t rm
                else if rm then (s, true) else preload_loop s ltk t rm
    end.

  Definition c_step (c : cache St) (op : c_op) : cache St * c_out :=
    match op with
    | CSet k v =>
        (mkC (s_save o (c_store c) k v) (ks_add k (c_ltk c))
             (if ks_mem k (c_stk c) then d_set k v (c_stc c) else c_stc c) (c_stk c), ONone)
    | CGetItem k => c_getitem c k
    | CGet k => if ks_mem k (c_ltk c) then c_getitem c k else (c, OAbsent)
    | CDel k =>
        if ks_mem k (c_ltk c)
        then (mkC (s_delete o (c_store c) k) (ks_del k (c_ltk c)) (d_del k (c_stc c)) (c_stk c), ONone)
        else (c, ONone)
    | CContains k => (c, OBool (ks_mem k (c_ltk c)))
    | CPreload ks rm =>
        let stk := fold_left (fun a k => ks_add k a) ks (c_stk c) in
        let (s', err) := preload_loop (c_store c) (c_ltk c) ks rm in
        (mkC s' (c_ltk c) (c_stc c) stk, if err then OKeyError else ONone)
    | CShort ks =>
        let stk := ks_of_list ks in
        (mkC (c_store c) (c_ltk c) (filter (fun p => ks_mem (fst p) stk) (c_stc c)) stk, ONone)
    | CKeys => (c, OKeys (c_ltk c))
    end.

  Fixpoint c_run (c : cache St) (ops : list c_op) : cache St * list c_out :=
    match ops with
    | [] => (c, [])
    | op :: t => let (c1, x) := c_step c op in let (c2, xs) := c_run c1 t in (c2, x :: xs)
    end.
End WithStorage.

Definition c_empty {St} (s : St) : cache St := mkC s [] [] [].

(* ---- the specification: a plain dictionary *)
Definition d_step (d : list (Z * Z)) (op : c_op) : list (Z * Z) * c_out :=
  match op with
  | CSet k v => (d_set k v d, ONone)
  | CGetItem k => (d, match d_get k d with Some v => OVal v | None => OKeyError end)
  | CGet k => (d, match d_get k d with Some v => OVal v | None => OAbsent end)
  | CDel k => (d_del k d, ONone)            (* like the class: deleting an absent key is a no-op *)
  | CContains k => (d, OBool (d_has k d))
  | CPreload ks rm => (d, if rm && existsb (fun k => negb (d_has k d)) ks then OKeyError else ONone)
  | CShort _ => (d, ONone)
  | CKeys => (d, OKeys (map fst d))
  end.

Fixpoint d_run (d : list (Z * Z)) (ops : list c_op) : list (Z * Z) * list c_out :=
  match ops with
  | [] => (d, [])
  | op :: t => let (d1, x) := d_step d op in let (d2, xs) := d_run d1 t in (d2, x :: xs)
  end.

(* does the operation change what is stored under k *)
Definition writes_key (k : Z) (op : c_op) : bool :=
  match op with CSet k' _ => k' =? k | CDel k' => k' =? k | _ => false end.

(* ---- several caches (a root and its sub-caches): each has its own container *)
Inductive m_op :=
| MOp (i : nat) (op : c_op)      (* operation on cache number i *)
| MSub (parent : nat).           (* create_subcache: a new, empty cache is appended *)

Fixpoint upd_nth {A} (n : nat) (x : A) (l : list A) : list A :=
  match l, n with
  | [], _ => []
  | _ :: t, O => x :: t
  | y :: t, S n' => y :: upd_nth n' x t
  end.

Definition m_step (cs : list (cache (list (Z * Z)))) (op : m_op) : list (cache (list (Z * Z))) * c_out :=
  match op with
  | MOp i op' =>
      match nth_error cs i with
      | Some c => let (c', x) := c_step dict_storage c op' in (upd_nth i c' cs, x)
      | None => (cs, OStorageError)
      end
  | MSub p => (cs ++ [c_empty []], ONone)
  end.

Fixpoint m_run (cs : list (cache (list (Z * Z)))) (ops : list m_op) : list (cache (list (Z * Z))) * list c_out :=
  match ops with
  | [] => (cs, [])
  | op :: t => let (c1, x) := m_step cs op in let (c2, xs) := m_run c1 t in (c2, x :: xs)
  end.

(* the operations addressed to cache i, and the outputs they produced *)
Fixpoint m_proj (i : nat) (ops : list m_op) : list c_op :=
  match ops with
  | [] => []
  | MOp j op :: t => if Nat.eqb i j then op :: m_proj i t else m_proj i t
  | MSub _ :: t => m_proj i t
  end.
Fixpoint m_proj_out (i : nat) (ops : list m_op) (outs : list c_out) : list c_out :=
  match ops, outs with
  | MOp j _ :: t, x :: xs => if Nat.eqb i j then x :: m_proj_out i t xs else m_proj_out i t xs
  | MSub _ :: t, _ :: xs => m_proj_out i t xs
  | _, _ => []
  end.

(* ---- correspondence checker *)
Fixpoint lZ_eqb (a b : list Z) : bool :=
  match a, b with
  | [], [] => true
  | x :: a', y :: b' => (x =? y) && lZ_eqb a' b'
  | _, _ => false
  end.
Definition c_out_eqb (a b : c_out) : bool :=
  match a, b with
  | ONone, ONone => true
  | OVal x, OVal y => x =? y
  | OAbsent, OAbsent => true
  | OKeyError, OKeyError => true
  | OBool x, OBool y => Bool.eqb x y
  | OKeys x, OKeys y => lZ_eqb x y
  | OStorageError, OStorageError => true
  | _, _ => false
  end.

(* expected outputs: None = this step was not observed on the implementation *)
Fixpoint outs_match (model : list c_out) (impl : list (option c_out)) : bool :=
  match model, impl with
  | [], [] => true
  | x :: t, None :: t' => outs_match t t'
  | x :: t, Some y :: t' => c_out_eqb x y && outs_match t t'
  | _, _ => false
  end.

Definition check_cache (c : list m_op * list (option c_out)) : bool :=
  outs_match (snd (m_run [c_empty []] (fst c))) (snd c).
