(* Model of tenpy/tools/cache.py ThreadedStorage together with tenpy/tools/thread.py Worker as a
   labelled transition system (property C20).  Definitions only; proofs in Proofs/CacheThreadP.v.
   Tie to the code: correspondence (K), harness/c20_sched.py (worker schedule enforced by gates).

   Two threads share: the FIFO `tasks` (queue.Queue with maxsize, its unfinished-task counter used by
   join()), the dict `_loaded` (written by the worker, read/changed by the caller), the `exit` flag /
   liveness of the worker thread, and the disk storage (touched by the worker only).
   `_waiting_for_load` is local to the caller.

   CALLER steps.  A storage operation is split where the caller can block or where it reads state
   the worker writes.  The program counter says where inside an operation the caller is:
     PIdle          between operations (the next step starts the next operation of the program)
     PPut t c       inside Worker.put_task: the liveness test has passed, Queue.put waits for a slot
     PLoadB k       ThreadedStorage.load after its put phase: about to test `key in self._loaded`
     PLoadJ k       load inside Worker.join_tasks: first liveness test passed, Queue.join() waits
     PSaveJ k v     save of a key with an outstanding preload, inside join_tasks
   Local actions (adding to _waiting_for_load, writing _loaded[key] right after a join) are merged
   into the neighbouring step; this is exact because the other thread cannot observe the difference
   (_waiting_for_load is private; after a join nothing is pending that could touch _loaded[key]).
   Not modelled: the few instructions between `tasks.task_done()` of a failing task and `exit.set()`
   (a caller that slips through there sees AssertionError instead of WorkerDied).  close()/__exit__ are not in this
   file: Model/CacheClose.v adds them to this transition system.

   WORKER steps: dequeue one task (Queue.get), execute it and call task_done, or -- when the task
   raises -- set `exit`, drain the queue (one step per drained item) and terminate.
   `fail_at = Some n`: the n-th task the worker starts raises (fault injection of the harness);
   a load of a key that is not on disk raises as well.

   A SCHEDULE is any list of choices caller/worker; a step that is not enabled leaves the state
   unchanged (the thread is blocked). *)
From TenpyV Require Import Base.Prelude Model.Cache.
Open Scope Z_scope.

Inductive task := TLoad (k : Z) | TSave (k v : Z) | TDelete (k : Z).
Inductive wstatus := WIdle | WRun (t : task) | WDying | WDead.
Inductive s_op := SLoad (k : Z) | SPreload (k : Z) | SSave (k v : Z) | SDelete (k : Z).
Inductive cont := KDone | KLoadB (k : Z).
Inductive pcs := PIdle | PPut (t : task) (c : cont) | PLoadB (k : Z) | PLoadJ (k : Z) | PSaveJ (k v : Z).
Inductive t_out := TOk | TVal (v : Z) | TWorkerDied | TAssertion.

Record tstate := mkT {
  t_disk : list (Z * Z);      (* content of the disk storage *)
  t_queue : list task;        (* Worker.tasks, head = next to be taken *)
  t_unfinished : nat;         (* Queue.unfinished_tasks *)
  t_status : wstatus;         (* worker thread *)
  t_started : nat;            (* number of tasks the worker has started (fault injection) *)
  t_loaded : list (Z * Z);    (* ThreadedStorage._loaded *)
  t_waiting : list Z;         (* ThreadedStorage._waiting_for_load *)
  t_pc : pcs;
  t_prog : list s_op;         (* operations the caller still has to start *)
  t_outs : list t_out         (* results of the finished operations, latest first *)
}.

Definition init (prog : list s_op) : tstate := mkT [] [] 0 WIdle 0 [] [] PIdle prog [].

Definition set_pc (st : tstate) (p : pcs) : tstate :=
  mkT (t_disk st) (t_queue st) (t_unfinished st) (t_status st) (t_started st) (t_loaded st)
      (t_waiting st) p (t_prog st) (t_outs st).
Definition set_loaded_waiting (st : tstate) (l : list (Z * Z)) (w : list Z) : tstate :=
  mkT (t_disk st) (t_queue st) (t_unfinished st) (t_status st) (t_started st) l w (t_pc st)
      (t_prog st) (t_outs st).
Definition set_prog (st : tstate) (p : list s_op) : tstate :=
  mkT (t_disk st) (t_queue st) (t_unfinished st) (t_status st) (t_started st) (t_loaded st)
      (t_waiting st) (t_pc st) p (t_outs st).

Section Lts.
  Variable qmax : nat.              (* max_queue_size, 0 = unbounded *)
  Variable fail_at : option nat.

  Definition has_space (st : tstate) : bool :=
    Nat.eqb qmax 0 || Nat.ltb (length (t_queue st)) qmax.

  (* Worker._test_worker_alive fails: exit is set or the thread is gone *)
  Definition dead (st : tstate) : bool :=
    match t_status st with WDying | WDead => true | _ => false end.

  (* the operation returns / raises: back to PIdle *)
  Definition finish (st : tstate) (o : t_out) : tstate :=
    mkT (t_disk st) (t_queue st) (t_unfinished st) (t_status st) (t_started st) (t_loaded st)
        (t_waiting st) PIdle (t_prog st) (o :: t_outs st).

  Definition enqueue (st : tstate) (t : task) : tstate :=
    mkT (t_disk st) (t_queue st ++ [t]) (S (t_unfinished st)) (t_status st) (t_started st)
        (t_loaded st) (t_waiting st) (t_pc st) (t_prog st) (t_outs st).

  Definition continue (st : tstate) (c : cont) : tstate :=
    match c with KDone => finish st TOk | KLoadB k => set_pc st (PLoadB k) end.

  (* Worker.put_task *)
  Definition do_put (st : tstate) (t : task) (c : cont) : tstate :=
    if dead st then finish st TWorkerDied
    else if has_space st then continue (enqueue st t) c
    else set_pc st (PPut t c).

  (* end of ThreadedStorage.load *)
  Definition finish_load (st : tstate) (k : Z) : tstate :=
    match d_get k (t_loaded st) with
    | Some v => finish (set_loaded_waiting st (d_del k (t_loaded st)) (ks_del k (t_waiting st))) (TVal v)
    | None => finish st TAssertion
    end.

  Definition start_op (st : tstate) (op : s_op) : tstate :=
    match op with
    | SLoad k =>
        if negb (d_has k (t_loaded st)) && negb (ks_mem k (t_waiting st))
        then do_put (set_loaded_waiting st (t_loaded st) (ks_add k (t_waiting st))) (TLoad k) (KLoadB k)
        else set_pc st (PLoadB k)
    | SPreload k =>
        if ks_mem k (t_waiting st) || d_has k (t_loaded st) then finish st TOk
        else do_put (set_loaded_waiting st (t_loaded st) (ks_add k (t_waiting st))) (TLoad k) KDone
    | SSave k v =>
        if ks_mem k (t_waiting st)
        then (if dead st then finish st TWorkerDied else set_pc st (PSaveJ k v))
        else do_put st (TSave k v) KDone
    | SDelete k => do_put st (TDelete k) KDone
    end.

  (* None: the caller is blocked (or has nothing left to do) *)
  Definition caller_step (st : tstate) : option tstate :=
    match t_pc st with
    | PIdle =>
        match t_prog st with
        | [] => None
        | op :: rest => Some (start_op (set_prog st rest) op)
        end
    | PPut t c => if has_space st then Some (continue (enqueue st t) c) else None
    | PLoadB k =>
        Some (if d_has k (t_loaded st) then finish_load st k
              else if dead st then finish st TWorkerDied else set_pc st (PLoadJ k))
    | PLoadJ k =>
        if Nat.eqb (t_unfinished st) 0
        then Some (if dead st then finish st TWorkerDied else finish_load st k)
        else None
    | PSaveJ k v =>
        if Nat.eqb (t_unfinished st) 0
        then Some (if dead st then finish st TWorkerDied
                   else match d_get k (t_loaded st) with
                        | Some _ => do_put (set_loaded_waiting st (d_set k v (t_loaded st)) (t_waiting st))
                                           (TSave k v) KDone
                        | None => finish st TAssertion
                        end)
        else None
    end.

  (* effect of a task on (disk, _loaded); None: the task raises *)
  Definition exec_task (disk loaded : list (Z * Z)) (t : task) : option (list (Z * Z) * list (Z * Z)) :=
    match t with
    | TLoad k => match d_get k disk with Some v => Some (disk, d_set k v loaded) | None => None end
    | TSave k v => Some (d_set k v disk, loaded)
    | TDelete k => Some (d_del k disk, loaded)
    end.

  Definition set_worker (st : tstate) (disk : list (Z * Z)) (q : list task) (u : nat) (s : wstatus)
             (n : nat) (l : list (Z * Z)) : tstate :=
    mkT disk q u s n l (t_waiting st) (t_pc st) (t_prog st) (t_outs st).

  Definition worker_step (st : tstate) : option tstate :=
    match t_status st with
    | WIdle =>
        match t_queue st with
        | [] => None
        | t :: q => Some (set_worker st (t_disk st) q (t_unfinished st) (WRun t) (t_started st) (t_loaded st))
        end
    | WRun t =>
        let injected := match fail_at with Some n => Nat.eqb n (t_started st) | None => false end in
        let u := pred (t_unfinished st) in
        let n := S (t_started st) in
        Some (if injected then set_worker st (t_disk st) (t_queue st) u WDying n (t_loaded st)
              else match exec_task (t_disk st) (t_loaded st) t with
                   | Some (d, l) => set_worker st d (t_queue st) u WIdle n l
                   | None => set_worker st (t_disk st) (t_queue st) u WDying n (t_loaded st)
                   end)
    | WDying =>
        match t_queue st with
        | [] => Some (set_worker st (t_disk st) [] (t_unfinished st) WDead (t_started st) (t_loaded st))
        | _ :: q => Some (set_worker st (t_disk st) q (pred (t_unfinished st)) WDying (t_started st) (t_loaded st))
        end
    | WDead => None
    end.

  (* one scheduler choice: true = caller, false = worker; a disabled thread does not move *)
  Definition lts_step (st : tstate) (c : bool) : tstate :=
    match (if c then caller_step st else worker_step st) with Some st' => st' | None => st end.

  Definition lts_run (sched : list bool) (st : tstate) : tstate := fold_left lts_step sched st.

  Fixpoint iter_worker (n : nat) (st : tstate) : tstate :=
    match n with
    | O => st
    | S n' => match worker_step st with Some st' => iter_worker n' st' | None => st end
    end.

  Definition caller_finished (st : tstate) : bool :=
    match t_pc st, t_prog st with PIdle, [] => true | _, _ => false end.
End Lts.

(* ---- the sequential specification: a key-value store *)
Definition spec_m (m : list (Z * Z)) (op : s_op) : list (Z * Z) :=
  match op with SSave k v => d_set k v m | SDelete k => d_del k m | _ => m end.
Definition spec_out (m : list (Z * Z)) (op : s_op) : t_out :=
  match op with
  | SLoad k => match d_get k m with Some v => TVal v | None => TAssertion end
  | _ => TOk
  end.
Fixpoint spec_outs (m : list (Z * Z)) (prog : list s_op) : list t_out :=
  match prog with [] => [] | op :: t => spec_out m op :: spec_outs (spec_m m op) t end.

(* the calls DictCache makes: load / preload / delete only for keys it has saved *)
Fixpoint wf (m : list (Z * Z)) (prog : list s_op) : bool :=
  match prog with
  | [] => true
  | op :: t => (match op with SLoad k | SPreload k | SDelete k => d_has k m | SSave _ _ => true end)
               && wf (spec_m m op) t
  end.

(* ---- the storage calls a DictCache issues: the in-memory storage with a log of the calls *)
Definition log_storage : storage_ops (list (Z * Z) * list s_op) :=
  mkSOps (fun s k => ((fst s, snd s ++ [SLoad k]), d_get k (fst s)))
         (fun s k v => (d_set k v (fst s), snd s ++ [SSave k v]))
         (fun s k => (d_del k (fst s), snd s ++ [SDelete k]))
         (fun s k => (fst s, snd s ++ [SPreload k])).

Definition calls_of (ops : list c_op) : list s_op :=
  snd (c_store (fst (c_run log_storage (c_empty ([], [])) ops))).

(* does the operation change what is stored under k *)
Definition s_writes (k : Z) (op : s_op) : bool :=
  match op with SSave k' _ => k' =? k | SDelete k' => k' =? k | _ => false end.

(* does the operation need the worker (it is not answered from _loaded / _waiting_for_load) *)
Definition needs_worker (st : tstate) (op : s_op) : bool :=
  match op with
  | SLoad k | SPreload k => negb (d_has k (t_loaded st)) && negb (ks_mem k (t_waiting st))
  | SSave _ _ | SDelete _ => true
  end.

(* tasks the worker still has to finish, in execution order *)
Definition pending (st : tstate) : list task :=
  (match t_status st with WRun t => [t] | _ => [] end) ++ t_queue st.

(* ---- correspondence with the gated implementation (harness/c20_sched.py).
   The harness controls two events only: "start the next operation" (C) and "open the gate of the
   task the worker holds" (W).  Everything else happens by itself: the worker takes the next task as
   soon as it is idle, a dying worker drains and terminates, a blocked caller continues as soon as
   it can.  `settle` runs these uncontrolled steps to quiescence. *)
Section Replay.
  Variable qmax : nat.
  Variable fail_at : option nat.

  Definition uncontrolled (st : tstate) : option tstate :=
    match t_status st with
    | WIdle => match t_queue st with
               | _ :: _ => worker_step fail_at st
               | [] => match t_pc st with PIdle => None | _ => caller_step qmax st end
               end
    | WDying => worker_step fail_at st
    | _ => match t_pc st with PIdle => None | _ => caller_step qmax st end
    end.

  Fixpoint settle (fuel : nat) (st : tstate) : tstate :=
    match fuel with
    | O => st
    | S f => match uncontrolled st with Some st' => settle f st' | None => st end
    end.

  Definition out_code (o : t_out) : list Z :=
    match o with TOk => [0] | TVal v => [1; v] | TWorkerDied => [2] | TAssertion => [3] end.
  Definition task_code (t : task) : list Z :=
    match t with TLoad k => [0; k] | TSave k _ => [1; k] | TDelete k => [2; k] end.
  Definition block_code (st : tstate) : list Z :=
    match t_pc st with PPut _ _ => [31] | PLoadJ _ | PSaveJ _ _ => [32] | _ => [39] end.

  Definition fuel_of (st : tstate) : nat := 4 * length (t_queue st) + 8.

  (* one token of the harness schedule; returns the new state and the observable event *)
  Definition replay_tok (st : tstate) (c : bool) : tstate * list Z :=
    if c then
      match t_pc st, t_prog st with
      | PIdle, [] => (st, [14])
      | PIdle, _ :: _ =>
          match caller_step qmax st with
          | Some st1 =>
              let st2 := settle (fuel_of st1) st1 in
              (st2, match t_pc st2 with
                    | PIdle => 10 :: match t_outs st2 with o :: _ => out_code o | [] => [] end
                    | PPut _ _ => [11]
                    | _ => [12]
                    end)
          | None => (st, [14])
          end
      | _, _ => (st, [13])
      end
    else
      match t_status st with
      | WRun t =>
          match worker_step fail_at st with
          | Some st1 =>
              let st2 := settle (fuel_of st1) st1 in
              (st2, 21 :: task_code t ++
                    match t_pc st, t_pc st2 with
                    | PIdle, _ => []
                    | _, PIdle => 30 :: match t_outs st2 with o :: _ => out_code o | [] => [] end
                    | _, _ => block_code st2
                    end)
          | None => (st, [20])
          end
      | _ => (st, [20])
      end.

  Fixpoint replay (st : tstate) (toks : list bool) : tstate * list (list Z) :=
    match toks with
    | [] => (st, [])
    | c :: t => let (st1, e) := replay_tok st c in let (st2, es) := replay st1 t in (st2, e :: es)
    end.
End Replay.

Fixpoint llZ_eqb (a b : list (list Z)) : bool :=
  match a, b with
  | [], [] => true
  | x :: a', y :: b' => lZ_eqb x y && llZ_eqb a' b'
  | _, _ => false
  end.

(* case: queue size, injected failure, program, schedule tokens, observed events,
   keys of _loaded and _waiting_for_load at the end (sorted), worker thread alive at the end *)
Definition check_sched
  (c : nat * option nat * list s_op * list bool * list (list Z) * list Z * list Z * bool) : bool :=
  let '(qmax, fail_at, prog, toks, events, loaded, waiting, alive) := c in
  let (st, es) := replay qmax fail_at (init prog) toks in
  llZ_eqb es events && lZ_eqb (map fst (t_loaded st)) loaded && lZ_eqb (t_waiting st) waiting
  && Bool.eqb (negb (dead st)) alive.
