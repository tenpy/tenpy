(* Additional definitions for C06 (statements of T06_sort, T06_perm_flat, T06_qmap_tiling, T06_qmap_slices,
   T06_qmap_rows_lexsorted, T06_split_combine).
   Definitions only; nothing here is used by the correspondence checkers of Model/PipeCase.v. *)
From TenpyV Require Import Base.Prelude Model.ChargeL Model.Leg Model.Pipe.
Open Scope Z_scope.

(* ---- reading a per-index list at the positions of a flat permutation: xs[perm_flat] *)
Definition take_flat {A} (d : A) (xs : list A) (pf : list Z) : list A :=
  map (fun k => nth (Z.to_nat k) xs d) pf.

(* ---- tiling: the half-open slices [x, y) of the list, in the order given, start at a, every stop is the
   next start, the last stop is b (no gap, no overlap; x <= y, so the starts are nondecreasing) *)
Fixpoint tiles (a : Z) (l : list (Z * Z)) (b : Z) : Prop :=
  match l with
  | [] => a = b
  | xy :: t => fst xy = a /\ fst xy <= snd xy /\ tiles (snd xy) t b
  end.

(* the q_map rows of the outgoing block I, in the order of q_map *)
Definition qmap_rows_of (p : pipe) (I : nat) : list qrow := filter (fun qr => Nat.eqb (q_Is qr) I) (p_qmap p).
Definition qslice (qr : qrow) : Z * Z := (q_b0 qr, q_b1 qr).

(* block-wise form of q_map: the rows of the group g (= outgoing block I) carry the running offsets inside g *)
Definition qm_group (I : nat) (g : list row) : list qrow :=
  map (fun k => mkQ (offs (map r_sz g) k) (offs (map r_sz g) (S k)) I (r_q (nth k g row0))) (seq 0 (length g)).
Fixpoint qm_blocks (I0 : nat) (gs : list (list row)) : list qrow :=
  match gs with [] => [] | g :: t => qm_group I0 g ++ qm_blocks (S I0) t end.

(* ---- combine_legs / split_legs on dense tensors seen as functions of the index:
   f : incoming index tuple -> entry, g : outgoing flat index -> entry.  Outside the index range
   (where the maps are undefined) the value is 0. *)
Definition combine_fn (p : pipe) (f : list Z -> Z) : Z -> Z :=
  fun k => match map_outgoing_flat p k with Some t => f t | None => 0 end.
Definition split_fn (p : pipe) (g : Z -> Z) : list Z -> Z :=
  fun t => match map_incoming_flat p t with Some k => g k | None => 0 end.
