(* Model of the LegCharge methods that a LegPipe inherits or overrides and that return a LegPipe again (C06):
   copy, conj (Model/Pipe.v: conj_pipe), flip_charges_qconj, outer_conj; and the case checker evaluated by
   harness/c06.py on every generated pipe.  Definitions only.

   tenpy/linalg/charges.py: LegCharge.flip_charges_qconj is inherited by LegPipe.  It is documented as "copy of self with
   negative qconj and charges, thus representing the very same charges": the OUTGOING leg of the pipe changes
   (charges -> make_valid(-charges), qconj -> -qconj), the incoming legs, q_map, q_map_slices, slices are the ones
   of `self`.  LegPipe.outer_conj is documented as "like conj, but don't change qconj for incoming legs" and has the
   same discrete content.  (LegPipe.conj additionally conjugates every incoming leg.) *)
From TenpyV Require Import Base.Prelude Model.ChargeL Model.Leg Model.Pipe Model.PipeCase.
Open Scope Z_scope.

Definition neg_block (ci : chinfo) (b : block) : block := (fst b, make_valid ci (vneg (snd b))).
Definition neg_row (ci : chinfo) (r : row) : row := mkRow (make_valid ci (vneg (r_ch r))) (r_sz r) (r_q r).

Definition flip_pipe (ci : chinfo) (p : pipe) : pipe :=
  mkPipe (p_legs p) (- p_qconj p) (map (neg_row ci) (p_rows p)) (map (neg_block ci) (p_blocks p))
         (p_qmap p) (p_qmap_slices p).

(* op code of the harness: 0 copy, 1 conj, 2 flip_charges_qconj, 3 outer_conj *)
Definition pipe_op (ci : chinfo) (op : nat) (p : pipe) : pipe :=
  match op with
  | O => p
  | S O => conj_pipe p
  | _ => flip_pipe ci p
  end.

(* ---- case checker *)
(* ((chinfo, legs, qconj, sort, bunch, (charges, slices, q_map, q_map_slices, map_incoming_flat on every tuple)),
    [(op, (directions of the stored incoming legs of the result, qconj of the result, charges of the result,
           same_blocks, same_layout))])
   first component: exactly the case of PipeCase.check_pipe_case (same comparisons; the model pipe is built once);
   second: the pipes returned by copy / conj / flip_charges_qconj / outer_conj.  To keep the literals small the
   harness sends what can change (directions, charges) and two flags it computed from the implementation's output:
   same_blocks = the (size, charge) blocks of the stored incoming legs of the result are those of the legs of the
   pipe, same_layout = slices, q_map, q_map_slices of the result are those of the pipe.  In the model both hold for
   every op (checked here by computation, not assumed), so a false flag is a disagreement.  map_incoming_flat of the
   returned pipes is compared by the harness with the one of the pipe itself (equal in the model:
   Proofs/PipeOpsP.v flip_pipe_mif; conj_pipe changes the direction of the incoming legs, of which map_incoming_flat reads
   only the block sizes). *)
Definition qrow_eqb (a b : qrow) : bool :=
  (q_b0 a =? q_b0 b) && (q_b1 a =? q_b1 b) && Nat.eqb (q_Is a) (q_Is b) && nl_eqb (q_q a) (q_q b).
Definition model_same_blocks (p p' : pipe) : bool :=
  all2 (fun a b => blocks_eqb (blocks a) (blocks b)) (p_legs p) (p_legs p').
Definition model_same_layout (p p' : pipe) : bool :=
  zl_eqb (map fst (p_blocks p)) (map fst (p_blocks p')) && all2 qrow_eqb (p_qmap p) (p_qmap p')
  && zl_eqb (p_qmap_slices p) (p_qmap_slices p').

Definition check_pipe_case2
  (c : (chinfo * list (list block * Z) * Z * bool * bool *
        (list cvec * list Z * list (list Z) * list Z * list (option Z))) *
       list (nat * (list Z * Z * list cvec * bool * bool))) : bool :=
  let '((ci, ls, qconj, srt, bnch, (ch, sl, qm, qs, mf)), ops) := c in
  let p := pipe_init ci (mk_legs ls) qconj srt bnch in
  let '(ch', sl', qm', qs', mf') := pipe_obs p in
  zll_eqb ch ch' && zl_eqb sl sl' && zll_eqb qm qm' && zl_eqb qs qs' && all2 oz_eqb mf mf'
  && all2 (fun t k => match k with
                      | Some k' => match map_outgoing_flat p k' with
                                   | Some t' => zl_eqb t t' | None => false end
                      | None => false end)
          (zgrid (map ind_len (mk_legs ls))) mf
  && forallb (fun o => let '(op, (lq, q, och, same_blocks, same_layout)) := o in
                       let p' := pipe_op ci op p in
                       zl_eqb lq (map qc (p_legs p')) && (q =? p_qconj p') && zll_eqb och (map snd (p_blocks p'))
                       && Bool.eqb same_blocks (model_same_blocks p p')
                       && Bool.eqb same_layout (model_same_layout p p')) ops.
