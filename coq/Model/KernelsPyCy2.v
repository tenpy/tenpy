(* More kernels that exist twice in tenpy (pure-Python fallback, suffix _py, in tenpy/linalg/np_conserved.py and
   charges.py; compiled version, suffix _cy, in tenpy/linalg/_npc_helper.pyx), both ALGORITHMS written out from
   the two sources.  Definitions only; proofs in Proofs/KernelsPyCyP2.v (merge) and Proofs/KernelsPyCyP3.v
   (q_map), statements in Props/C04.v.

   (d) the block merge of `Array.iadd_prefactor_other`:
         py  Array.ibinary_blockwise (np_conserved.py): two-pointer `while` loop over the F-strided keys,
             results appended to python lists `qdata`, `data`
         cy  Array_iadd_prefactor_other (_npc_helper.pyx): the same comparison chain, rows written entry by entry
             into a preallocated (Na+Nb, rank) table `new_qdata` at `new_row`, truncated at the end
       Both start with the fast path `Na == Nb and np.all(aq == bq)`.
   (b) the q_map construction of `LegPipe._init_from_legs` (charges.py / LegPipe__init_from_legs).

   Tie to the code: hand transcriptions of the two sources, evaluated by harness/c04.py against BOTH
   configurations: (b) by Model/KernelsPyCy2Check.v (check2_py / check2_cy, 'pipe' cases), (d) by
   Model/KernelsPyCy3Check.v (check3_py / check3_cy, 'merge' cases).  They reuse the correspondence-checked
   kernels of Model/KernelsPyCy.v (make_valid_py/_cy, frd_py/_cy = _find_row_differences, fill). *)
From TenpyV Require Import Base.Prelude Model.KernelsPyCy.
Open Scope Z_scope.

(* ============================================================================================== *)
(* (d) merge                                                                                      *)

(* what is done with the blocks at one output row:
     Both i j : py func(adata[i], bdata[j])                 cy ta = adata[i]; ta += prefactor * bdata[j]
     OnlyB j  : py func(zeros_like(bdata[j]), bdata[j])     cy ta = bdata[j].copy(); ta *= prefactor
     OnlyA i  : py func(adata[i], zeros_like(adata[i]))     cy adata[i]                                     *)
Inductive which := Both (i j : nat) | OnlyA (i : nat) | OnlyB (j : nat).

(* aq_ = np.sum(aq * stride, axis=1)   (same numpy expression in both sources) *)
Definition fkey (stride row : list Z) : Z := sumZ (row_map2 Z.mul row stride).
Definition fkeys (stride : list Z) (q : list (list Z)) : list Z := map (fkey stride) q.

Definition rowZ (q : list (list Z)) (i : nat) : list Z := nth i q [].

(* result of the loop; None = the `assert False` branch or fuel exhausted (neither happens, see the proofs) *)
Definition merged := option (list (list Z) * list which).

(* py: while i < Na or j < Nb: ...   qdata.append(...); data.append(...) *)
Fixpoint merge_py (fuel : nat) (ak bk : list Z) (aq bq : list (list Z)) (i j : nat)
                  (qdata : list (list Z)) (data : list which) : merged :=
  let Na := length aq in let Nb := length bq in
  if (i <? Na)%nat || (j <? Nb)%nat then
    match fuel with
    | O => None
    | S f =>
      if (i <? Na)%nat && (j <? Nb)%nat && (nthZ ak i =? nthZ bk j) then
        merge_py f ak bk aq bq (S i) (S j) (qdata ++ [rowZ aq i]) (data ++ [Both i j])
      else if (Na <=? i)%nat || ((j <? Nb)%nat && (nthZ ak i >? nthZ bk j)) then
        merge_py f ak bk aq bq i (S j) (qdata ++ [rowZ bq j]) (data ++ [OnlyB j])
      else if (Nb <=? j)%nat || (nthZ ak i <? nthZ bk j) then
        merge_py f ak bk aq bq (S i) j (qdata ++ [rowZ aq i]) (data ++ [OnlyA i])
      else None
    end
  else Some (qdata, data).

(* cy: for k in range(rank): new_qdata[new_row, k] = src[i, k] *)
Definition copy_row (rank : nat) (row : list Z) : list Z := map (fun k => nthZ row k) (seq 0 rank).
Definition set_row (tbl : list (list Z)) (r : nat) (row : list Z) : list (list Z) :=
  firstn r tbl ++ row :: skipn (S r) tbl.

Fixpoint merge_cy (fuel : nat) (rank : nat) (ak bk : list Z) (aq bq : list (list Z)) (i j : nat)
                  (new_qdata : list (list Z)) (new_row : nat) (new_data : list which) : merged :=
  let Na := length aq in let Nb := length bq in
  if (i <? Na)%nat || (j <? Nb)%nat then
    match fuel with
    | O => None
    | S f =>
      if (i <? Na)%nat && (j <? Nb)%nat && (nthZ ak i =? nthZ bk j) then
        merge_cy f rank ak bk aq bq (S i) (S j) (set_row new_qdata new_row (copy_row rank (rowZ aq i)))
                 (S new_row) (new_data ++ [Both i j])
      else if (Na <=? i)%nat || ((j <? Nb)%nat && (nthZ ak i >? nthZ bk j)) then
        merge_cy f rank ak bk aq bq i (S j) (set_row new_qdata new_row (copy_row rank (rowZ bq j)))
                 (S new_row) (new_data ++ [OnlyB j])
      else if (Nb <=? j)%nat || (nthZ ak i <? nthZ bk j) then
        merge_cy f rank ak bk aq bq (S i) j (set_row new_qdata new_row (copy_row rank (rowZ aq i)))
                 (S new_row) (new_data ++ [OnlyA i])
      else None
    end
  else Some (firstn new_row new_qdata, new_data).      (* self._qdata = new_qdata[:new_row, :].copy() *)

(* Na == Nb and np.all(aq == bq) *)
Definition same_qdata (aq bq : list (list Z)) : bool :=
  Nat.eqb (length aq) (length bq) && llz_eqb aq bq.
Definition fast_path (aq : list (list Z)) : merged :=
  Some (aq, map (fun i => Both i i) (seq 0 (length aq))).

Definition iadd_merge_py (stride : list Z) (aq bq : list (list Z)) : merged :=
  if same_qdata aq bq then fast_path aq
  else merge_py (length aq + length bq) (fkeys stride aq) (fkeys stride bq) aq bq 0 0 [] [].
(* np.empty((Na+Nb, rank)) : uninitialised; modelled with the filler value `junk` in every entry *)
Definition iadd_merge_cy (junk : Z) (rank : nat) (stride : list Z) (aq bq : list (list Z)) : merged :=
  if same_qdata aq bq then fast_path aq
  else merge_cy (length aq + length bq) rank (fkeys stride aq) (fkeys stride bq) aq bq 0 0
                (repeat (repeat junk rank) (length aq + length bq)) 0 [].

(* ---- specification vocabulary for the merge *)
(* F-style strides [1; n0; n0*n1; ...] of _make_stride(shape, cstyle=False) *)
Fixpoint fstr_from (s : Z) (shape : list Z) : list Z :=
  match shape with [] => [] | n :: t => s :: fstr_from (s * n) t end.
Definition fstrides (shape : list Z) : list Z := fstr_from 1 shape.
(* 0 <= row[k] < shape[k] and equal lengths *)
Fixpoint in_bounds (shape row : list Z) : Prop :=
  match shape, row with
  | [], [] => True
  | n :: st, x :: rt => 0 <= x < n /\ in_bounds st rt
  | _, _ => False
  end.
(* the order of np.lexsort(qdata.T): the LAST column is the primary key *)
Fixpoint lexlt (r1 r2 : list Z) : Prop :=
  match r1, r2 with
  | x :: t1, y :: t2 => lexlt t1 t2 \/ (t1 = t2 /\ x < y)
  | _, _ => False
  end.
Fixpoint strictly_inc (l : list Z) : Prop :=
  match l with
  | x :: ((y :: _) as t) => x < y /\ strictly_inc t
  | _ => True
  end.
Fixpoint lexsorted (q : list (list Z)) : Prop :=
  match q with
  | r1 :: ((r2 :: _) as t) => lexlt r1 r2 /\ lexsorted t
  | _ => True
  end.
Definition a_indices (w : list which) : list nat :=
  flat_map (fun t => match t with Both i _ => [i] | OnlyA i => [i] | OnlyB _ => [] end) w.
Definition b_indices (w : list which) : list nat :=
  flat_map (fun t => match t with Both _ j => [j] | OnlyB j => [j] | OnlyA _ => [] end) w.
(* the row stored at an output position is the row of the operand(s) named by the tag *)
Definition row_ok (aq bq : list (list Z)) (row : list Z) (t : which) : Prop :=
  match t with
  | Both i j => row = rowZ aq i /\ row = rowZ bq j
  | OnlyA i => row = rowZ aq i
  | OnlyB j => row = rowZ bq j
  end.
(* key-level version: for Both, the two keys agree (no lemma of Proofs/KernelsPyCyP2.v is stated with it; they use row_ok and key_of) *)
Definition tag_ok (ak bk : list Z) (aq bq : list (list Z)) (row : list Z) (t : which) : Prop :=
  match t with
  | Both i j => row = rowZ aq i /\ nthZ ak i = nthZ bk j
  | OnlyA i => row = rowZ aq i
  | OnlyB j => row = rowZ bq j
  end.
Definition key_of (ak bk : list Z) (t : which) : Z :=
  match t with Both i _ => nthZ ak i | OnlyA i => nthZ ak i | OnlyB j => nthZ bk j end.

(* ============================================================================================== *)
(* (b) LegPipe._init_from_legs after the grid has been built                                       *)

(* one incoming leg: qconj, charges (block_number x qnumber), block sizes *)
Record pleg := mkPleg { pl_qconj : Z; pl_charges : list (list Z); pl_bs : list Z }.

(* the grid `np.indices(subqshape).reshape(nlegs, -1)` is the same numpy expression in both sources: it is
   an input here, given as its transpose gridT (nblocks rows of nlegs qindices) = q_map[:, 3:] *)
Definition gcol (gridT : list (list Z)) (a : nat) : list Z := map (fun row => nthZ row a) gridT.

Definition vaddZ (u v : list Z) : list Z := row_map2 Z.add u v.

(* ---- block sizes
   py: np.prod([lbs[gr] for lbs, gr in zip(legbs, grid)], axis=0)        (axis 0 = over the legs) *)
Fixpoint prod_axis0 (n : nat) (vs : list (list Z)) : list Z :=
  match vs with
  | [] => repeat 1 n
  | v :: t => row_map2 Z.mul v (prod_axis0 n t)
  end.
Definition blocksizes_py (legs : list pleg) (gridT : list (list Z)) : list Z :=
  prod_axis0 (length gridT)
    (map (fun al => map (fun qi => nthZ (pl_bs (snd al)) (Z.to_nat qi)) (gcol gridT (fst al)))
         (combine (seq 0 (length legs)) legs)).
(* cy: blocksizes = ones(nblocks); for i in range(nlegs): for j in range(nblocks):
         blocksizes[j] *= leg_bs[grid2[i, j]] *)
Definition upd_at (l : list Z) (j : nat) (f : Z -> Z) : list Z :=
  firstn j l ++ f (nthZ l j) :: skipn (S j) l.
Fixpoint bs_inner (bs : list Z) (leg_bs : list Z) (col : list Z) (j : nat) : list Z :=
  match col with
  | [] => bs
  | qi :: t => bs_inner (upd_at bs j (fun x => x * nthZ leg_bs (Z.to_nat qi))) leg_bs t (S j)
  end.
Fixpoint bs_outer (bs : list Z) (legs : list pleg) (gridT : list (list Z)) (a : nat) : list Z :=
  match legs with
  | [] => bs
  | l :: t => bs_outer (bs_inner bs (pl_bs l) (gcol gridT a) 0) t gridT (S a)
  end.
Definition blocksizes_cy (legs : list pleg) (gridT : list (list Z)) : list Z :=
  bs_outer (repeat 1 (length gridT)) legs gridT 0.

(* ---- fused charges before make_valid
   py: legcharges = [(self.qconj * l.qconj) * l.charges for l in legs]
       charges = np.sum([lq[gr] for lq, gr in zip(legcharges, grid)], axis=0)     (zeros if qnumber == 0) *)
Fixpoint sum_axis0 (n qn : nat) (ms : list (list (list Z))) : list (list Z) :=
  match ms with
  | [] => repeat (repeat 0 qn) n
  | m :: t => map (fun uv => vaddZ (fst uv) (snd uv)) (combine m (sum_axis0 n qn t))
  end.
Definition chrow (qn : nat) (r : list Z) : list Z := map (fun k => nthZ r k) (seq 0 qn).
Definition charges_raw_py (qn : nat) (qconj : Z) (legs : list pleg) (gridT : list (list Z)) : list (list Z) :=
  sum_axis0 (length gridT) qn
    (map (fun al => map (fun qi => map (Z.mul (qconj * pl_qconj (snd al)))
                                       (chrow qn (nth (Z.to_nat qi) (pl_charges (snd al)) [])))
                        (gcol gridT (fst al)))
         (combine (seq 0 (length legs)) legs)).
(* cy _partial_qtotal: res = zeros; for a in legs: sign = leg.qconj * qconj; for i in blocks: qi = qdata[i, a];
      for k in range(qnumber): res[i, k] += charges[qi, k] * sign *)
Fixpoint pq_k (row : list Z) (ch : list Z) (sign : Z) (k : nat) (n : nat) : list Z :=
  match n with
  | O => row
  | S n' => pq_k (upd_at row k (fun x => x + nthZ ch k * sign)) ch sign (S k) n'
  end.
Definition set_rowZ (tbl : list (list Z)) (r : nat) (row : list Z) : list (list Z) :=
  firstn r tbl ++ row :: skipn (S r) tbl.
Fixpoint pq_i (res : list (list Z)) (qn : nat) (chs : list (list Z)) (sign : Z) (col : list Z) (i : nat)
  : list (list Z) :=
  match col with
  | [] => res
  | qi :: t => pq_i (set_rowZ res i (pq_k (nth i res []) (nth (Z.to_nat qi) chs []) sign 0 qn))
                    qn chs sign t (S i)
  end.
Fixpoint pq_a (res : list (list Z)) (qn : nat) (qconj : Z) (legs : list pleg) (gridT : list (list Z)) (a : nat)
  : list (list Z) :=
  match legs with
  | [] => res
  | l :: t => pq_a (pq_i res qn (pl_charges l) (pl_qconj l * qconj) (gcol gridT a) 0) qn qconj t gridT (S a)
  end.
Definition charges_raw_cy (qn : nat) (qconj : Z) (legs : list pleg) (gridT : list (list Z)) : list (list Z) :=
  pq_a (repeat (repeat 0 qn) (length gridT)) qn qconj legs gridT 0.

Definition charges_py (mods : list Z) (qconj : Z) (legs : list pleg) (gridT : list (list Z)) :=
  let qn := length mods in
  if Nat.eqb qn 0 then repeat [] (length gridT)      (* np.zeros((nblocks, 0)) *)
  else make_valid_py mods (charges_raw_py qn qconj legs gridT).
Definition charges_cy (mods : list Z) (qconj : Z) (legs : list pleg) (gridT : list (list Z)) :=
  let qn := length mods in
  if Nat.eqb qn 0 then repeat [] (length gridT)      (* _np_zeros_2D(nblocks, 0) *)
  else make_valid_cy mods (charges_raw_cy qn qconj legs gridT).

(* ---- sort: `perm_qind = lexsort(charges.T); x = x[perm_qind]` is the same numpy code in both sources; the
   sorter is a parameter (any function from the charge table to a list of row numbers) *)
Definition take {A} (d : A) (l : list A) (perm : list nat) : list A := map (fun p => nth p l d) perm.

(* slices = np.append([0], np.cumsum(blocksizes)) *)
Fixpoint cumsum_from (s : Z) (l : list Z) : list Z :=
  match l with [] => [] | x :: t => (s + x) :: cumsum_from (s + x) t end.
Definition slices_of_bs (bs : list Z) : list Z := 0 :: cumsum_from 0 bs.

(* ---- q_map[:, 2]
   py:  q_map_Qi = np.zeros(nblocks); q_map_Qi[idx[1:-1]] = 1; q_map_Qi = np.cumsum(q_map_Qi) *)
Definition inner {A} (l : list A) : list A := removelast (tl l).             (* l[1:-1] *)
Definition set_ones (z : list Z) (pos : list Z) : list Z :=
  fold_left (fun acc p => upd_at acc (Z.to_nat p) (fun _ => 1)) pos z.
Definition qi_py (nblocks : nat) (idx : list Z) : list Z :=
  cumsum_from 0 (set_ones (repeat 0 nblocks) (inner idx)).
(* cy:  a = 0
        for i in range(idx.shape[0]-1): (for j in range(idx[i], idx[i+1]): q_map[j, 2] = a); a += 1
        for j in range(idx[idx.shape[0]-1], nblocks): q_map[j, 2] = a
   (the column is a preallocated, uninitialised part of q_map: filler `junk`) *)
Fixpoint qi_loop (col : list Z) (prev : Z) (rest : list Z) (a : Z) (nblocks : Z) : list Z :=
  match rest with
  | [] => fill col (Z.to_nat prev) (Z.to_nat (nblocks - prev)) a
  | nxt :: t => qi_loop (fill col (Z.to_nat prev) (Z.to_nat (nxt - prev)) a) nxt t (a + 1) nblocks
  end.
Definition qi_cy (junk : Z) (nblocks : nat) (idx : list Z) : list Z :=
  match idx with
  | [] => repeat junk nblocks          (* not reached: idx always has >= 1 entries *)
  | i0 :: t => qi_loop (repeat junk nblocks) i0 t 0 (Z.of_nat nblocks)
  end.

(* ---- the three leading columns of q_map and the bunched slices
   py:  q_map[:, 0] = slices[:-1]; q_map[:, 1] = slices[1:]; q_map[:, 2] = Qi
        q_map[:, :2] -= (new_slices[Qi])[:, np.newaxis]                                   (vectorised) *)
Definition cols01_py (slices new_slices Qi : list Z) : list (Z * Z) :=
  let sub := map (fun q => nthZ new_slices (Z.to_nat q)) Qi in
  combine (row_map2 Z.sub (removelast slices) sub) (row_map2 Z.sub (tl slices) sub).
(* cy:  for j: q_map[j,0] = slices[j]; q_map[j,1] = slices[j+1]
        ... for j: a = new_slices[q_map[j, 2]]; q_map[j, 0] -= a; q_map[j, 1] -= a *)
Definition cols01_cy (nblocks : nat) (slices new_slices Qi : list Z) : list (Z * Z) :=
  map (fun j => let a := nthZ new_slices (Z.to_nat (nthZ Qi j)) in
                (nthZ slices j - a, nthZ slices (S j) - a)) (seq 0 nblocks).

(* ---- proof vocabulary for q_map[:, 2]: idx = [0; p_1; ..; p_{m-1}; N] strictly increasing *)
Fixpoint chainN (prev : nat) (ps : list nat) (N : nat) : Prop :=
  match ps with [] => (prev < N)%nat | p :: t => (prev < p)%nat /\ chainN p t N end.
(* the outgoing block number of every row: run k has length idx[k+1] - idx[k] *)
Fixpoint runsN (a : Z) (prev : nat) (rest : list nat) : list Z :=
  match rest with [] => [] | nxt :: t => repeat a (nxt - prev) ++ runsN (a + 1) nxt t end.
(* the 0/1 mask behind position prev *)
Fixpoint tailI (prev : nat) (ps : list nat) (N : nat) : list Z :=
  match ps with
  | [] => repeat 0 (N - prev - 1)
  | p :: t => repeat 0 (p - prev - 1) ++ 1 :: tailI p t N
  end.
(* weakly increasing chain *)
Fixpoint incN (prev : nat) (rest : list nat) : Prop :=
  match rest with [] => True | p :: t => (prev <= p)%nat /\ incN p t end.
Definition zipW (u v : list (list Z)) : list (list Z) := map (fun uv => vaddZ (fst uv) (snd uv)) (combine u v).

(* per-leg terms of the two vectorised reductions (proof vocabulary) *)
Definition legvec (gridT : list (list Z)) (al : nat * pleg) : list Z :=
  map (fun qi => nthZ (pl_bs (snd al)) (Z.to_nat qi)) (gcol gridT (fst al)).
Definition chterm (qn : nat) (chs : list (list Z)) (sign : Z) (qi : Z) : list Z :=
  map (fun c => c * sign) (chrow qn (nth (Z.to_nat qi) chs [])).
Definition legterm (qn : nat) (qconj : Z) (gridT : list (list Z)) (al : nat * pleg) : list (list Z) :=
  map (fun qi => map (Z.mul (qconj * pl_qconj (snd al))) (chrow qn (nth (Z.to_nat qi) (pl_charges (snd al)) [])))
      (gcol gridT (fst al)).

Record pipe_out := mkPO {
  po_qmap : list (list Z);          (* rows [b0, b1, I, i_1 .. i_n] *)
  po_qmap_slices : list Z;
  po_charges : list (list Z);       (* self.charges after bunch *)
  po_slices : list Z;               (* self.slices after bunch *)
  po_perm : option (list nat) }.    (* perm_qind (None: not sorted) *)

Definition assemble (c01 : list (Z * Z)) (Qi : list Z) (gridT : list (list Z)) : list (list Z) :=
  map (fun x => fst (fst (fst x)) :: snd (fst (fst x)) :: snd (fst x) :: snd x)
      (combine (combine c01 Qi) gridT).

Section InitFromLegs.
  Variable lexsort : list (list Z) -> list nat.      (* np.lexsort(charges.T) *)

  Definition init_from_legs_py (mods : list Z) (qconj : Z) (legs : list pleg) (gridT : list (list Z))
             (sort bunch : bool) : pipe_out :=
    let qn := length mods in
    let nblocks := length gridT in
    let bs0 := blocksizes_py legs gridT in
    let ch0 := charges_py mods qconj legs gridT in
    let do_sort := sort && negb (Nat.eqb qn 0) in
    let perm := lexsort ch0 in
    let gT := if do_sort then take [] gridT perm else gridT in
    let ch := if do_sort then take [] ch0 perm else ch0 in
    let bs := if do_sort then take 0 bs0 perm else bs0 in
    let slices := slices_of_bs bs in
    if bunch then
      let idx := frd_py (Z.of_nat qn) ch in
      let new_ch := map (fun p => nth (Z.to_nat p) ch []) (removelast idx) in
      let new_slices := map (fun p => nthZ slices (Z.to_nat p)) idx in
      let Qi := qi_py nblocks idx in
      mkPO (assemble (cols01_py slices new_slices Qi) Qi gT) idx new_ch new_slices
           (if do_sort then Some perm else None)
    else
      let Qi := map Z.of_nat (seq 0 nblocks) in           (* np.arange(nblocks) *)
      mkPO (assemble (cols01_py slices slices Qi) Qi gT) (map Z.of_nat (seq 0 (S nblocks))) ch slices
           (if do_sort then Some perm else None).

  Definition init_from_legs_cy (junk : Z) (mods : list Z) (qconj : Z) (legs : list pleg)
             (gridT : list (list Z)) (sort bunch : bool) : pipe_out :=
    let qn := length mods in
    let nblocks := length gridT in
    let bs0 := blocksizes_cy legs gridT in
    let ch0 := charges_cy mods qconj legs gridT in
    let do_sort := sort && negb (Nat.eqb qn 0) in
    let perm := lexsort ch0 in
    let gT := if do_sort then take [] gridT perm else gridT in
    let ch := if do_sort then take [] ch0 perm else ch0 in
    let bs := if do_sort then take 0 bs0 perm else bs0 in
    let slices := slices_of_bs bs in
    if bunch then
      let idx := frd_cy (Z.of_nat qn) ch in
      let new_ch := map (fun p => nth (Z.to_nat p) ch []) (removelast idx) in
      let new_slices := map (fun p => nthZ slices (Z.to_nat p)) idx in
      let Qi := qi_cy junk nblocks idx in
      mkPO (assemble (cols01_cy nblocks slices new_slices Qi) Qi gT) idx new_ch new_slices
           (if do_sort then Some perm else None)
    else
      let Qi := fold_left (fun col j => fill col j 1 (Z.of_nat j))
                          (seq 0 nblocks) (repeat junk nblocks) in            (* for j: q_map[j, 2] = j *)
      mkPO (assemble (cols01_cy nblocks slices slices Qi) Qi gT) (map Z.of_nat (seq 0 (S nblocks))) ch slices
           (if do_sort then Some perm else None).
End InitFromLegs.

(* a concrete stable sorter with the order of np.lexsort(charges.T) (last column = primary key), used to show
   that the hypotheses on `lexsort` are satisfiable and in the worked example *)
Fixpoint lexltb (r1 r2 : list Z) : bool :=
  match r1, r2 with
  | x :: t1, y :: t2 => lexltb t1 t2 || (lz_eqb t1 t2 && (x <? y))
  | _, _ => false
  end.
Fixpoint ins_idx (tbl : list (list Z)) (p : nat) (l : list nat) : list nat :=
  match l with
  | [] => [p]
  | q :: t => if lexltb (nth q tbl []) (nth p tbl []) then q :: ins_idx tbl p t else p :: l
  end.
Definition lexsort_ins (tbl : list (list Z)) : list nat := fold_right (ins_idx tbl) [] (seq 0 (length tbl)).
