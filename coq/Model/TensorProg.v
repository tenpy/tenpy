(* Programs (finite histories / compositions) of the np_conserved operations modelled in Model/TensorOps.v, TensorDot.v, TakeSlice.v
   (definitions only).

     top            one public operation applied to entries of an environment (operands are POSITIONS, so operands may alias and
                    results are re-used by later steps):
                      OTranspose x p      transpose(env[x], p)            / itranspose (as Model/TensorOps.transpose: the claim
                                                                                is reset also for p = range(rank))
                      OConj x             env[x].conj()                   / iconj
                      OScale x s          s * env[x]                      / iscale_prefactor
                      OAdd x y alpha      env[x] + alpha * env[y]         / iadd_prefactor_other
                      OOuter x y          outer(env[x], env[y])
                      OTensordot x y k    tensordot(env[x], env[y], axes=k)  (last k legs of env[x] with the first k legs of env[y])
                      OTakeSlice x ax i   env[x].take_slice(i, ax)
                      OSwapaxes x i j     env[x].iswapaxes(i, j)            (np.swapaxes)
                      OGauge x ax q qc    env[x].gauge_total_charge(ax, q, qc)   (dense form unchanged)
     instr          an operation + where the result goes: None = a new entry is appended (functional form, `c = op(a, b)`),
                    Some d = entry d is OVERWRITTEN (the in-place form `a.iop(...)`, or re-binding a name); a destination
                    outside the environment discards the result.  Entries are VALUES: the sharing of _data / _qdata between a
                    shallow copy (e.g. the result of gauge_total_charge) and its original under later in-place steps is NOT modelled
     applicable     the documented preconditions of the operation (operand positions exist, p is a permutation of the axes, equal legs
                    and qtotal for add, contractible legs for tensordot, axis / index in range and one charge entry per charge for
                    take_slice, axes in range for iswapaxes, gauge_ok for gauge_total_charge)
     run            executes a program; applicable_prog = every instruction is applicable in the environment in which it runs
     qtot_doc       the documented total charge of the result as a function of the operands' total charges
                    (unchanged / negated / sum / difference with the charge of the removed index / the requested one)

   Dense side: a dense array is (shape, function of the multi-index); d_step / d_run interpret the SAME program with the numpy-level
   definitions only (np.transpose, np.conj, *, +, np.multiply.outer, np.tensordot = d_tensordot of Model/TensorDot.v, D[..., i, ...]);
   they never look at charges, blocks or flags.

   Tie to the code: the program layer only COMPOSES the operation models of TensorOps.v (correspondence-checked by harness/c01.py /
   c02.py), TensorDot.v, TakeSlice.v and the models iswapaxes / gauge_total_charge of this file (written after the source and
   correspondence-checked by the stream coq2 of harness/c02.py, checker check_case_c02x of Model/TensorProgCheck.v). *)
From TenpyV Require Import Base.Prelude Model.Charge Model.Tensor Model.TensorOps Model.TensorDot Model.TakeSlice.
Open Scope Z_scope.

Fixpoint replace_at {A} (d : nat) (r : A) (l : list A) {struct l} : list A :=
  match l, d with
  | [], _ => []
  | _ :: t, O => r :: t
  | x :: t, S d' => x :: replace_at d' r t
  end.

(* ---------------------------------------------------------------- flag handling of the transposing operations
   Array.itranspose(axes): `if axes == list(range(self.rank)): return self` (nothing to do, claim kept), otherwise the columns of
   _qdata are permuted and `self._qdata_sorted = False`.  Array.iswapaxes(i, j): `if axis1 == axis2: return self`, otherwise the
   transposition of the two axes and `self._qdata_sorted = False`. *)
Definition itranspose (p : list nat) (a : arr) : arr :=
  if row_eqb p (seq 0 (rank a)) then a else transpose p a.
Definition swap_perm (r i j : nat) : list nat :=
  map (fun k => if (k =? i)%nat then j else if (k =? j)%nat then i else k) (seq 0 r).
Definition iswapaxes (i j : nat) (a : arr) : arr :=
  if (i =? j)%nat then a else transpose (swap_perm (rank a) i j) a.
(* the code WITHOUT the line `self._qdata_sorted = False` (a seeded change of exactly this kind): same data, claim kept *)
Definition transpose_keepflag (p : list nat) (a : arr) : arr :=
  mkArr (legs (transpose p a)) (qtot (transpose p a)) (blks (transpose p a)) (qsorted a).

(* ---------------------------------------------------------------- Array.gauge_total_charge(axis, newqtotal, new_qconj)
     newqtotal = make_valid(newqtotal);  chdiff = newqtotal - qtotal
     new_charges = legs[ax].charges + old_qconj * chdiff;  if old_qconj != new_qconj: new_charges = -new_charges
     new_charges = make_valid(new_charges);  legs[ax] = LegCharge.from_qind(chinfo, slices, new_charges, new_qconj)
   _data, _qdata and _qdata_sorted are shared with self (shallow copy).
   `asdoc` = which direction multiplies chdiff: the code is gauge_total_charge = gauge_gen true (old_qconj * chdiff);
   gauge_gen false is the code with `new_qconj * chdiff` (a seeded change of exactly this kind: it only differs, by the sign of the
   shift, in the branch old_qconj != new_qconj). *)
Definition gauge_charges (ci : chinfo) (asdoc : bool) (oldqc newqc : Z) (chdiff : list Z) (c : list Z) : list Z :=
  let c1 := vadd c (vscale (if asdoc then oldqc else newqc) chdiff) in
  make_valid ci (if (oldqc =? newqc) then c1 else vneg c1).
Definition gauge_gen (asdoc : bool) (ci : chinfo) (ax : nat) (newq : list Z) (newqc : Z) (a : arr) : arr :=
  let l := nth ax (legs a) dleg in
  let nq := make_valid ci newq in
  let chdiff := vadd nq (vneg (qtot a)) in
  mkArr (replace_at ax (mkLeg (bsz l) (map (gauge_charges ci asdoc (qc l) newqc chdiff) (bch l)) newqc) (legs a))
        nq (blks a) (qsorted a).
Definition gauge_total_charge := gauge_gen true.

(* ---------------------------------------------------------------- programs *)
Inductive top : Type :=
| OTranspose (x : nat) (p : list nat)
| OConj (x : nat)
| OScale (x : nat) (s : C)
| OAdd (x y : nat) (alpha : C)
| OOuter (x y : nat)
| OTensordot (x y k : nat)
| OTakeSlice (x ax i : nat)
| OSwapaxes (x i j : nat)
| OGauge (x ax : nat) (newq : list Z) (newqc : Z).

Definition instr := (top * option nat)%type.

Definition darr : arr := mkArr [] [] [] true.
Definition get (e : list arr) (x : nat) : arr := nth x e darr.

Definition step (ci : chinfo) (o : top) (e : list arr) : arr :=
  match o with
  | OTranspose x p => transpose p (get e x)
  | OConj x => conj ci (get e x)
  | OScale x s => scale s (get e x)
  | OAdd x y alpha => add alpha (get e x) (get e y)
  | OOuter x y => outer ci (get e x) (get e y)
  | OTensordot x y k => tensordot ci k (get e x) (get e y)
  | OTakeSlice x ax i => take_slice ci ax i (get e x)
  | OSwapaxes x i j => iswapaxes i j (get e x)
  | OGauge x ax newq newqc => gauge_total_charge ci ax newq newqc (get e x)
  end.

Definition store {A} (dst : option nat) (r : A) (l : list A) : list A :=
  match dst with None => l ++ [r] | Some d => replace_at d r l end.

Definition exec (ci : chinfo) (ins : instr) (e : list arr) : list arr := store (snd ins) (step ci (fst ins) e) e.
Fixpoint run (ci : chinfo) (prog : list instr) (e : list arr) : list arr :=
  match prog with [] => e | ins :: t => run ci t (exec ci ins e) end.

(* the removed index i of axis ax exists, and the charge block containing it has one charge entry per charge *)
Definition slice_ok (ci : chinfo) (ax i : nat) (a : arr) : Prop :=
  (ax < rank a)%nat /\ (i < ind_len (nth ax (legs a) dleg))%nat /\
  length (nth (get_qindex (nth ax (legs a) dleg) i) (bch (nth ax (legs a) dleg)) []) = length ci.

(* the leg to be re-gauged exists and has a direction, its charge rows have one entry per charge, the _qdata rows refer to blocks of the
   leg; the new total charge has one entry per charge and the new direction is +-1 *)
Definition gauge_ok (ci : chinfo) (ax : nat) (newq : list Z) (newqc : Z) (a : arr) : Prop :=
  (ax < rank a)%nat /\ length newq = length ci /\
  (qc (nth ax (legs a) dleg) = 1 \/ qc (nth ax (legs a) dleg) = -1) /\ (newqc = 1 \/ newqc = -1) /\
  Forall (fun c => length c = length ci) (bch (nth ax (legs a) dleg)) /\
  (forall r, In r (rows a) -> (nth ax r 0 < length (bch (nth ax (legs a) dleg)))%nat).

Definition applicable (ci : chinfo) (o : top) (e : list arr) : Prop :=
  match o with
  | OTranspose x p => (x < length e)%nat /\ Permutation p (seq 0 (rank (get e x)))
  | OConj x => (x < length e)%nat
  | OScale x s => (x < length e)%nat
  | OAdd x y alpha => (x < length e)%nat /\ (y < length e)%nat /\
                      legs (get e x) = legs (get e y) /\ qtot (get e x) = qtot (get e y)
  | OOuter x y => (x < length e)%nat /\ (y < length e)%nat
  | OTensordot x y k => (x < length e)%nat /\ (y < length e)%nat /\
                        (k <= rank (get e x))%nat /\ (k <= rank (get e y))%nat /\
                        Forall2 (contractible ci) (skipn (rank (get e x) - k) (legs (get e x))) (firstn k (legs (get e y)))
  | OTakeSlice x ax i => (x < length e)%nat /\ slice_ok ci ax i (get e x)
  | OSwapaxes x i j => (x < length e)%nat /\ (i < rank (get e x))%nat /\ (j < rank (get e x))%nat
  | OGauge x ax newq newqc => (x < length e)%nat /\ gauge_ok ci ax newq newqc (get e x)
  end.

Fixpoint applicable_prog (ci : chinfo) (prog : list instr) (e : list arr) : Prop :=
  match prog with
  | [] => True
  | ins :: t => applicable ci (fst ins) e /\ applicable_prog ci t (exec ci ins e)
  end.

(* documented total charge of the result *)
Definition qtot_doc (ci : chinfo) (o : top) (e : list arr) : list Z :=
  match o with
  | OTranspose x _ => qtot (get e x)
  | OScale x _ => qtot (get e x)
  | OAdd x _ _ => qtot (get e x)
  | OConj x => make_valid ci (vneg (qtot (get e x)))
  | OOuter x y => make_valid ci (vadd (qtot (get e x)) (qtot (get e y)))
  | OTensordot x y _ => make_valid ci (vadd (qtot (get e x)) (qtot (get e y)))
  | OTakeSlice x ax i =>
      let l := nth ax (legs (get e x)) dleg in
      make_valid ci (vadd (qtot (get e x)) (vneg (leg_charge l (get_qindex l i))))
  | OSwapaxes x _ _ => qtot (get e x)
  | OGauge _ _ newq _ => make_valid ci newq
  end.

(* ---------------------------------------------------------------- dense (numpy-level) interpreter *)
Definition dense := (list nat * (list nat -> C))%type.
Definition ddense : dense := ([], fun _ => c0).
Definition to_dense (a : arr) : dense := (map ind_len (legs a), to_ndarray a).
Definition dget (E : list dense) (x : nat) : dense := nth x E ddense.

(* np.transpose(D, p)[j] = D[i] with j_k = i_{p_k} *)
Definition d_transpose (p : list nat) (A : dense) : dense :=
  (gather 0%nat p (fst A), fun idx => snd A (gather 0%nat (invperm p) idx)).
Definition d_conj (A : dense) : dense := (fst A, fun idx => cconj (snd A idx)).
Definition d_scale (s : C) (A : dense) : dense := (fst A, fun idx => cmul s (snd A idx)).
Definition d_add (alpha : C) (A B : dense) : dense := (fst A, fun idx => cadd (snd A idx) (cmul alpha (snd B idx))).
(* np.multiply.outer(A, B)[i ++ j] = A[i] * B[j] *)
Definition d_outer (A B : dense) : dense :=
  (fst A ++ fst B, fun idx => cmul (snd A (firstn (length (fst A)) idx)) (snd B (skipn (length (fst A)) idx))).
(* np.tensordot(A, B, axes=k) *)
Definition d_tdot (k : nat) (A B : dense) : dense :=
  let nk := (length (fst A) - k)%nat in
  (firstn nk (fst A) ++ skipn k (fst B), d_tensordot (snd A) (snd B) (skipn nk (fst A)) nk).
(* D[:, ..., i, ..., :] with i at position ax *)
Definition d_take_slice (ax i : nat) (A : dense) : dense :=
  (remove_at ax (fst A), fun idx => snd A (insert_at ax i idx)).

Definition d_step (o : top) (E : list dense) : dense :=
  match o with
  | OTranspose x p => d_transpose p (dget E x)
  | OConj x => d_conj (dget E x)
  | OScale x s => d_scale s (dget E x)
  | OAdd x y alpha => d_add alpha (dget E x) (dget E y)
  | OOuter x y => d_outer (dget E x) (dget E y)
  | OTensordot x y k => d_tdot k (dget E x) (dget E y)
  | OTakeSlice x ax i => d_take_slice ax i (dget E x)
  | OSwapaxes x i j => d_transpose (swap_perm (length (fst (dget E x))) i j) (dget E x)
  | OGauge x _ _ _ => dget E x
  end.
Definition d_exec (ins : instr) (E : list dense) : list dense := store (snd ins) (d_step (fst ins) E) E.
Fixpoint d_run (prog : list instr) (E : list dense) : list dense :=
  match prog with [] => E | ins :: t => d_run t (d_exec ins E) end.

(* equality of dense arrays: same shape and same value at every multi-index with one entry per axis *)
Definition deq (A B : dense) : Prop :=
  fst A = fst B /\ forall idx, length idx = length (fst A) -> snd A idx = snd B idx.

