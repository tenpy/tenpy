(* Model of tenpy/linalg/charges.py: LegPipe (C06).  Definitions only.
   pipe_init follows LegPipe.__init__/_init_from_legs: the C-order grid of incoming block tuples,
   block size = product, fused charge make_valid(qconj * sum_l qconj_l * charge_l), stable lexsort
   (if sort and qnumber > 0), cumulative slices, bunch (contiguous equal charges form one outgoing
   block), q_map rows [b_j, b_{j+1}, I_s, i_1..i_n] with the slice taken relative to the outgoing
   block, q_map_slices.  map_incoming_flat follows the code line by line, except for the row of q_map: the code
   computes its number from _strides and _perm (_map_incoming_qind), which are private and not modelled;
   the model looks the block tuple up in the rows (find_row).
   The single-block fast path of __init__ yields the same attributes and is not modelled apart. *)
From TenpyV Require Import Base.Prelude Model.ChargeL Model.Leg.
Open Scope Z_scope.

Record row := mkRow { r_ch : cvec; r_sz : Z; r_q : list nat }.
Definition row0 : row := mkRow [] 0 [].

Fixpoint prodZ (l : list Z) : Z := match l with [] => 1 | x :: t => x * prodZ t end.

(* np.indices(shape).reshape(nlegs, -1).T : all block tuples, last leg fastest *)
Fixpoint grid (shape : list nat) : list (list nat) :=
  match shape with
  | [] => [[]]
  | n :: t => flat_map (fun i => map (cons i) (grid t)) (seq 0 n)
  end.

(* block sizes / signed charges of the incoming blocks selected by the tuple q *)
Fixpoint dims (legs : list leg) (q : list nat) : list Z :=
  match legs, q with
  | l :: lt, i :: qt => fst (blk l i) :: dims lt qt
  | _, _ => []
  end.
Fixpoint tuple_charges (legs : list leg) (q : list nat) : list cvec :=
  match legs, q with
  | l :: lt, i :: qt => vscale (qc l) (snd (blk l i)) :: tuple_charges lt qt
  | _, _ => []
  end.
(* the fusion rule *)
Definition fused (ci : chinfo) (legs : list leg) (qconj : Z) (q : list nat) : cvec :=
  make_valid ci (vscale qconj (vsum (length ci) (tuple_charges legs q))).

Definition rows0 (ci : chinfo) (legs : list leg) (qconj : Z) : list row :=
  map (fun q => mkRow (fused ci legs qconj q) (prodZ (dims legs q)) q) (grid (map nblocks legs)).

Fixpoint rinsert (x : row) (l : list row) : list row :=
  match l with
  | [] => [x]
  | y :: t => if key_leb (r_ch x) (r_ch y) then x :: l else y :: rinsert x t
  end.
Definition rsort (l : list row) : list row := fold_right rinsert [] l.

Definition pipe_rows (ci : chinfo) (legs : list leg) (qconj : Z) (sort : bool) : list row :=
  if sort && negb (Nat.eqb (length ci) 0) then rsort (rows0 ci legs qconj) else rows0 ci legs qconj.

(* bunch: runs of contiguous rows with equal charge; without bunch every row is its own block *)
Fixpoint group_rows (bunch : bool) (rows : list row) : list (list row) :=
  match rows with
  | [] => []
  | r :: t => match group_rows bunch t with
              | (r' :: g) :: gs => if bunch && veqb (r_ch r) (r_ch r') then (r :: r' :: g) :: gs
                                   else [r] :: (r' :: g) :: gs
              | _ => [[r]]
              end
  end.
Definition gsize (g : list row) : Z := sumZ (map r_sz g).
Definition glen (g : list row) : Z := Z.of_nat (length g).
Definition ghead (g : list row) : cvec := r_ch (hd row0 g).
(* the outgoing block I_s of every row *)
Fixpoint tag_from (I : nat) (gs : list (list row)) : list nat :=
  match gs with [] => [] | g :: t => repeat I (length g) ++ tag_from (S I) t end.

Record qrow := mkQ { q_b0 : Z; q_b1 : Z; q_Is : nat; q_q : list nat }.

Record pipe := mkPipe {
  p_legs : list leg; p_qconj : Z;
  p_rows : list row;                  (* sorted incoming block tuples *)
  p_blocks : list block;              (* outgoing blocks: (size, charge) *)
  p_qmap : list qrow;
  p_qmap_slices : list Z }.

Definition pipe_init (ci : chinfo) (legs : list leg) (qconj : Z) (sort bunch : bool) : pipe :=
  let rows := pipe_rows ci legs qconj sort in
  let gs := group_rows bunch rows in
  let szs := map r_sz rows in
  let osz := map gsize gs in
  let tags := tag_from 0 gs in
  let qm := map (fun j => let I := nth j tags O in
                          mkQ (offs szs j - offs osz I) (offs szs (S j) - offs osz I) I
                              (r_q (nth j rows row0)))
                (seq 0 (length rows)) in
  mkPipe legs qconj rows (combine osz (map ghead gs)) qm (slices_of (map glen gs)).

Definition pipe_leg (p : pipe) : leg := mkLeg (p_blocks p) (p_qconj p).   (* to_LegCharge *)

(* ---- map_incoming_flat *)
Fixpoint list_eqb (a b : list nat) : bool :=
  match a, b with
  | [], [] => true
  | x :: a', y :: b' => Nat.eqb x y && list_eqb a' b'
  | _, _ => false
  end.
Fixpoint find_row (q : list nat) (rows : list row) : option nat :=
  match rows with
  | [] => None
  | r :: t => if list_eqb (r_q r) q then Some O
              else match find_row q t with Some j => Some (S j) | None => None end
  end.
(* C-order position inside a block of shape ds *)
Fixpoint ravel (ds ws : list Z) : Z :=
  match ds, ws with
  | _ :: dt, w :: wt => w * prodZ dt + ravel dt wt
  | _, _ => 0
  end.
Fixpoint unravel (ds : list Z) (k : Z) : list Z :=
  match ds with
  | [] => []
  | _ :: dt => (k / prodZ dt) :: unravel dt (k mod prodZ dt)
  end.
(* get_qindex on every leg: Some (block tuple, positions inside the blocks) *)
Fixpoint split_indices (legs : list leg) (t : list Z) : option (list nat * list Z) :=
  match legs, t with
  | [], [] => Some ([], [])
  | l :: lt, i :: tr =>
      match get_qindex l i, split_indices lt tr with
      | Some (q, w), Some (qs, ws) => Some (q :: qs, w :: ws)
      | _, _ => None
      end
  | _, _ => None
  end.
Definition map_incoming_flat (p : pipe) (t : list Z) : option Z :=
  match split_indices (p_legs p) t with
  | None => None
  | Some (qs, ws) =>
      match find_row qs (p_rows p) with
      | None => None
      | Some j => let qr := nth j (p_qmap p) (mkQ 0 0 O []) in
                  Some (offs (map fst (p_blocks p)) (q_Is qr) + q_b0 qr + ravel (dims (p_legs p) qs) ws)
      end
  end.

(* the outgoing block of an index tuple *)
Definition block_of (p : pipe) (t : list Z) : option nat :=
  match split_indices (p_legs p) t with
  | None => None
  | Some (qs, _) => match find_row qs (p_rows p) with
                    | None => None
                    | Some j => Some (q_Is (nth j (p_qmap p) (mkQ 0 0 O [])))
                    end
  end.

(* explicit inverse: outgoing flat index -> incoming index tuple *)
Fixpoint join_indices (legs : list leg) (q : list nat) (ws : list Z) : list Z :=
  match legs, q, ws with
  | l :: lt, i :: qt, w :: wt => (offs (bsz l) i + w) :: join_indices lt qt wt
  | _, _, _ => []
  end.
Definition map_outgoing_flat (p : pipe) (k : Z) : option (list Z) :=
  if k <? 0 then None else
  match locate (map r_sz (p_rows p)) k with
  | None => None
  | Some (j, w) => let q := r_q (nth j (p_rows p) row0) in
                   Some (join_indices (p_legs p) q (unravel (dims (p_legs p) q) w))
  end.

(* all index tuples of the incoming legs in C order (for the harness) *)
Fixpoint zgrid (shape : list Z) : list (list Z) :=
  match shape with
  | [] => [[]]
  | n :: t => flat_map (fun i => map (cons i) (zgrid t)) (zrange 0 (Z.to_nat n))
  end.

(* ---- conj: flips the pipe and every incoming leg; attributes unchanged *)
Definition conj_pipe (p : pipe) : pipe :=
  mkPipe (map conj_leg (p_legs p)) (- p_qconj p) (p_rows p) (p_blocks p) (p_qmap p) (p_qmap_slices p).

(* ---- what the harness compares: documented attributes + map_incoming_flat on every tuple *)
Definition qrow_obs (r : qrow) : list Z := q_b0 r :: q_b1 r :: Z.of_nat (q_Is r) :: map Z.of_nat (q_q r).
Definition pipe_obs (p : pipe) :=
  (map snd (p_blocks p), slices_of (map fst (p_blocks p)), map qrow_obs (p_qmap p), p_qmap_slices p,
   map (map_incoming_flat p) (zgrid (map ind_len (p_legs p)))).
