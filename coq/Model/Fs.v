(* C18: crash model of the result files of tenpy.simulations.simulation.Simulation.

   Two files matter for one simulation: the output file `Out` and its backup `Bak`
   (get_backup_filename: `name.backup.ext`, present only with safe_write).  A file is
     Absent | Marker (the one-line text written by fix_output_filenames) |
     Partial k (a write of checkpoint k was interrupted: not loadable) | Complete k (loadable).
   Primitive steps: exists, unlink, rename (atomic, replaces the target: assumption A-fs), write
   (atomic in the list of steps; a crash *inside* a write is modelled by `crash_state ... true`,
   which leaves `Partial k`), marker write.

   `save_results_prog` is the body of Simulation.save_results as a program over these steps; the
   same term is regenerated from the source by translator/export_c18_save.py (Gen/G_save_results.v)
   and proved equal in Proofs/FsGenP.v.  `init_ops` is fix_output_filenames restricted to the two files.
   A *segment* is one process life time: __init__ (init_ops) followed by saves k0+1, k0+2, ...;
   a *history* is a fresh segment followed by (crash, resume)*, where resume loads Out if it is
   Complete, else Bak if it is Complete (what a user can do) and continues with
   loaded_from_checkpoint = True.  Definitions only; proofs in Proofs/FsP.v. *)
From TenpyV Require Import Base.Prelude.

Inductive fstate := Absent | Marker | Partial (k : nat) | Complete (k : nat).
Inductive fname := Out | Bak.
Record fs := mkFs { f_out : fstate; f_bak : fstate }.

Definition fs0 : fs := mkFs Absent Absent.

Definition getf (st : fs) (f : fname) : fstate := match f with Out => f_out st | Bak => f_bak st end.
Definition setf (st : fs) (f : fname) (v : fstate) : fs :=
  match f with Out => mkFs v (f_bak st) | Bak => mkFs (f_out st) v end.

Definition present (x : fstate) : bool := match x with Absent => false | _ => true end.

Definition fstate_eqb (a b : fstate) : bool :=
  match a, b with
  | Absent, Absent => true | Marker, Marker => true
  | Partial _, Partial _ => true       (* which write was torn is not observable on disk *)
  | Complete i, Complete j => Nat.eqb i j
  | _, _ => false
  end.
Definition fname_eqb (a b : fname) : bool :=
  match a, b with Out, Out => true | Bak, Bak => true | _, _ => false end.
Definition fs_eqb (a b : fs) : bool := fstate_eqb (f_out a) (f_out b) && fstate_eqb (f_bak a) (f_bak b).

(* primitive steps as they appear in a trace (exists carries the observed answer) *)
Inductive op :=
| OpExists (f : fname) (r : bool)
| OpUnlink (f : fname)
| OpRename (src dst : fname)
| OpWrite (f : fname) (k : nat)
| OpMarker (f : fname).

Definition op_eqb (a b : op) : bool :=
  match a, b with
  | OpExists f r, OpExists g s => fname_eqb f g && Bool.eqb r s
  | OpUnlink f, OpUnlink g => fname_eqb f g
  | OpRename a1 a2, OpRename b1 b2 => fname_eqb a1 b1 && fname_eqb a2 b2
  | OpWrite f k, OpWrite g j => fname_eqb f g && Nat.eqb k j
  | OpMarker f, OpMarker g => fname_eqb f g
  | _, _ => false
  end.

Fixpoint ops_eqb (a b : list op) : bool :=
  match a, b with
  | [], [] => true
  | x :: a', y :: b' => op_eqb x y && ops_eqb a' b'
  | _, _ => false
  end.

Definition apply_op (st : fs) (o : op) : fs :=
  match o with
  | OpExists _ _ => st
  | OpUnlink f => setf st f Absent
  | OpRename a b => if fname_eqb a b then st else setf (setf st b (getf st a)) a Absent
  | OpWrite f k => setf st f (Complete k)
  | OpMarker f => setf st f Marker
  end.

(* python raises (FileNotFoundError) when unlinking / renaming a missing file *)
Definition op_ok (st : fs) (o : op) : bool :=
  match o with
  | OpUnlink f => present (getf st f)
  | OpRename a _ => present (getf st a)
  | OpExists f r => Bool.eqb r (present (getf st f))
  | _ => true
  end.

Definition apply_ops (l : list op) (st : fs) : fs := fold_left apply_op l st.

Fixpoint all_ok (l : list op) (st : fs) : bool :=
  match l with [] => true | o :: t => op_ok st o && all_ok t (apply_op st o) end.

(* ---------------------------------------------------------------------------------------- *)
(* programs over primitive steps                                                             *)
(* ---------------------------------------------------------------------------------------- *)
Inductive cond :=
| CExists (f : fname)            (* f.exists() *)
| CSafe                          (* backup_filename is not None *)
| CAnd (a b : cond)              (* a and b   (short circuit) *)
| CNot (a : cond).

Inductive prog :=
| PSkip
| PSeq (p q : prog)
| PIf (c : cond) (p q : prog)
| PUnlink (f : fname)
| PRename (a b : fname)
| PSave (f : fname).             (* self._save_to_file(results, f) *)

(* evaluation of a condition: the exists-queries performed (in order) and the value *)
Fixpoint eval_cond (safe : bool) (c : cond) (st : fs) : list op * bool :=
  match c with
  | CExists f => ([OpExists f (present (getf st f))], present (getf st f))
  | CSafe => ([], safe)
  | CAnd a b => let '(oa, va) := eval_cond safe a st in
                if va then let '(ob, vb) := eval_cond safe b st in (oa ++ ob, vb) else (oa, false)
  | CNot a => let '(oa, va) := eval_cond safe a st in (oa, negb va)
  end.

(* run a program that saves checkpoint k: trace and final state *)
Fixpoint run_prog (safe : bool) (k : nat) (p : prog) (st : fs) : list op * fs :=
  match p with
  | PSkip => ([], st)
  | PSeq a b => let '(oa, s1) := run_prog safe k a st in
                let '(ob, s2) := run_prog safe k b s1 in (oa ++ ob, s2)
  | PIf c a b => let '(oc, v) := eval_cond safe c st in
                 let '(ob, s1) := run_prog safe k (if v then a else b) st in (oc ++ ob, s1)
  | PUnlink f => ([OpUnlink f], apply_op st (OpUnlink f))
  | PRename a b => ([OpRename a b], apply_op st (OpRename a b))
  | PSave f => ([OpWrite f k], apply_op st (OpWrite f k))
  end.

(* Simulation.save_results (after the `output_filename is None` early return):

     if output_filename.exists():
         if backup_filename is not None:
             if backup_filename.exists():
                 backup_filename.unlink()
             output_filename.rename(backup_filename)
         else:
             output_filename.unlink()
     self._save_to_file(results, output_filename)
     if backup_filename is not None and backup_filename.exists():
         backup_filename.unlink()                                                           *)
Definition save_results_prog : prog :=
  PSeq (PIf (CExists Out)
            (PIf CSafe
                 (PSeq (PIf (CExists Bak) (PUnlink Bak) PSkip) (PRename Out Bak))
                 (PUnlink Out))
            PSkip)
       (PSeq (PSave Out)
             (PIf (CAnd CSafe (CExists Bak)) (PUnlink Bak) PSkip)).

Definition save_ops (safe : bool) (k : nat) (st : fs) : list op * fs := run_prog safe k save_results_prog st.

(* fix_output_filenames restricted to the pair of files (a fresh run that finds an existing output
   and must not overwrite it switches to another, untouched pair of names: not part of this model,
   the harness checks it separately): exists(out); the marker is written into the *backup* name when
   safe_write is on and the backup does not exist. *)
Definition init_ops (safe : bool) (st : fs) : list op * fs :=
  let e := [OpExists Out (present (f_out st))] in
  if safe then
    if present (f_bak st) then (e ++ [OpExists Bak true], st)
    else (e ++ [OpExists Bak false; OpMarker Bak], apply_op st (OpMarker Bak))
  else (e, st).

(* n consecutive saves numbered k0+1 .. k0+n *)
Fixpoint saves_ops (safe : bool) (k0 n : nat) (st : fs) : list op * fs :=
  match n with
  | 0 => ([], st)
  | S n' => let '(o1, s1) := save_ops safe (k0 + 1) st in
            let '(o2, s2) := saves_ops safe (k0 + 1) n' s1 in (o1 ++ o2, s2)
  end.

(* one process life time *)
Definition seg_ops (safe : bool) (k0 n : nat) (st : fs) : list op * fs :=
  let '(o0, s0) := init_ops safe st in
  let '(o1, s1) := saves_ops safe k0 n s0 in (o0 ++ o1, s1).

(* ---------------------------------------------------------------------------------------- *)
(* crashes                                                                                   *)
(* ---------------------------------------------------------------------------------------- *)

(* the process dies before step number s of the trace; with inside = true and step s a write, it
   dies inside that write *)
Definition crash_state (ops : list op) (st : fs) (s : nat) (inside : bool) : fs :=
  let st' := apply_ops (firstn s ops) st in
  if inside then
    match nth_error ops s with
    | Some (OpWrite f k) => setf st' f (Partial k)
    | _ => st'
    end
  else st'.

(* every state a crash can leave behind, tagged with the number j of the last checkpoint whose
   write has been completed (j0 before the trace starts).  Includes the final state. *)
Fixpoint crash_points (ops : list op) (j : nat) (st : fs) : list (nat * fs) :=
  match ops with
  | [] => [(j, st)]
  | OpWrite f k :: t => (j, st) :: (j, setf st f (Partial k)) :: crash_points t k (apply_op st (OpWrite f k))
  | o :: t => (j, st) :: crash_points t j (apply_op st o)
  end.

(* what a user can load after a crash: the output file if complete, else the backup if complete *)
Definition loadable (st : fs) : option (fname * nat) :=
  match f_out st with
  | Complete k => Some (Out, k)
  | _ => match f_bak st with Complete k => Some (Bak, k) | _ => None end
  end.

Definition has_complete (st : fs) (k : nat) : Prop := f_out st = Complete k \/ f_bak st = Complete k.

Definition is_partial (x : fstate) : bool := match x with Partial _ => true | _ => false end.

(* crash points of a fresh run with n saves on an empty pair of names *)
Definition fresh_points (safe : bool) (n : nat) : list (nat * fs) :=
  crash_points (fst (seg_ops safe 0 n fs0)) 0 fs0.

(* crash points of a run resumed from checkpoint k on disk state st, doing n saves *)
Definition resumed_points (safe : bool) (k n : nat) (st : fs) : list (nat * fs) :=
  crash_points (fst (seg_ops safe k n st)) k st.

(* A history: the fresh run does n0 saves and is killed at crash point c0 (index into the list of
   crash points); then repeatedly: load what is loadable, resume, n saves, killed at crash point c.
   `strict` forbids resuming while the output file is a Partial (the user removes a broken output
   file before resuming).  Result: tag and disk state after the last crash; None if an index is out
   of range, nothing is loadable, or a strict resume is refused. *)
Fixpoint run_resumes (safe strict : bool) (h : list (nat * nat)) (cur : nat * fs) : option (nat * fs) :=
  match h with
  | [] => Some cur
  | (n, c) :: h' =>
      let st := snd cur in
      if strict && is_partial (f_out st) then None else
      match loadable st with
      | None => None
      | Some (_, k) =>
          match nth_error (resumed_points safe k n st) c with
          | None => None
          | Some nxt => run_resumes safe strict h' nxt
          end
      end
  end.

Definition run_history (safe strict : bool) (n0 c0 : nat) (h : list (nat * nat)) : option (nat * fs) :=
  match nth_error (fresh_points safe n0) c0 with
  | None => None
  | Some cur => run_resumes safe strict h cur
  end.

(* ---------------------------------------------------------------------------------------- *)
(* checker used by the harness (vm_compute): the observed trace and disk state of every segment *)
(* of a real history (run, crash, resume)* against the model                                  *)
(* ---------------------------------------------------------------------------------------- *)
Record seg_obs := mkSeg {
  so_loaded : option (fname * nat);   (* None: fresh run *)
  so_nsaves : nat;                    (* saves the segment would perform if not killed *)
  so_crash : option (nat * bool);     (* Some (s, inside): killed before / inside step s; None: ran to the end *)
  so_ops : list op;                   (* observed steps performed *)
  so_disk : fs                        (* observed disk state afterwards *)
}.

Definition check_seg (safe : bool) (st : fs) (o : seg_obs) : bool * fs :=
  let k0 := match so_loaded o with None => 0 | Some (_, k) => k end in
  let ld_ok := match so_loaded o with
               | None => true
               | Some (f, k) => match loadable st with
                                | Some (g, j) => fname_eqb f g && Nat.eqb k j
                                | None => false end
               end in
  let ops := fst (seg_ops safe k0 (so_nsaves o) st) in
  let '(exp_ops, exp_st) :=
    match so_crash o with
    | None => (ops, apply_ops ops st)
    | Some (s, inside) => (firstn s ops, crash_state ops st s inside)
    end in
  (ld_ok && ops_eqb exp_ops (so_ops o) && fs_eqb exp_st (so_disk o) && all_ok exp_ops st, exp_st).

Fixpoint check_segs (safe : bool) (st : fs) (l : list seg_obs) : bool :=
  match l with
  | [] => true
  | o :: t => let '(b, st') := check_seg safe st o in b && check_segs safe st' t
  end.

Definition check_history (c : bool * list seg_obs) : bool := check_segs (fst c) fs0 (snd c).

(* save_results alone from an arbitrary disk state: (safe, k, initial state, crash, observed ops, observed disk) *)
Definition check_save (c : bool * nat * fs * option (nat * bool) * list op * fs) : bool :=
  let '(safe, k, st, cr, obs_ops, obs_st) := c in
  let ops := fst (save_ops safe k st) in
  let '(exp_ops, exp_st) :=
    match cr with
    | None => (ops, apply_ops ops st)
    | Some (s, inside) => (firstn s ops, crash_state ops st s inside)
    end in
  ops_eqb exp_ops obs_ops && fs_eqb exp_st obs_st.

(* fix_output_filenames (resumed, or fresh with overwrite / no existing output) from an arbitrary state *)
Definition check_init (c : bool * fs * list op * fs) : bool :=
  let '(safe, st, obs_ops, obs_st) := c in
  let '(ops, st') := init_ops safe st in
  ops_eqb ops obs_ops && fs_eqb st' obs_st.
