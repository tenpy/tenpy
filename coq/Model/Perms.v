(* Model of MPS.permute_sites (tenpy/networks/mps.py): the while-loop over adjacent swap_sites with the
   `perm` list mutated alongside, and the fermionic sign (-1)^{n_i n_{i+1}} each swap_sites(i, 'auto') applies
   to a Fock basis state.  Definitions only; proofs in Proofs/PermsP.v (countb / ginv: Proofs/AdjSwapsP.v).

     i = 0
     while i < L - 1:
         if perm[i] > perm[i + 1]:
             swap_sites(i); perm[i], perm[i+1] = perm[i+1], perm[i]
             if i > 0: i -= 1
         else: i += 1

   State of the model: loop index, the perm list, the arrangement (what sits on each position: an identifier and
   the parity of the occupation number of the basis state under consideration), the log of swap positions, and the
   accumulated sign (true = -1). *)
From TenpyV Require Import Base.Prelude.
Open Scope Z_scope.

Fixpoint swap_at {A : Type} (i : nat) (l : list A) : list A :=
  match i, l with
  | O, x :: y :: t => y :: x :: t
  | Datatypes.S i', x :: t => x :: swap_at i' t
  | _, _ => l
  end.

Record pst := mkPst {
  p_i : nat;
  p_perm : list Z;
  p_arr : list (Z * bool);
  p_log : list nat;
  p_sign : bool }.

Definition parity_at (arr : list (Z * bool)) (i : nat) : bool := snd (nth i arr (0, false)).

(* one iteration of the loop body; None = loop condition false *)
Definition step (s : pst) : option pst :=
  let i := p_i s in
  if (Datatypes.S i <? length (p_perm s))%nat then
    if nth (Datatypes.S i) (p_perm s) 0 <? nth i (p_perm s) 0 then
      Some (mkPst (Nat.pred i) (swap_at i (p_perm s)) (swap_at i (p_arr s)) (p_log s ++ [i])
                  (xorb (p_sign s) (parity_at (p_arr s) i && parity_at (p_arr s) (Datatypes.S i))))
    else Some (mkPst (Datatypes.S i) (p_perm s) (p_arr s) (p_log s) (p_sign s))
  else None.

Fixpoint run (fuel : nat) (s : pst) : pst :=
  match fuel with
  | O => s
  | Datatypes.S f => match step s with None => s | Some s' => run f s' end
  end.

Definition init (perm : list Z) (arr : list (Z * bool)) : pst := mkPst 0 perm arr [] false.

(* fuel: at most 2 * #inversions + L iterations; #inversions <= L*L *)
Definition fuel_for (perm : list Z) : nat := 2 * (length perm * length perm) + length perm + 1.

Definition permute (perm : list Z) (arr : list (Z * bool)) : pst := run (fuel_for perm) (init perm arr).

(* countb f l: number of entries of l with f; ginv f l: number of pairs (j < k) with f l_j l_k *)
Fixpoint countb {A : Type} (f : A -> bool) (l : list A) : nat :=
  match l with [] => 0%nat | x :: t => ((if f x then 1 else 0) + countb f t)%nat end.

Fixpoint ginv {A : Type} (f : A -> A -> bool) (l : list A) : nat :=
  match l with [] => 0%nat | x :: t => (countb (f x) t + ginv f t)%nat end.

(* inversion of the keys *)
Definition inv_key (x y : Z * (Z * bool)) : bool := fst y <? fst x.
(* inversion between two positions that both carry an odd occupation *)
Definition inv_odd (x y : Z * (Z * bool)) : bool := (fst y <? fst x) && snd (snd x) && snd (snd y).

(* ---- correspondence checker: (perm, dims of the sites before, swap log of the code, dims after) *)
Fixpoint eqb_natlist (a b : list nat) : bool :=
  match a, b with
  | [], [] => true
  | x :: a', y :: b' => (x =? y)%nat && eqb_natlist a' b'
  | _, _ => false
  end.

Fixpoint eqb_zlist (a b : list Z) : bool :=
  match a, b with
  | [], [] => true
  | x :: a', y :: b' => (x =? y) && eqb_zlist a' b'
  | _, _ => false
  end.

Definition check_permute_case (c : list Z * list Z * list nat * list Z) : bool :=
  let '(perm, dims, log, dims_after) := c in
  let r := permute perm (map (fun d => (d, false)) dims) in
  eqb_natlist (p_log r) log && eqb_zlist (map fst (p_arr r)) dims_after &&
  match step r with None => true | Some _ => false end.
