(* Model of tenpy/models/lattice.py: index maps and coupling enumeration of a Lattice.
   Definitions only (proofs in Proofs/LatticeP.v, LatticeP2.v, LatticeP3.v, LatticeP6.v).  Tie to the code: correspondence (K),
   harness/c19.py.

   A lattice site ("lattice index" (x_0, ..., x_{d-1}, u) of the code) is modelled as
      (x0, xr, u)   with  xr = [x_1; ...; x_{d-1}]
   because direction 0 is special (infinite MPS direction, target of bc_shift); d >= 1 always holds in
   the code (N_rings = Ls[0]).  The dimension d = 1 + length xr is arbitrary.

   `lorder` is the array Lattice.order (row i = site of MPS index i).  For a regular Lattice it
   enumerates the whole box; for an IrregularLattice a subset (removed sites) of a box with a larger
   unit cell (added sites).  `_perm` of the code (lexsort of the order for Lattice, the explicit
   table with _REMOVED entries for IrregularLattice) is in both cases the map
      flat index of a site  |->  its position in `order`      (absent = _REMOVED),
   which is what perm_lookup computes.  _strides = [1, L0, L0*L1, ...] (u most significant). *)
From TenpyV Require Import Base.Prelude.
Open Scope Z_scope.

Definition site := (Z * list Z * Z)%type.

Record lattice := mkLat {
  L0 : Z;                 (* Ls[0] = N_rings *)
  Lr : list Z;            (* Ls[1:] *)
  Lu : Z;                 (* len(unit_cell) *)
  open0 : bool;           (* bc[0]  (True = open, False = periodic) *)
  openr : list bool;      (* bc[1:] *)
  shiftr : list Z;        (* bc_shift (all zero when bc_shift is None) *)
  infinite : bool;        (* bc_MPS != 'finite' *)
  lorder : list site      (* Lattice.order *)
}.

Definition nsites (lat : lattice) : Z := Z.of_nat (length (lorder lat)).   (* N_sites *)

(* ---- np.sum(np.mod(idx, shape) * _strides) *)
Fixpoint flat_r (xs Ls : list Z) (top : Z) : Z :=
  match xs, Ls with
  | x :: xs', L :: Ls' => x mod L + L * flat_r xs' Ls' top
  | _, _ => top
  end.

Definition flat (lat : lattice) (s : site) : Z :=
  let '(x0, xr, u) := s in x0 mod L0 lat + L0 lat * flat_r xr (Lr lat) (u mod Lu lat).

Fixpoint find_pos (f : Z) (l : list Z) : option nat :=
  match l with
  | [] => None
  | y :: t => if f =? y then Some O else option_map S (find_pos f t)
  end.

(* _perm[flat index]; None = _REMOVED *)
Definition perm_lookup (lat : lattice) (s : site) : option Z :=
  option_map Z.of_nat (find_pos (flat lat s) (map (flat lat) (lorder lat))).

(* ---- Lattice.lat2mps_idx *)
Definition lat2mps (lat : lattice) (s : site) : option Z :=
  let '(x0, xr, u) := s in
  if infinite lat then
    let ish := x0 - x0 mod L0 lat in
    option_map (fun i => i + ish * nsites lat / L0 lat) (perm_lookup lat (x0 - ish, xr, u))
  else perm_lookup lat s.

(* ---- Lattice.mps2lat_idx  (finite: only 0 <= i < N is in the documented domain) *)
Definition mps2lat (lat : lattice) (i : Z) : option site :=
  if infinite lat then
    let i' := i mod nsites lat in
    match nth_error (lorder lat) (Z.to_nat i') with
    | Some (x0, xr, u) => Some (x0 + (i - i') * L0 lat / nsites lat, xr, u)
    | None => None
    end
  else if (0 <=? i) && (i <? nsites lat) then nth_error (lorder lat) (Z.to_nat i) else None.

(* ---- Lattice.mps_idx_fix_u(u) *)
Definition zenum {A} (l : list A) : list (Z * A) := combine (map Z.of_nat (seq 0 (length l))) l.

Definition mps_fix_u (lat : lattice) (u : Z) : list Z :=
  map fst (filter (fun ks => snd (snd ks) =? u) (zenum (lorder lat))).

(* ---- one direction of  lat_j_shifted = lat_i + dx; lat_j = mod(lat_j_shifted, Ls); keep *)
Definition wrap1 (L : Z) (op : bool) (x d : Z) : option (Z * Z) :=
  let sh := x + d in
  let y := sh mod L in
  if op && negb (sh =? y) then None else Some (y, (sh - y) / L).

(* directions 1.. : (lat_j[1:], sum of windings * bc_shift) *)
Fixpoint wrap_rest (Ls : list Z) (ops : list bool) (ss xs ds : list Z) : option (list Z * Z) :=
  match Ls, ops, ss, xs, ds with
  | [], [], [], [], [] => Some ([], 0)
  | L :: Ls', o :: ops', s :: ss', x :: xs', d :: ds' =>
      match wrap1 L o x d, wrap_rest Ls' ops' ss' xs' ds' with
      | Some (y, k), Some (ys, tot) => Some (y :: ys, k * s + tot)
      | _, _ => None
      end
  | _, _, _, _, _ => None
  end.

(* (lat_j_shifted[0], lat_j[0], lat_j[1:]) of a kept row *)
Definition target (lat : lattice) (x0 : Z) (xr : list Z) (dx0 : Z) (dxr : list Z) : option (Z * Z * list Z) :=
  match wrap_rest (Lr lat) (openr lat) (shiftr lat) xr dxr with
  | Some (yr, tot) =>
      let sh0 := x0 + dx0 - tot in
      let y0 := sh0 mod L0 lat in
      if open0 lat && negb (sh0 =? y0) then None else Some (sh0, y0, yr)
  | None => None
  end.

(* ---- Lattice.coupling_shape *)
Definition cshape1 (L : Z) (op : bool) (d : Z) : Z := L - Z.abs d * (if op then 1 else 0).

Fixpoint zip3 {A B C D} (f : A -> B -> C -> D) (l1 : list A) (l2 : list B) (l3 : list C) : list D :=
  match l1, l2, l3 with
  | a :: t1, b :: t2, c :: t3 => f a b c :: zip3 f t1 t2 t3
  | _, _, _ => []
  end.

Definition coupling_shape (lat : lattice) (dx0 : Z) (dxr : list Z) : list Z :=
  zip3 cshape1 (L0 lat :: Lr lat) (open0 lat :: openr lat) (dx0 :: dxr).

(* ---- Lattice.possible_couplings (+ IrregularLattice._keep_possible_couplings):
        rows (mps_i, mps_j, lat_indices) in the order the code returns them *)
Definition coupling_row (lat : lattice) (u1 u2 dx0 : Z) (dxr : list Z) (cs : list Z) (ks : Z * site)
  : list (Z * Z * list Z) :=
  let '(k, (x0, xr, u)) := ks in
  if u =? u1 then
    match target lat x0 xr dx0 dxr with
    | Some (sh0, y0, yr) =>
        match perm_lookup lat (y0, yr, u2) with
        | Some j0 =>
            let li := zip3 (fun x d s => (x + Z.min 0 d) mod s) (x0 :: xr) (dx0 :: dxr) cs in
            if infinite lat then
              let jsh := (sh0 - y0) * nsites lat / L0 lat in
              let ijs := if jsh <? 0 then - jsh else 0 in
              [(k + ijs, j0 + jsh + ijs, li)]
            else [(k, j0, li)]
        | None => []
        end
    | None => []
    end
  else [].

Definition possible_couplings (lat : lattice) (u1 u2 dx0 : Z) (dxr : list Z) : list (Z * Z * list Z) :=
  let cs := coupling_shape lat dx0 dxr in
  if existsb (fun s => s =? 0) cs then []
  else flat_map (coupling_row lat u1 u2 dx0 dxr cs) (zenum (lorder lat)).

Definition coupling_pairs (lat : lattice) (u1 u2 dx0 : Z) (dxr : list Z) : list (Z * Z) :=
  map fst (possible_couplings lat u1 u2 dx0 dxr).

(* ---- get_order: C-style and snake winding (priority = None), rows [x_0; ...; x_{d-1}; u] *)
Definition zrange (L : Z) : list Z := map Z.of_nat (seq 0 (Z.to_nat L)).

Fixpoint cstyle (shape : list Z) : list (list Z) :=
  match shape with
  | [] => [[]]
  | L :: r => flat_map (fun x => map (cons x) (cstyle r)) (zrange L)
  end.

(* flags = snake_winding; the flag of a direction says that the block of this and all faster
   directions is traversed backwards on every second step of the next slower direction *)
Fixpoint snake (flags : list bool) (shape : list Z) : list (list Z) :=
  match shape with
  | [] => [[]]
  | L :: r =>
      let inner := snake (tl flags) r in
      let f := hd false (tl flags) in
      flat_map (fun x => map (cons x) (if f && Z.odd x then rev inner else inner)) (zrange L)
  end.

(* priority: perm = argsort(priority); order = get_order(shape[perm], snake[perm])[:, inv_perm] *)
Definition pick {A} (d : A) (perm : list nat) (l : list A) : list A := map (fun m => nth m l d) perm.

Fixpoint index_of (j : nat) (perm : list nat) : nat :=
  match perm with
  | [] => O
  | m :: t => if Nat.eqb m j then O else S (index_of j t)
  end.

Definition get_order (shape : list Z) (flags : list bool) (perm : list nat) : list (list Z) :=
  map (fun row => map (fun j => nth (index_of j perm) row 0) (seq 0 (length shape)))
      (snake (pick false perm flags) (pick 0 perm shape)).

(* all sites of a regular lattice, as `site`s *)
Definition row_site (row : list Z) : site :=
  match row with
  | x0 :: t => (x0, removelast t, last t 0)
  | [] => (0, [], 0)
  end.

Definition site_row (s : site) : list Z := let '(x0, xr, u) := s in x0 :: xr ++ [u].

(* ---- Lattice.possible_multi_couplings (+ IrregularLattice._keep_possible_multi_couplings).
        ops = [(dx0, dxr, u)]; rows (mps_ijkl, lat_indices) *)
Definition op := (Z * list Z * Z)%type.

Definition zmin_l (l : list Z) : Z := match l with [] => 0 | x :: t => fold_left Z.min t x end.
Definition zmax_l (l : list Z) : Z := match l with [] => 0 | x :: t => fold_left Z.max t x end.

Definition dx_col (ops : list op) (a : nat) : list Z :=
  map (fun o : op => nth a (fst (fst o) :: snd (fst o)) 0) ops.

Definition multi_shape (lat : lattice) (ops : list op) : list Z * list Z :=   (* (shape, shift) *)
  let d := S (length (Lr lat)) in
  let cols := map (dx_col ops) (seq 0 d) in
  (zip3 (fun L (o : bool) c => L - (zmax_l c - zmin_l c) * (if o then 1 else 0))
        (L0 lat :: Lr lat) (open0 lat :: openr lat) cols,
   map zmin_l cols).

Fixpoint opt_all {A} (l : list (option A)) : option (list A) :=
  match l with
  | [] => Some []
  | Some a :: t => option_map (cons a) (opt_all t)
  | None :: _ => None
  end.

Fixpoint zip2 {A B C} (f : A -> B -> C) (l1 : list A) (l2 : list B) : list C :=
  match l1, l2 with
  | a :: t1, b :: t2 => f a b :: zip2 f t1 t2
  | _, _ => []
  end.

Definition multi_row (lat : lattice) (ops : list op) (shift : list Z) (c : list Z) : list (list Z * list Z) :=
  match c, shift with
  | c0 :: cr, m0 :: mr =>
      let one (o : op) : option Z :=
        let '(dx0, dxr, u) := o in
        match target lat c0 cr (dx0 - m0) (zip2 Z.sub dxr mr) with
        | Some (sh0, y0, yr) =>
            match perm_lookup lat (y0, yr, u) with
            | Some j0 => Some (if infinite lat then j0 + (sh0 - y0) * nsites lat / L0 lat else j0)
            | None => None
            end
        | None => None
        end in
      match opt_all (map one ops) with
      | Some ijkl =>
          if infinite lat then
            let mn := zmin_l ijkl in
            [(map (fun i => i + (mn mod nsites lat - mn)) ijkl, c)]
          else [(ijkl, c)]
      | None => []
      end
  | _, _ => []
  end.

Definition possible_multi_couplings (lat : lattice) (ops : list op) : list (list Z * list Z) :=
  let '(shape, shift) := multi_shape lat ops in
  if existsb (fun s => s =? 0) shape then []
  else flat_map (multi_row lat ops shift) (cstyle shape).

(* ---- declarative side of the theorems (Props/C19.v) ------------------------------------------- *)

(* number of lattice indices of a shape *)
Fixpoint nprod (shape : list Z) : nat :=
  match shape with [] => 1%nat | L :: r => (Z.to_nat L * nprod r)%nat end.

(* a row of an order array lies in the box of the given shape *)
Definition in_box (row shape : list Z) : Prop := Forall2 (fun x L => 0 <= x < L) row shape.

Definition site_in_box (lat : lattice) (s : site) : Prop :=
  let '(x0, xr, u) := s in
  0 <= x0 < L0 lat /\ Forall2 (fun x L => 0 <= x < L) xr (Lr lat) /\ 0 <= u < Lu lat.

(* well-formed lattice: positive sizes, the order lists distinct sites of the box (all of them for a
   regular lattice, a subset for an IrregularLattice), one bc entry per direction, and
   test_sanity's "infinite MPS needs periodic bc along x" *)
Record wf (lat : lattice) : Prop := mkWf {
  wf_L0 : 0 < L0 lat;
  wf_Lr : Forall (fun L => 0 < L) (Lr lat);
  wf_Lu : 0 < Lu lat;
  wf_box : Forall (site_in_box lat) (lorder lat);
  wf_nodup : NoDup (lorder lat);
  wf_inf : infinite lat = true -> open0 lat = false /\ lorder lat <> []
}.

(* the site exists in the (for infinite MPS: periodically repeated) lattice *)
Definition site_exists (lat : lattice) (s : site) : Prop :=
  let '(x0, xr, u) := s in
  In ((if infinite lat then x0 mod L0 lat else x0), xr, u) (lorder lat).

(* directions 1..: y = x + d - k * L componentwise with integer winding numbers k, k = 0 across an open
   boundary; tot = sum_a k_a * bc_shift_a is the accumulated shift along x_0 *)
Inductive conn_rest : list Z -> list bool -> list Z -> list Z -> list Z -> list Z -> Z -> Prop :=
| conn_nil : conn_rest [] [] [] [] [] [] 0
| conn_cons : forall L o s x d y k Ls os ss xs ds ys tot,
    0 <= y < L -> x + d = y + k * L -> (o = true -> k = 0) ->
    conn_rest Ls os ss xs ds ys tot ->
    conn_rest (L :: Ls) (o :: os) (s :: ss) (x :: xs) (d :: ds) (y :: ys) (k * s + tot).

(* (y0, yr) is the cell reached from (x0, xr) by the displacement (dx0, dxr) under the boundary
   conditions of the lattice; along x_0 there is no wrapping for open bc and for an infinite MPS
   (where x_0 ranges over all integers) *)
Definition connected (lat : lattice) (x0 : Z) (xr : list Z) (dx0 : Z) (dxr : list Z) (y0 : Z) (yr : list Z) : Prop :=
  exists tot k0,
    conn_rest (Lr lat) (openr lat) (shiftr lat) xr dxr yr tot /\
    x0 + dx0 - tot = y0 + k0 * L0 lat /\
    (open0 lat = true \/ infinite lat = true -> k0 = 0).

(* MPS sites i, j are a coupling (u1 at x, u2 at x + dx); for an infinite MPS the representative
   of the translation class is fixed by 0 <= min(i, j) < N_sites *)
Definition coupled (lat : lattice) (u1 u2 dx0 : Z) (dxr : list Z) (i j : Z) : Prop :=
  exists x0 xr y0 yr,
    mps2lat lat i = Some (x0, xr, u1) /\ mps2lat lat j = Some (y0, yr, u2) /\
    connected lat x0 xr dx0 dxr y0 yr /\
    (infinite lat = true -> 0 <= Z.min i j < nsites lat).

(* ---- checkers used by harness/c19.py (vm_compute) *)
Fixpoint zlist_eqb (a b : list Z) : bool :=
  match a, b with
  | [], [] => true
  | x :: a', y :: b' => (x =? y) && zlist_eqb a' b'
  | _, _ => false
  end.

Fixpoint list_eqb {A} (e : A -> A -> bool) (a b : list A) : bool :=
  match a, b with
  | [], [] => true
  | x :: a', y :: b' => e x y && list_eqb e a' b'
  | _, _ => false
  end.

Definition site_eqb (a b : site) : bool :=
  let '(x0, xr, u) := a in let '(y0, yr, v) := b in (x0 =? y0) && zlist_eqb xr yr && (u =? v).

Definition opt_eqb {A} (e : A -> A -> bool) (a b : option A) : bool :=
  match a, b with
  | Some x, Some y => e x y
  | None, None => true
  | _, _ => false
  end.

Definition row_eqb (a b : Z * Z * list Z) : bool :=
  let '(i, j, l) := a in let '(i', j', l') := b in (i =? i') && (j =? j') && zlist_eqb l l'.

Definition mrow_eqb (a b : list Z * list Z) : bool :=
  zlist_eqb (fst a) (fst b) && zlist_eqb (snd a) (snd b).

Definition cquery := (Z * Z * Z * list Z * list Z * list (Z * Z * list Z))%type.
  (* u1, u2, dx0, dxr, reported coupling_shape, reported rows *)

Definition check_cquery (lat : lattice) (q : cquery) : bool :=
  let '(u1, u2, dx0, dxr, shp, rows) := q in
  zlist_eqb (coupling_shape lat dx0 dxr) shp &&
  list_eqb row_eqb (possible_couplings lat u1 u2 dx0 dxr) rows.

Definition mquery := (list op * list Z * list (list Z * list Z))%type.

Definition check_mquery (lat : lattice) (q : mquery) : bool :=
  let '(ops, shp, rows) := q in
  zlist_eqb (fst (multi_shape lat ops)) shp &&
  list_eqb mrow_eqb (possible_multi_couplings lat ops) rows.

Record lat_case := mkCase {
  c_lat : lattice;
  c_m2l : list (Z * option site);      (* i, reported mps2lat_idx(i) *)
  c_l2m : list (site * option Z);      (* lattice index, reported lat2mps_idx (None = _REMOVED) *)
  c_fixu : list (list Z);              (* reported mps_idx_fix_u(u), u = 0 .. Lu-1 *)
  c_cq : list cquery;
  c_mq : list mquery
}.

Definition check_case (c : lat_case) : bool :=
  let lat := c_lat c in
  forallb (fun q => opt_eqb site_eqb (mps2lat lat (fst q)) (snd q)) (c_m2l c) &&
  forallb (fun q => opt_eqb Z.eqb (lat2mps lat (fst q)) (snd q)) (c_l2m c) &&
  list_eqb zlist_eqb (map (mps_fix_u lat) (zrange (Lu lat))) (c_fixu c) &&
  forallb (check_cquery lat) (c_cq c) &&
  forallb (check_mquery lat) (c_mq c).

(* ordering case: shape (incl. unit cell), snake flags, argsort(priority), reported order *)
Definition check_order_case (c : list Z * list bool * list nat * list (list Z)) : bool :=
  let '(shape, flags, perm, rows) := c in list_eqb zlist_eqb (get_order shape flags perm) rows.
