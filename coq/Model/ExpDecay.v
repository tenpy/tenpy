(* Model of tenpy/networks/terms.py: ExponentiallyDecayingTerms.add_to_graph, FINITE branch (the `else:` of
   `if not finite`), for entries of `exp_decaying_terms` with a scalar (uniform) lambda_ and the default
   subsites = subsites_start = all sites [0..L-1] (first_subsite = 0, last_subsite = L-1, in_subsites and
   in_subsites_start all True):

       if last_subsite > first_subsite:
           graph.add(0, 'IdL', label, op_i, lam)
           for i in range(1, L-1):
               graph.add(i, label, label, op_string, lam)
               graph.add(i, label, 'IdR', op_j, strength)
               graph.add(i, 'IdL', label, op_i, lam)
           graph.add(L-1, label, 'IdR', op_j, strength)

   `graph.add` (skip_existing=False) is `add_edge` of Model/Automaton.v; label = (key_nr, 'exp-decay') is
   the key `Oth n`.  lambda_ is a Gaussian INTEGER here (like every strength in Model/Automaton.v), so all
   edge weights stay in C and `denote` of Automaton.v applies unchanged.
   Definitions only; proofs in Proofs/ExpDecayP.v. *)
From TenpyV Require Import Base.Prelude Model.Automaton.
Open Scope Z_scope.

(* lam^k *)
Fixpoint cpow (c : C) (k : nat) : C :=
  match k with O => c1 | S k' => cmul c (cpow c k') end.

(* the three kinds of edges of one exponentially decaying term with label Oth n *)
Definition xstart (n a : Z) (lam : C) : edge := mkE IdL (Oth n) a lam.      (* IdL -> label, op_i, lambda *)
Definition xstr (n s : Z) (lam : C) : edge := mkE (Oth n) (Oth n) s lam.    (* label -> label, op_string, lambda *)
Definition xend (n b : Z) (w : C) : edge := mkE (Oth n) IdR b w.            (* label -> IdR, op_j, strength *)

(* body of `for i in range(first_subsite + 1, last_subsite)` *)
Definition add_exp_bulk (n a s b : Z) (lam w : C) (g : graph) (i : nat) : graph :=
  add_edge i (xstart n a lam) (add_edge i (xend n b w) (add_edge i (xstr n s lam) g)).

(* the finite branch for one term on a chain of L sites, in the order of the calls of graph.add *)
Definition add_exp (L : nat) (n : Z) (a s b : Z) (lam w : C) (g : graph) : graph :=
  if (0 <? L - 1)%nat then                       (* last_subsite > first_subsite *)
    add_edge (L - 1) (xend n b w)
      (fold_left (add_exp_bulk n a s b lam w) (seq 1 (L - 2)) (add_edge 0 (xstart n a lam) g))
  else g.

(* the operator the term stands for:  sum_{i<j<L} w * lam^(j-i) * a_i s_{i+1} ... s_{j-1} b_j *)
Definition exp_mono (a s b : Z) (lam w : C) (i j : nat) : mono :=
  (cmul w (cpow lam (j - i)), consop i a (wstring (S i) (j - i - 1) s ++ consop j b [])).
Definition nf_exp (L : nat) (a s b : Z) (lam w : C) : poly :=
  flat_map (fun i => map (exp_mono a s b lam w i) (seq (S i) (L - S i))) (seq 0 L).

(* freshness of the label Oth n in a graph in upper-triangular form: no edge touches Oth n, no edge
   enters IdL, no edge leaves IdR (weaker than `wf`: allows other Oth labels, e.g. of earlier
   exponentially decaying terms) *)
Definition plain_edge (n : Z) (e : edge) : bool :=
  negb (key_eqb (eL e) (Oth n)) && negb (key_eqb (eR e) (Oth n)) &&
  negb (key_eqb (eR e) IdL) && negb (key_eqb (eL e) IdR).
Definition fresh_in (n : Z) (g : graph) : bool := forallb (forallb (plain_edge n)) g.

(* several terms (the loop over self.exp_decaying_terms): key_nr is increased for every term *)
Record xterm := mkXT { xt_a : Z; xt_s : Z; xt_b : Z; xt_lam : C; xt_w : C }.
Fixpoint add_exps (L : nat) (n : Z) (ts : list xterm) (g : graph) : graph :=
  match ts with
  | [] => g
  | t :: ts' => add_exps L (n + 1) ts' (add_exp L n (xt_a t) (xt_s t) (xt_b t) (xt_lam t) (xt_w t) g)
  end.
Definition nf_xterm (L : nat) (t : xterm) : poly := nf_exp L (xt_a t) (xt_s t) (xt_b t) (xt_lam t) (xt_w t).

(* checker (called by check_expdecay_all of Model/AutomatonTieCheck.v, stream c10_expdecay): the implementation's
   closed graph gi for one term added to the empty graph is the model's graph edge for edge and denotes the
   expected operator *)
Definition check_expdecay (c : nat * Z * (Z * Z * Z) * (C * C) * graph) : bool :=
  let '(L, n, (a, s, b), (lam, w), gi) := c in
  graph_mset_eqb (close (add_exp L n a s b lam w (empty_graph L))) gi &&
  peqb (denote gi) (nf_exp L a s b lam w).
