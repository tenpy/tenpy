(* C17 - python object graphs as finite heaps; saving and loading as memoised depth-first copies.

   A heap is a list of nodes, the id of a node is its index.  `visit` is the common skeleton of
     Hdf5Saver.save     (memo_save : id(obj) -> HDF5 group, a revisit creates a hard link),
     Hdf5Loader.load    (memo_load : HDF5 object id -> python object),
     pickle's Pickler/Unpickler memo and copy.deepcopy's memo:
   a node that is already in the memo is returned as it is (this is what preserves sharing);  an "early" node is
   allocated and entered into the memo BEFORE its children are visited (create_group_for_obj / memorize_load at the
   top of load_list, load_dict, Hdf5Exportable.from_hdf5: this is what makes cycles terminate);  a "late" node (tuples
   in the loader: a tuple can only be built when its elements exist) is allocated AFTER its children, with pickle's
   re-check of the memo (save_tuple: "if id(obj) in memo").  The HDF5 loader has no such re-check but memoises a
   temporary list at entry; the two agree unless a tuple is re-entered while it is being loaded (a cycle through a
   tuple that is first reached at the tuple) - the code documents that case as a BUG, harness/c17.py has a stream
   for it.  Fuel bounds the recursion depth. *)
From TenpyV Require Import Base.Prelude.

Inductive node :=
| Leaf (v : Z)                                (* int, float, str, None, numpy scalar, dtype, range ...: a value *)
| NList (cs : list nat)
| NTuple (cs : list nat)
| NSet (cs : list nat)                        (* elements in a canonical order *)
| NDict (kvs : list (nat * nat))              (* (key, value) in order; saved as all keys, then all values *)
| NObj (cls : Z) (attrs : list (Z * nat)).    (* instance: class code, (attribute name code, value) *)

Definition heap := list node.

Definition children (n : node) : list nat :=
  match n with
  | Leaf _ => []
  | NList cs => cs
  | NTuple cs => cs
  | NSet cs => cs
  | NDict kvs => map fst kvs ++ map snd kvs
  | NObj _ ats => map snd ats
  end.

Definition with_children (n : node) (cs : list nat) : node :=
  match n with
  | Leaf v => Leaf v
  | NList _ => NList cs
  | NTuple _ => NTuple cs
  | NSet _ => NSet cs
  | NDict kvs => NDict (combine (firstn (length kvs) cs) (skipn (length kvs) cs))
  | NObj c ats => NObj c (combine (map fst ats) cs)
  end.

Definition memo := list (nat * nat).

Fixpoint lookup (x : nat) (m : memo) : option nat :=
  match m with
  | [] => None
  | (k, v) :: t => if Nat.eqb k x then Some v else lookup x t
  end.

Record state := mkState { st_memo : memo; st_out : heap }.

Fixpoint set_nth (l : heap) (i : nat) (v : node) : heap :=
  match l, i with
  | [], _ => []
  | _ :: t, O => v :: t
  | a :: t, S k => a :: set_nth t k v
  end.

Fixpoint visit_list (f : nat -> state -> option (state * nat)) (cs : list nat) (st : state)
  : option (state * list nat) :=
  match cs with
  | [] => Some (st, [])
  | c :: t =>
    match f c st with
    | None => None
    | Some (st1, c') =>
      match visit_list f t st1 with
      | None => None
      | Some (st2, t') => Some (st2, c' :: t')
      end
    end
  end.

Section Copy.
  Variable late : node -> bool.
  Variable h : heap.

  Fixpoint visit (fuel : nat) (x : nat) (st : state) : option (state * nat) :=
    match lookup x (st_memo st) with
    | Some x' => Some (st, x')
    | None =>
      match fuel with
      | O => None
      | S f =>
        match nth_error h x with
        | None => None
        | Some nd =>
          if late nd then
            match visit_list (visit f) (children nd) st with
            | None => None
            | Some (st1, cs') =>
              match lookup x (st_memo st1) with
              | Some x' => Some (st1, x')
              | None =>
                let x' := length (st_out st1) in
                Some (mkState ((x, x') :: st_memo st1) (st_out st1 ++ [with_children nd cs']), x')
              end
            end
          else
            let x' := length (st_out st) in
            let st0 := mkState ((x, x') :: st_memo st) (st_out st ++ [nd]) in
            match visit_list (visit f) (children nd) st0 with
            | None => None
            | Some (st1, cs') =>
              Some (mkState (st_memo st1) (set_nth (st_out st1) x' (with_children nd cs')), x')
            end
        end
      end
    end.
End Copy.

Definition copy (late : node -> bool) (fuel : nat) (h : heap) (r : nat) : option (heap * nat) :=
  match visit late h fuel r (mkState [] []) with
  | Some (st, r') => Some (st_out st, r')
  | None => None
  end.

Definition never (_ : node) : bool := false.
Definition is_tuple (n : node) : bool := match n with NTuple _ => true | _ => false end.

(* Hdf5Saver.save / pickle.dump : everything is memoised on entry *)
Definition save (fuel : nat) (h : heap) (r : nat) := copy never fuel h r.
(* Hdf5Loader.load / pickle.load : tuples are completed before they are memoised *)
Definition load (fuel : nat) (h : heap) (r : nat) := copy is_tuple fuel h r.

Definition roundtrip (f1 f2 : nat) (h : heap) (r : nat) : option (heap * nat) :=
  match save f1 h r with
  | Some (h1, r1) => load f2 h1 r1
  | None => None
  end.

(* ---- specification vocabulary *)

Definition rel_ids (m : nat -> option nat) (cs cs' : list nat) : Prop :=
  Forall2 (fun c c' => m c = Some c') cs cs'.

(* same kind, same leaf value / class / attribute names, children related in order *)
Definition node_rel (m : nat -> option nat) (n n' : node) : Prop :=
  match n, n' with
  | Leaf v, Leaf v' => v = v'
  | NList cs, NList cs' => rel_ids m cs cs'
  | NTuple cs, NTuple cs' => rel_ids m cs cs'
  | NSet cs, NSet cs' => rel_ids m cs cs'
  | NDict kvs, NDict kvs' =>
      rel_ids m (map fst kvs) (map fst kvs') /\ rel_ids m (map snd kvs) (map snd kvs')
  | NObj c ats, NObj c' ats' =>
      c = c' /\ map fst ats = map fst ats' /\ rel_ids m (map snd ats) (map snd ats')
  | _, _ => False
  end.

(* m is an isomorphism from a part of h that contains everything reachable from r (its domain contains r and is closed
   under children because node_rel relates every child; nothing confines it to what is reachable) onto the whole of h' *)
Record iso (m : nat -> option nat) (h : heap) (r : nat) (h' : heap) (r' : nat) : Prop := mkIso {
  iso_root : m r = Some r';
  iso_node : forall x x', m x = Some x' ->
             exists n n', nth_error h x = Some n /\ nth_error h' x' = Some n' /\ node_rel m n n';
  iso_inj : forall x y v, m x = Some v -> m y = Some v -> x = y;
  iso_surj : forall i, i < length h' -> exists x, m x = Some i
}.

Definition closed (h : heap) : Prop :=
  forall x n, nth_error h x = Some n -> Forall (fun c => c < length h) (children n).

(* ---- executable comparison used by the correspondence stream of harness/c17.py *)

Fixpoint list_eqb {A} (e : A -> A -> bool) (a b : list A) : bool :=
  match a, b with
  | [], [] => true
  | x :: a', y :: b' => e x y && list_eqb e a' b'
  | _, _ => false
  end.

Definition pair_nat_eqb (p q : nat * nat) := Nat.eqb (fst p) (fst q) && Nat.eqb (snd p) (snd q).
Definition pair_zn_eqb (p q : Z * nat) := Z.eqb (fst p) (fst q) && Nat.eqb (snd p) (snd q).

Definition node_eqb (a b : node) : bool :=
  match a, b with
  | Leaf v, Leaf w => Z.eqb v w
  | NList x, NList y => list_eqb Nat.eqb x y
  | NTuple x, NTuple y => list_eqb Nat.eqb x y
  | NSet x, NSet y => list_eqb Nat.eqb x y
  | NDict x, NDict y => list_eqb pair_nat_eqb x y
  | NObj c x, NObj d y => Z.eqb c d && list_eqb pair_zn_eqb x y
  | _, _ => false
  end.

(* canonical form: depth-first preorder renumbering from the root *)
Definition canon (h : heap) (r : nat) : option (heap * nat) := save (S (length h)) h r.

(* a case is (original heap, root, canonical heap of what the implementation loaded, its root):
   the model's round trip, brought to canonical form, must be exactly what the implementation produced *)
Definition check_case (c : heap * nat * heap * nat) : bool :=
  match c with
  | (h, r, lh, lr) =>
    match roundtrip (S (length h)) (S (length h) * S (length h)) h r with
    | Some (h2, r2) =>
      match canon h2 r2 with
      | Some (h3, r3) => list_eqb node_eqb h3 lh && Nat.eqb r3 lr
      | None => false
      end
    | None => false
    end
  end.

(* ---- vocabulary of the totality statement for `load` (T17_load_total; not used by check_case).
   late_step x c: x is a late node (a tuple, for `load`) of h and c is one of its children;
   late_reach x y: y is reached from x by one or more such steps, i.e. along a reference path on which every node
   that is left is late.  late_reach x x is a reference cycle consisting only of late nodes (a tuple that contains
   itself through tuples only - python cannot build one; a cycle through a list, dict, set or instance is fine). *)
Definition late_step (late : node -> bool) (h : heap) (x c : nat) : Prop :=
  exists nd, nth_error h x = Some nd /\ late nd = true /\ In c (children nd).
Inductive late_reach (late : node -> bool) (h : heap) : nat -> nat -> Prop :=
| lr_step x c : late_step late h x c -> late_reach late h x c
| lr_trans x y c : late_reach late h x y -> late_step late h y c -> late_reach late h x c.
Definition no_late_cycle (late : node -> bool) (h : heap) : Prop := forall x, ~ late_reach late h x x.
(* the special case the harness generates: the children of late nodes are not late (tuples of containers / leaves) *)
Definition late_flat (late : node -> bool) (h : heap) : Prop :=
  forall x c nd', late_step late h x c -> nth_error h c = Some nd' -> late nd' = false.
