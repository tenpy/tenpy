(* Model of the index / coefficient bookkeeping of tenpy/linalg/krylov_based.py (property C16):
   KrylovBased._to_cache, LanczosGroundState._build_krylov, KrylovBased._calc_result_full,
   LanczosGroundState._rebuild_krylov_for_result_full, tools.misc.argsort as used by Arnoldi.
   Definitions only (proofs in Proofs/KrylovP.v, KrylovP2.v).  Tie to the code: correspondence (K), harness/c16.py.

   Krylov vectors are abstract: the natural number k stands for v_k, where v_0 is the normalised start
   vector and v_{k+1} is the vector obtained from H v_k by the orthogonalisation steps of iteration k.
   The float kernel (inner products, norms, the eigen-decomposition of the small matrix h, the exit
   conditions) is NOT modelled: the number N of performed iterations is an input of the model.

   Events (tag, a, b, c) are what the instrumented implementation records:
     (0,k,0,0)   iscale_prefactor on the vector with index k
     (1,k,l,f)   _to_cache(v_k); afterwards the cache holds l vectors, the oldest being v_f
     (2,k,0,0)   H.matvec(v_k)     (its result is the object that becomes v_{k+1})
     (3,t,v,c)   w_t += coef * v_v,  c = 0: coef = -h[v,v] (alpha), 1: coef = -h[v,v+1] (beta),
                                     2: coef = -<v_v|w> (re-orthogonalisation)
     (4,j,v,0)   psif += vf[j] * v_v    (vf = _result_krylov)
     (6,j,v,0)   psif = vf[j] * v_v     (start of _calc_result_full)
     (5,0,0,0)   final normalisation of psif *)
From TenpyV Require Import Base.Prelude Model.Truncate.

Definition ev := (nat * nat * nat * nat)%type.

(* ---- KrylovBased._to_cache:  cache.append(psi); if len(cache) > N_cache: cache.pop(0) *)
Definition to_cache (nc : nat) (c : list nat) (v : nat) : list nat :=
  let c' := c ++ [v] in if (nc <? length c')%nat then tl c' else c'.

(* the cache after v_0 .. v_{k-1} went through _to_cache (starting from an empty cache) *)
Fixpoint cache_after (nc k : nat) : list nat :=
  match k with O => [] | S k' => to_cache nc (cache_after nc k') k' end.

(* python  c[-j]  (1 <= j <= len c) *)
Definition from_end (c : list nat) (j : nat) : nat := nth (length c - j) c 0%nat.

(* the updates  w -= alpha v_k ; then re-orthogonalisation against _cache[:-1]  or  w -= beta _cache[-2] *)
Definition ortho_events (reortho : bool) (c : list nat) (k : nat) : list ev :=
  (3, S k, from_end c 1, 0)%nat ::
  (if reortho then map (fun v => (3, S k, v, 2)%nat) (removelast c)
   else match k with O => [] | S _ => [(3, S k, from_end c 2, 1)%nat] end).

(* ---- LanczosGroundState._build_krylov: n iterations k, k+1, .. starting with cache c *)
Fixpoint build_loop (nc : nat) (reortho : bool) (k n : nat) (c : list nat) : list ev :=
  match n with
  | O => []
  | S n' =>
    let c' := to_cache nc c k in
    [(0, k, 0, 0); (1, k, length c', hd 0 c'); (2, k, 0, 0)]%nat ++ ortho_events reortho c' k
      ++ build_loop nc reortho (S k) n' c'
  end.

(* ---- LanczosGroundState._rebuild_krylov_for_result_full(psif, n), a second copy of the loop *)
Fixpoint rebuild_loop (nc : nat) (reortho : bool) (k n : nat) (c : list nat) : list ev :=
  match n with
  | O => []
  | S n' =>
    let c' := to_cache nc c k in
    [(1, k, length c', hd 0 c'); (2, k, 0, 0)]%nat ++ ortho_events reortho c' k
      ++ [(0, S k, 0, 0); (4, S k, S k, 0)]%nat
      ++ rebuild_loop nc reortho (S k) n' c'
  end.

(* ---- KrylovBased._calc_result_full(N): cached part, then the rebuild with an emptied cache *)
Definition cached_terms (N : nat) (c : list nat) : list (nat * nat) :=
  map (fun k => (N - k, from_end c k)%nat) (seq 1 (min (S (length c)) N - 1)).

Definition result_events (nc : nat) (reortho : bool) (N : nat) : list ev :=
  let c := cache_after nc N in
  (6, 0, 0, 0)%nat :: map (fun t => (4, fst t, snd t, 0)%nat) (cached_terms N c)
  ++ rebuild_loop nc reortho 0 (N - length c - 1) [] ++ [(5, 0, 0, 0)%nat].

(* the whole run of LanczosGroundState.run / LanczosEvolution.run with N iterations *)
Definition lanczos_events (nc : nat) (reortho : bool) (N : nat) : list ev :=
  build_loop nc reortho 0 N [] ++ (if (N =? 1)%nat then [] else result_events nc reortho N).

(* (coefficient index, Krylov vector index) pairs summed into the result; the first is psi0 * vf[0] *)
Definition rebuilt_terms (n : nat) : list (nat * nat) := map (fun k => (S k, S k)) (seq 0 n).
Definition result_terms (nc N : nat) : list (nat * nat) :=
  let c := cache_after nc N in
  (0, 0)%nat :: cached_terms N c ++ rebuilt_terms (N - length c - 1).

(* per-iteration orthogonalisation steps of both loops (what defines v_{k+1} from H v_k) *)
Fixpoint build_ortho (nc : nat) (reortho : bool) (k n : nat) (c : list nat) : list (list ev) :=
  match n with
  | O => []
  | S n' => let c' := to_cache nc c k in ortho_events reortho c' k :: build_ortho nc reortho (S k) n' c'
  end.
Fixpoint rebuild_ortho (nc : nat) (reortho : bool) (k n : nat) (c : list nat) : list (list ev) :=
  match n with
  | O => []
  | S n' => let c' := to_cache nc c k in ortho_events reortho c' k :: rebuild_ortho nc reortho (S k) n' c'
  end.

(* ---- correspondence checker: (N_cache, reortho, N, events of the run, terms of the result) *)
Definition ev_eqb (a b : ev) : bool :=
  match a, b with (a1, a2, a3, a4), (b1, b2, b3, b4) =>
    ((a1 =? b1) && (a2 =? b2) && (a3 =? b3) && (a4 =? b4))%nat end.
Fixpoint list_eqb {A} (eqb : A -> A -> bool) (l1 l2 : list A) : bool :=
  match l1, l2 with
  | [], [] => true
  | x :: t1, y :: t2 => eqb x y && list_eqb eqb t1 t2
  | _, _ => false
  end.
Definition pair_eqb (a b : nat * nat) : bool := ((fst a =? fst b) && (snd a =? snd b))%nat.

Definition check_lanczos (x : nat * bool * nat * list ev * list (nat * nat)) : bool :=
  match x with (nc, reortho, N, evs, terms) =>
    list_eqb ev_eqb evs (lanczos_events nc reortho N) &&
    (if (N =? 1)%nat then true else list_eqb pair_eqb terms (result_terms nc N)) end.

(* ---- tools.misc.argsort(E, which) as used by Arnoldi._calc_result_krylov.  Complex numbers are
   pairs of integers (numerators of dyadic rationals); the sort key is monotone in the key numpy uses
   ( |z| replaced by |z|^2 ).  np.argsort is not stable: only the sequence of keys is determined. *)
Open Scope Z_scope.
Inductive which := LM | SM | LR | SR | LI | SI.
Definition wkey (w : which) (z : Z * Z) : Z :=
  match w with
  | LM => - (fst z * fst z + snd z * snd z)
  | SM => fst z * fst z + snd z * snd z
  | LR => - fst z
  | SR => fst z
  | LI => - snd z
  | SI => snd z
  end.
Definition argsort_model (w : which) (zs : list (Z * Z)) : list nat :=
  map snd (sorted_pairs (map (wkey w) zs)).
Definition keys_along (w : which) (zs : list (Z * Z)) (p : list nat) : list Z :=
  map (fun i => wkey w (nth i zs (0, 0))) p.

Definition which_of (n : nat) : which :=
  match n with 0%nat => LM | 1%nat => SM | 2%nat => LR | 3%nat => SR | 4%nat => LI | _ => SI end.
Fixpoint is_perm_of_range (p : list nat) (n : nat) : bool :=
  match n with
  | O => match p with [] => true | _ => false end
  | S n' => existsb (Nat.eqb n') p && is_perm_of_range (remove Nat.eq_dec n' p) n'
  end.
(* case: (which code, values, permutation returned by the implementation) *)
Definition check_argsort (x : nat * list (Z * Z) * list nat) : bool :=
  match x with (wc, zs, p) =>
    let w := which_of wc in
    is_perm_of_range p (length zs) &&
    list_eqb Z.eqb (keys_along w zs p) (keys_along w zs (argsort_model w zs)) end.
