(* The documented priority of the truncation constraints (tenpy/linalg/truncation.py, truncate:
   "If a constraint can not be fulfilled (without violating a previous one), it is ignored"),
   written as sets of cut positions, independently of the boolean-array code modelled in
   Model/Truncate.v.  Definitions only; Proofs/TruncPriorityP.v proves that final_good of Model/Truncate.v
   (the correspondence-checked model) is the table of A_final and that the cut truncate takes (its first True;
   `cut`, Proofs/TruncateP.v) is the least element of A_final.

   A cut c (0 <= c < n) discards the c smallest values of the ascending spectrum ss and keeps n - c. *)
From TenpyV Require Import Base.Prelude Base.PyLib Model.Truncate.
Open Scope Z_scope.

(* the five constraint sets G_k, as the code decides them *)
Definition G_chi_max (n : nat) (m : Z) (c : nat) : bool :=
  slice_start (Z.of_nat n) (- m) <=? Z.of_nat c.                (* good2[-chi_max:] = True *)
Definition G_chi_min (n : nat) (m : Z) (c : nat) : bool :=
  negb (slice_start (Z.of_nat n) (- m + 1) <=? Z.of_nat c).     (* good2[-chi_min+1:] = False *)
Definition G_deg (ss : list Z) (pq : Z * Z) (c : nat) : bool :=
  match c with O => true | S c' => deg_ok (fst pq) (snd pq) (nthZ ss c') (nthZ ss c) end.
Definition G_svd_min (ss : list Z) (m : Z) (c : nat) : bool := m <=? nthZ ss c.
Definition G_trunc_cut (ss : list Z) (t : Z) (c : nat) : bool :=
  t <? sumZ (map sq (firstn (S c) ss)).                         (* cumsum(S^2)[c] > trunc_cut^2 *)

Definition opt_set {T} (o : option T) (G : T -> nat -> bool) : list (nat -> bool) :=
  match o with Some a => [G a] | None => [] end.

(* active constraints in code order; None (and chi_min <= 1) contributes nothing *)
Definition constraints (ss : list Z) (o : opts) : list (nat -> bool) :=
  let n := length ss in
  opt_set (chi_max o) (G_chi_max n) ++
  (match chi_min o with Some m => if 1 <? m then [G_chi_min n m] else [] | None => [] end) ++
  opt_set (deg_tol o) (G_deg ss) ++
  opt_set (svd_min o) (G_svd_min ss) ++
  opt_set (trunc_cut2 o) (G_trunc_cut ss).

(* A_k = A_(k-1) /\ G_k if that is non-empty on 0..n-1, else A_(k-1) *)
Definition stage (n : nat) (A G : nat -> bool) : nat -> bool :=
  if existsb (fun c => A c && G c) (seq 0 n) then (fun c => A c && G c) else A.
Definition A_all (n : nat) (c : nat) : bool := (c <? n)%nat.
Definition A_final (ss : list Z) (o : opts) : nat -> bool :=
  fold_left (stage (length ss)) (constraints ss o) (A_all (length ss)).
