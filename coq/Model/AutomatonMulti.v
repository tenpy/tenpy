(* Model of tenpy/networks/terms.py: MultiCouplingTerms.add_to_graph (with _insert_to_graph,
   _insert_to_graph_rec) and MPOGraph.add_string_left_to_right / add_string_right_to_left, finite
   chains, on the weighted automata of Model/Automaton.v (same `key`, `edge`, `graph`, `denote`,
   `add_edge`, `add_skip`, `add_string`, `close`: the definitions the correspondence streams of
   harness/c10.py evaluate).  Definitions only (proofs in Proofs/AutomatonMultiP.v,
   about split_term in Proofs/AutomatonMultiP2.v).

   A multi-site term  strength * op_0(i_0) str_0 ... op_n(i_n)  is stored by
   MultiCouplingTerms.add_multi_coupling_term as
     - a path in the nested dictionary `terms_left`:  (i, op_i, op_str right of i) for the sites i < switchLR,
     - a path in `terms_right`: (i, op_i, op_str LEFT of i) for the sites i > switchLR, starting at the LAST site,
     - connections[c] = (switchLR, op_switch, shift = 0 for finite chains, strength).
   `mterm` is exactly this stored form (split_term below models the splitting itself).
   add_to_graph walks the two dictionaries and inserts, with skip_existing=True, for every node of the
   path the edge  keyL --op--> keyL + (i, op, op_str)  and the operator strings between the nodes; the
   states are the tuples ('left', i0, op0, str0, i1, op1, str1, ...) resp. ('right', ...): the state is
   the prefix (resp. suffix) of the term.  Finally  graph.add(switchLR, keyL, keyR, op_switch, strength).
   `add_mterm` performs these insertions for ONE connection c (the dictionary walk repeats the
   idempotent skip_existing insertions of shared prefixes only once; equal (left, right, switchLR,
   op_switch) are merged by _insert_connection into one edge with the summed strength, here they
   give two parallel edges: same denotation).

   Tuple keys are named inside `key` by an injective encoding (`kleft`, `kright`; injectivity and
   disjointness are proved in Proofs/AutomatonMultiP.v: kleft_inj, kright_inj, kleft_kright);
   ('left', i, a, s) is `Lbl i a s` exactly as in CouplingTerms.add_to_graph / Model/Automaton.v,
   the empty prefix is IdL, the empty suffix is IdR.  Lists of triples in keys are stored with the
   LAST appended triple first. *)
From TenpyV Require Import Base.Prelude Model.Automaton.
Open Scope Z_scope.

Definition triple := (nat * Z * Z)%type.     (* (site, operator id, operator-string id) *)
Definition tsite (t : triple) : nat := fst (fst t).
Definition top (t : triple) : Z := snd (fst t).
Definition tstr (t : triple) : Z := snd t.

(* ---- names of the tuple keys *)
Definition z2n (z : Z) : nat := if 0 <=? z then Z.to_nat (2 * z) else Z.to_nat (- 2 * z - 1).
Definition enc_tr (t : triple) (k : key) : key :=
  InB (Nat.iter (tsite t) InA (InB (Nat.iter (z2n (top t)) InA (InB (Nat.iter (z2n (tstr t)) InA k))))).
(* ('left', ...) + (i, op, str): p is the reversed tuple *)
Fixpoint kleft (p : list triple) : key :=
  match p with
  | [] => IdL
  | t :: p' => match p' with [] => Lbl (tsite t) (top t) (tstr t) | _ :: _ => enc_tr t (kleft p') end
  end.
(* ('right', ...) + (i, op, str) *)
Fixpoint kright (q : list triple) : key :=
  match q with
  | [] => IdR
  | t :: q' => enc_tr t (kright q')
  end.

(* ---- stored form of one term *)
Record mterm := mkMT { mt_left : list triple; mt_right : list triple; mt_sw : nat; mt_op : Z; mt_w : C }.

(* MPOGraph.add_string_right_to_left(j, i, key, op) with n = j - i - 1: sites j-1, j-2, ..., i+1 *)
Fixpoint add_string_r (j n : nat) (ky : key) (op : Z) (g : graph) : graph :=
  match n with
  | O => g
  | S n' => add_string_r (pred j) n' ky op
              (if has_edge (pred j) ky ky g then g else add_edge (pred j) (mkE ky ky op c1) g)
  end.

(* graph.add_string_left_to_right(i, upto, key_from_i, op_string_ij) for the state p (nothing for IdL) *)
Definition lstring (p : list triple) (upto : nat) (g : graph) : graph :=
  match p with
  | [] => g
  | t :: _ => add_string (S (tsite t)) (upto - tsite t - 1) (kleft p) (tstr t) g
  end.
Definition rstring (q : list triple) (downto : nat) (g : graph) : graph :=
  match q with
  | [] => g
  | t :: _ => add_string_r (tsite t) (tsite t - downto - 1) (kright q) (tstr t) g
  end.

(* _insert_to_graph(from_left=True) / _insert_to_graph_rec along the path `rest` below the state p:
   returns the graph and all_keys[c] *)
Fixpoint ins_left (p rest : list triple) (sw : nat) (g : graph) : graph * key :=
  match rest with
  | [] => (lstring p sw g, kleft p)
  | t :: rest' =>
      ins_left (t :: p) rest' sw
        (add_skip (tsite t) (mkE (kleft p) (kleft (t :: p)) (top t) c1) (lstring p (tsite t) g))
  end.
Fixpoint ins_right (q rest : list triple) (sw : nat) (g : graph) : graph * key :=
  match rest with
  | [] => (rstring q sw g, kright q)
  | t :: rest' =>
      ins_right (t :: q) rest' sw
        (add_skip (tsite t) (mkE (kright (t :: q)) (kright q) (top t) c1) (rstring q (tsite t) g))
  end.

(* MultiCouplingTerms.add_to_graph, one connection *)
Definition add_mterm (g : graph) (t : mterm) : graph :=
  let '(g1, kl) := ins_left [] (mt_left t) (mt_sw t) g in
  let '(g2, kr) := ins_right [] (mt_right t) (mt_sw t) g1 in
  add_edge (mt_sw t) (mkE kl kr (mt_op t) (mt_w t)) g2.

(* ---- the operator a term stands for *)
(* word of the state p on the bond left of site b (operators on sites < b) *)
Fixpoint lword (p : list triple) (b : nat) : word :=
  match p with
  | [] => []
  | t :: p' => lword p' (tsite t) ++ consop (tsite t) (top t) (wstring (S (tsite t)) (b - tsite t - 1) (tstr t))
  end.
(* word of the state q on the bond left of site b (operators on sites >= b) *)
Fixpoint rword (q : list triple) (b : nat) : word :=
  match q with
  | [] => []
  | t :: q' => wstring b (tsite t - b) (tstr t) ++ consop (tsite t) (top t) (rword q' (S (tsite t)))
  end.
Definition nf_mterm (t : mterm) : mono :=
  (mt_w t, lword (rev (mt_left t)) (mt_sw t) ++
           consop (mt_sw t) (mt_op t) (rword (rev (mt_right t)) (S (mt_sw t)))).

(* sites of the left path strictly increasing and < switchLR; of the right path strictly decreasing,
   < L and > switchLR *)
Fixpoint asc (lo : nat) (l : list triple) (hi : nat) : bool :=
  match l with
  | [] => true
  | t :: l' => (lo <=? tsite t)%nat && (tsite t <? hi)%nat && asc (S (tsite t)) l' hi
  end.
Fixpoint desc (hi : nat) (l : list triple) (lo : nat) : bool :=
  match l with
  | [] => true
  | t :: l' => (tsite t <? hi)%nat && (lo <? tsite t)%nat && desc (tsite t) l' lo
  end.
Definition mterm_ok (L : nat) (t : mterm) : bool :=
  (mt_sw t <? L)%nat && asc 0 (mt_left t) (mt_sw t) && desc L (mt_right t) (mt_sw t).

(* two-site and on-site terms are the special cases *)
Definition mterm_of_cterm (t : cterm) : mterm :=
  mkMT [(ct_i t, ct_a t, ct_s t)] [] (ct_j t) (ct_b t) (ct_w t).
Definition mterm_of_oterm (t : oterm) : mterm := mkMT [] [] (ot_i t) (ot_op t) (ot_w t).

(* MPOGraph.from_terms with on-site, two-site and multi-site containers *)
Definition from_terms_m (L : nat) (ots : list oterm) (cts : list cterm) (mts : list mterm) : graph :=
  close (fold_left add_mterm mts (fold_left add_cterm cts (fold_left add_oterm ots (empty_graph L)))).

(* ---- MultiCouplingTerms.add_multi_coupling_term: splitting (ijkl, ops_ijkl, op_string, switchLR)
   into the stored form.  ops : list of (site, op) ascending; strs : op_string, one entry less. *)
Fixpoint split_left (ops : list (nat * Z)) (strs : list Z) (sw : nat) : list triple :=
  match ops, strs with
  | (i, a) :: ops', s :: strs' => if (i <? sw)%nat then (i, a, s) :: split_left ops' strs' sw else []
  | _, _ => []
  end.
(* `for i, op, op_str in zip(reversed(ijkl), reversed(ops_ijkl), reversed(op_string))`:
   rops = reversed ops, rstrs = reversed op_string *)
Fixpoint split_right (rops : list (nat * Z)) (rstrs : list Z) (sw : nat) : list triple :=
  match rops, rstrs with
  | (i, a) :: ops', s :: strs' => if (sw <? i)%nat then (i, a, s) :: split_right ops' strs' sw else []
  | _, _ => []
  end.
(* op_switch: the operator on site switchLR, or the operator string of the segment containing it *)
Fixpoint op_switch (ops : list (nat * Z)) (strs : list Z) (prev : Z) (sw : nat) : Z :=
  match ops with
  | [] => prev
  | (i, a) :: ops' =>
      if Nat.eqb sw i then a
      else if (sw <? i)%nat then prev
      else match strs with s :: strs' => op_switch ops' strs' s sw | [] => prev end
  end.
Definition split_term (ops : list (nat * Z)) (strs : list Z) (sw : nat) (w : C) : mterm :=
  mkMT (split_left ops strs sw) (split_right (rev ops) (rev strs) sw) sw (op_switch ops strs 0 sw) w.
(* the operator  w * op_0(i_0) str_0 ... op_n(i_n)  directly *)
Fixpoint term_word (ops : list (nat * Z)) (strs : list Z) : word :=
  match ops with
  | [] => []
  | (i, a) :: ops' =>
      consop i a (match ops', strs with
                  | (j, _) :: _, s :: strs' => wstring (S i) (j - i - 1) s ++ term_word ops' strs'
                  | _, _ => []
                  end)
  end.

(* ---- invariant of graphs built by add_to_graph (key injectivity and no orphan states):
   every edge is (L) THE edge that enters a left state x = kleft (t :: p) on site k (from the parent
   state with the operator of t on the site of t, from x itself with the operator string of t on later
   sites), (R) the mirror image for right states, or (C) a connection from a left state (or IdL) to a
   right state (or IdR); at most one edge per site enters a left state / leaves a right state; a left
   state has outgoing edges only on the site after an edge entering it, a right state has incoming
   edges only on the site before an edge leaving it. *)
Definition canonL (k : nat) (t : triple) (p : list triple) : edge :=
  if Nat.eqb k (tsite t) then mkE (kleft p) (kleft (t :: p)) (top t) c1
  else mkE (kleft (t :: p)) (kleft (t :: p)) (tstr t) c1.
Definition canonR (k : nat) (t : triple) (q : list triple) : edge :=
  if Nat.eqb k (tsite t) then mkE (kright (t :: q)) (kright q) (top t) c1
  else mkE (kright (t :: q)) (kright (t :: q)) (tstr t) c1.
Definition edge_ok (k : nat) (e : edge) : Prop :=
  (exists t p, eR e = kleft (t :: p) /\ e = canonL k t p /\ (tsite t <= k)%nat) \/
  (exists t q, eL e = kright (t :: q) /\ e = canonR k t q /\ (k <= tsite t)%nat) \/
  (exists p q, eL e = kleft p /\ eR e = kright q).
Definition into (x : key) (es : list edge) : list edge := filter (fun e => key_eqb (eR e) x) es.
Definition outof (x : key) (es : list edge) : list edge := filter (fun e => key_eqb (eL e) x) es.
Definition exited (next : list edge) (k : key) : bool := existsb (fun e => key_eqb (eL e) k) next.
Definition prevs (g : graph) (k : nat) : list edge := match k with O => [] | S k' => nth k' g [] end.
Definition site_ok (k : nat) (prev es next : list edge) : Prop :=
  (forall e, In e es -> edge_ok k e) /\
  (forall t p, (length (into (kleft (t :: p)) es) <= 1)%nat) /\
  (forall t q, (length (outof (kright (t :: q)) es) <= 1)%nat) /\
  (forall e t p, In e es -> eL e = kleft (t :: p) -> entered prev (eL e) = true) /\
  (forall e t q, In e es -> eR e = kright (t :: q) -> exited next (eR e) = true).
Definition mwf (g : graph) : Prop :=
  forall k, site_ok k (prevs g k) (nth k g []) (nth (S k) g []).

(* ---- checker of the correspondence stream c10_build_multi (harness/c10.py): the model rebuilds the
   implementation's MPOGraph (finite bc, on-site terms + MultiCouplingTerms; tuple keys of the
   implementation are handed over as kleft / kright of their triples) edge for edge, and the graph
   denotes the stored terms *)
Definition check_build_multi (c : nat * list oterm * list mterm * graph) : bool :=
  let '(L, ots, mts, gi) := c in
  let gm := fold_left add_mterm mts (fold_left add_oterm ots (empty_graph L)) in
  forallb (oterm_ok L) ots && forallb (mterm_ok L) mts &&
  graph_mset_eqb (close gm) gi &&
  peqb (denote gi) (map nf_oterm ots ++ map nf_mterm mts).
