(* Store (heap) model of the aliasing behaviour of tenpy.linalg.np_conserved.Array.
   Definitions only; proofs in Proofs/StoreP.v and StoreP2.v, statements in Props/C03.v.
   Tie to the code: correspondence (K) -- harness/c03.py replays every generated history on this model
   (`check_history`) and compares the set of live tensors whose observable value changed in the
   implementation with the model's prediction `may_change`.

   The heap holds, with identities (= list positions; allocation appends, so identities are stable):
     bufs : the numpy block buffers         (np.ndarray objects in Array._data)
     tabs : the _qdata tables
     legs : the LegCharge objects           (shared by shallow AND deep copies, by design)
     objs : the Array objects, each a record of references
   An operation is a heap transformer that writes exactly where the code writes:
     copy(deep=False) shares buffers, table, legs      copy(deep=True) shares only legs
     compiled iscale_prefactor / iadd_prefactor_other   write INTO the existing buffers        (OMapWrite / OBinWrite)
     python iscale_prefactor / iadd_prefactor_other, iscale_axis   bind fresh buffers/table to the receiver (OMapRebind)
     itranspose, iconj, ireplace_label, isort_qdata, ...   new _qdata table / lists, the block memory may stay shared (OMeta)
     iproject                                           copies _qdata first, fresh legs and buffers (OProject)
     scale_axis, a*s, conj(), a+b, tensordot            work on a shallow/deep copy              (OScaleAxis/OUnary/OAdd/OTensordot) *)
From TenpyV Require Import Base.Prelude.
Open Scope Z_scope.

Definition legrec : Type := (list nat * list (list Z) * Z)%type.      (* slices, charges, qconj *)
Definition dleg : legrec := ([], [], 1).

Record arr := mkArr {
  blk : list nat;      (* ids of the block buffers, in _data order *)
  tab : nat;           (* id of the _qdata table *)
  lg : list nat;       (* ids of the LegCharge objects *)
  lab : list nat;      (* labels (encoded) *)
  qt : list Z          (* qtotal *)
}.
Definition darr : arr := mkArr [] 0 [] [] [].

Record heap := mkHeap {
  bufs : list (list Z);
  tabs : list (list (list nat));
  legs : list legrec;
  objs : list arr
}.

(* the observable value of a tensor: block contents, block indices, leg contents, labels, qtotal *)
Definition value : Type := (list (list Z) * list (list nat) * list legrec * list nat * list Z)%type.
Definition buf (h : heap) (i : nat) : list Z := nth i (bufs h) [].
Definition denote_arr (h : heap) (a : arr) : value :=
  (map (buf h) (blk a), nth (tab a) (tabs h) [], map (fun i => nth i (legs h) dleg) (lg a), lab a, qt a).
Definition obj (h : heap) (x : nat) : arr := nth x (objs h) darr.
Definition denote (h : heap) (x : nat) : value := denote_arr h (obj h x).

(* well-formed: every reference points into the heap *)
Definition wf_arr (h : heap) (a : arr) : Prop :=
  Forall (fun i => (i < length (bufs h))%nat) (blk a) /\ (tab a < length (tabs h))%nat /\
  Forall (fun i => (i < length (legs h))%nat) (lg a).
Definition wf (h : heap) : Prop := Forall (wf_arr h) (objs h).

(* replace position i *)
Fixpoint upd {A} (l : list A) (i : nat) (v : A) : list A :=
  match l, i with
  | [], _ => []
  | _ :: t, O => v :: t
  | x :: t, S i' => x :: upd t i' v
  end.

(* write f(old content) into each of the listed buffers, one after the other (a loop over _data) *)
Fixpoint write_all (ids : list nat) (f : list Z -> list Z) (bs : list (list Z)) : list (list Z) :=
  match ids with
  | [] => bs
  | i :: t => write_all t f (upd bs i (f (nth i bs [])))
  end.
(* ... the i-th buffer of the receiver combined with the i-th value of a list read BEFORE the loop *)
Fixpoint write_zip (ids : list nat) (vals : list (list Z)) (g : list Z -> list Z -> list Z)
         (bs : list (list Z)) : list (list Z) :=
  match ids, vals with
  | i :: t, v :: vt => write_zip t vt g (upd bs i (g (nth i bs []) v))
  | _, _ => bs
  end.

Inductive op :=
| ONew (nb : nat) (lgs : list nat)                                   (* a fresh tensor with nb blocks over existing legs *)
| OCopy (deep : bool) (r : nat)
| OMapWrite (r : nat) (f : list Z -> list Z)                       (* cy: a.iscale_prefactor(s), a *= s *)
| OBinWrite (r b : nat) (g : list Z -> list Z -> list Z)           (* cy: a.iadd_prefactor_other(s, b), same block structure *)
| OMapRebind (r : nat) (f : list Z -> list Z) (gt : list (list nat) -> list (list nat))
             (perm : list nat)                                      (* py iscale_prefactor / iadd_prefactor_other, iscale_axis *)
| OMeta (r : nat) (gt : list (list nat) -> list (list nat)) (perm : list nat)
             (* in-place methods that keep the block MEMORY: py itranspose (np.transpose views), iconj of real data,
                ireplace_label, isort_qdata, ipurge_zeros: new _qdata table / list objects, permuted legs and labels *)
| OProject (r : nat) (f : list Z -> list Z) (gt : list (list nat) -> list (list nat))
           (newlegs : list legrec)                                  (* iproject *)
| OUnary (r : nat) (f : list Z -> list Z)                           (* a * s, a.conj(), a.transpose(): deep copy, then in place on the copy *)
| OScaleAxis (r : nat) (f : list Z -> list Z)                       (* a.scale_axis(s): shallow copy, _qdata copied, fresh blocks *)
| OAdd (a b : nat) (g : list Z -> list Z -> list Z)                 (* a + b: deep copy of a, then in place on the copy *)
| OTensordot (a b : nat) (pa pb : list nat)
             (F : value -> value -> list (list Z) * list (list nat)).   (* shallow copies, itranspose on them, fresh result *)

Definition inplace_receiver (o : op) : option nat :=
  match o with
  | OMapWrite r _ | OBinWrite r _ _ | OMapRebind r _ _ _ | OMeta r _ _ | OProject r _ _ _ => Some r
  | _ => None
  end.
(* in-place methods that write into existing buffers (visible through shallow copies) *)
Definition writes_buffers (o : op) : bool :=
  match o with OMapWrite _ _ | OBinWrite _ _ _ => true | _ => false end.

Definition set_obj (h : heap) (x : nat) (a : arr) : heap :=
  mkHeap (bufs h) (tabs h) (legs h) (upd (objs h) x a).
Definition add_obj (h : heap) (a : arr) : heap :=
  mkHeap (bufs h) (tabs h) (legs h) (objs h ++ [a]).
Definition fresh_ids (start n : nat) : list nat := seq start n.

(* deep copy of object a: fresh buffers and table with the same contents, same legs *)
Definition deep_copy (h : heap) (a : arr) : heap * arr :=
  let nb := map (buf h) (blk a) in
  let a' := mkArr (fresh_ids (length (bufs h)) (length nb)) (length (tabs h)) (lg a) (lab a) (qt a) in
  (mkHeap (bufs h ++ nb) (tabs h ++ [nth (tab a) (tabs h) []]) (legs h) (objs h), a').

(* bind fresh buffers f(old), a fresh table gt(old) and permuted legs/labels to a *)
Definition rebind (h : heap) (a : arr) (f : list Z -> list Z) (gt : list (list nat) -> list (list nat))
           (perm : list nat) : heap * arr :=
  let nb := map (fun i => f (buf h i)) (blk a) in
  let a' := mkArr (fresh_ids (length (bufs h)) (length nb)) (length (tabs h))
                  (map (fun k => nth k (lg a) 0%nat) perm) (map (fun k => nth k (lab a) 0%nat) perm) (qt a) in
  (mkHeap (bufs h ++ nb) (tabs h ++ [gt (nth (tab a) (tabs h) [])]) (legs h) (objs h), a').
Definition id_perm (a : arr) : list nat := seq 0 (length (lg a)).

(* exec returns the new heap and the object holding the result (the receiver for in-place methods) *)
Definition exec (h : heap) (o : op) : heap * nat :=
  match o with
  | ONew nb lgs =>
      (mkHeap (bufs h ++ repeat [1] nb) (tabs h ++ [[]]) (legs h)
              (objs h ++ [mkArr (fresh_ids (length (bufs h)) nb) (length (tabs h)) lgs [] []]), length (objs h))
  | OCopy false r => (add_obj h (obj h r), length (objs h))
  | OCopy true r => let '(h1, a') := deep_copy h (obj h r) in (add_obj h1 a', length (objs h))
  | OMapWrite r f =>
      (mkHeap (write_all (blk (obj h r)) f (bufs h)) (tabs h) (legs h) (objs h), r)
  | OBinWrite r b g =>
      (mkHeap (write_zip (blk (obj h r)) (map (buf h) (blk (obj h b))) g (bufs h)) (tabs h) (legs h) (objs h), r)
  | OMapRebind r f gt perm =>
      let '(h1, a') := rebind h (obj h r) f gt perm in (set_obj h1 r a', r)
  | OMeta r gt perm =>
      let a := obj h r in
      let a' := mkArr (blk a) (length (tabs h)) (map (fun k => nth k (lg a) 0%nat) perm)
                      (map (fun k => nth k (lab a) 0%nat) perm) (qt a) in
      (set_obj (mkHeap (bufs h) (tabs h ++ [gt (nth (tab a) (tabs h) [])]) (legs h) (objs h)) r a', r)
  | OProject r f gt newlegs =>
      let a := obj h r in
      let nb := map (fun i => f (buf h i)) (blk a) in
      let a' := mkArr (fresh_ids (length (bufs h)) (length nb)) (length (tabs h))
                      (fresh_ids (length (legs h)) (length newlegs)) (lab a) (qt a) in
      (set_obj (mkHeap (bufs h ++ nb) (tabs h ++ [gt (nth (tab a) (tabs h) [])]) (legs h ++ newlegs) (objs h)) r a', r)
  | OUnary r f =>
      let '(h1, a') := deep_copy h (obj h r) in
      let h2 := add_obj h1 a' in
      (mkHeap (write_all (blk a') f (bufs h2)) (tabs h2) (legs h2) (objs h2), length (objs h))
  | OScaleAxis r f =>
      let '(h1, a') := rebind h (obj h r) f (fun t => t) (id_perm (obj h r)) in (add_obj h1 a', length (objs h))
  | OAdd a b g =>
      let '(h1, a') := deep_copy h (obj h a) in
      let h2 := add_obj h1 a' in
      (mkHeap (write_zip (blk a') (map (buf h2) (blk (obj h2 b))) g (bufs h2)) (tabs h2) (legs h2) (objs h2),
       length (objs h))
  | OTensordot a b pa pb F =>
      (* _tensordot_transpose_axes: a = a.copy(deep=False); a.itranspose(...)   (same for b) *)
      let h1 := add_obj h (obj h a) in
      let xa := length (objs h) in
      let '(h2, a') := rebind h1 (obj h1 xa) (fun v => v) (fun t => t) pa in
      let h3 := set_obj h2 xa a' in
      let h4 := add_obj h3 (obj h3 b) in
      let xb := S xa in
      let '(h5, b') := rebind h4 (obj h4 xb) (fun v => v) (fun t => t) pb in
      let h6 := set_obj h5 xb b' in
      let '(rb, rt) := F (denote h6 xa) (denote h6 xb) in
      let res := mkArr (fresh_ids (length (bufs h6)) (length rb)) (length (tabs h6)) [] [] [] in
      (add_obj (mkHeap (bufs h6 ++ rb) (tabs h6 ++ [rt]) (legs h6) (objs h6)) res, S xb)
  end.

(* two tensors share a block buffer *)
Definition shares_buffer (h : heap) (x y : nat) : bool :=
  existsb (fun i => existsb (Nat.eqb i) (blk (obj h y))) (blk (obj h x)).

(* the model's prediction: which existing tensors MAY change observably when o runs on h *)
Definition may_change (h : heap) (o : op) : list nat :=
  match inplace_receiver o with
  | None => []
  | Some r => if writes_buffers o
              then filter (fun x => Nat.eqb x r || shares_buffer h x r) (seq 0 (length (objs h)))
              else [r]
  end.

(* ---- replay of a history (harness/c03.py).  The harness numbers its registers consecutively (every
   step appends one); `regs` maps a register to the object of the model.  A step names the kind of
   operation, its operand registers and the registers the implementation observed as changed. *)
Inductive hop := HNew (nb : nat) (lgs : list nat) | HCopy (deep : bool) | HMapWrite | HBinWrite | HRebind | HMeta
               | HProject | HUnary | HScaleAxis | HAdd | HTensordot.
Definition hstep : Type := (hop * nat * nat * list nat)%type.

Definition dbl (v : list Z) : list Z := map (Z.mul 2) v.
Definition to_op (h : heap) (k : hop) (a b : nat) : op :=
  match k with
  | HNew nb lgs => ONew nb lgs
  | HCopy d => OCopy d a
  | HMapWrite => OMapWrite a dbl
  | HBinWrite => OBinWrite a b (fun x y => x ++ y)
  | HRebind => OMapRebind a dbl (fun t => t) (id_perm (obj h a))
  | HMeta => OMeta a (fun t => t) (id_perm (obj h a))
  | HProject => OProject a dbl (fun t => t) (map (fun _ => dleg) (lg (obj h a)))
  | HUnary => OUnary a dbl
  | HScaleAxis => OScaleAxis a dbl
  | HAdd => OAdd a b (fun x y => x ++ y)
  | HTensordot => OTensordot a b (id_perm (obj h a)) (id_perm (obj h b)) (fun _ _ => ([[1]], [[]]))
  end.

Definition subset (a b : list nat) : bool := forallb (fun x => existsb (Nat.eqb x) b) a.

Fixpoint check_history_from (h : heap) (regs : list nat) (steps : list hstep) : bool :=
  match steps with
  | [] => true
  | (k, ra, rb, changed) :: t =>
      let o := to_op h k (nth ra regs 0%nat) (nth rb regs 0%nat) in
      let '(h', res) := exec h o in
      subset (map (fun r => nth r regs 0%nat) changed) (may_change h o)
      && check_history_from h' (regs ++ [res]) t
  end.
Definition check_history (c : nat * list hstep) : bool :=
  check_history_from (mkHeap [] [] (repeat dleg (fst c)) []) [] (snd c).

(* ---- histories of model operations (statement T03_history in Props/C03.v; not used by check_history).
   An operation is applicable when its operands are live tensors, the legs of a new tensor exist and
   the axis permutations index the legs of their tensor.  Operands may coincide or be copies of each other. *)
Definition live (h : heap) (x : nat) : Prop := (x < length (objs h))%nat.
Definition perm_ok (h : heap) (x : nat) (perm : list nat) : Prop :=
  Forall (fun k => (k < length (lg (obj h x)))%nat) perm.
Definition op_ok (h : heap) (o : op) : Prop :=
  match o with
  | ONew _ lgs => Forall (fun i => (i < length (legs h))%nat) lgs
  | OCopy _ r | OMapWrite r _ | OProject r _ _ _ | OUnary r _ | OScaleAxis r _ => live h r
  | OBinWrite r b _ | OAdd r b _ => live h r /\ live h b
  | OMapRebind r _ _ perm | OMeta r _ perm => live h r /\ perm_ok h r perm
  | OTensordot a b pa pb _ => live h a /\ live h b /\ perm_ok h a pa /\ perm_ok h b pb
  end.
Fixpoint run (h : heap) (os : list op) : heap :=
  match os with [] => h | o :: t => run (fst (exec h o)) t end.
Fixpoint ops_ok (h : heap) (os : list op) : Prop :=
  match os with [] => True | o :: t => op_ok h o /\ ops_ok (fst (exec h o)) t end.

(* the operations executed by the replay of a harness history (same recursion as check_history_from), and
   the applicability of its steps: operand registers exist, the legs of new tensors are among the nlegs initial legs *)
Fixpoint history_ops (h : heap) (regs : list nat) (steps : list hstep) : list op :=
  match steps with
  | [] => []
  | (k, ra, rb, _) :: t =>
      let o := to_op h k (nth ra regs 0%nat) (nth rb regs 0%nat) in
      o :: history_ops (fst (exec h o)) (regs ++ [snd (exec h o)]) t
  end.
Definition hstep_ok (nlegs nregs : nat) (s : hstep) : bool :=
  let '(k, ra, rb, _) := s in
  match k with
  | HNew _ lgs => forallb (fun i => Nat.ltb i nlegs) lgs
  | HBinWrite | HAdd | HTensordot => Nat.ltb ra nregs && Nat.ltb rb nregs
  | _ => Nat.ltb ra nregs
  end.
Fixpoint history_ok (nlegs nregs : nat) (steps : list hstep) : bool :=
  match steps with [] => true | s :: t => hstep_ok nlegs nregs s && history_ok nlegs (S nregs) t end.
(* the checker used by harness/c03.py: the history is applicable (so T03_history covers it) and every observed
   change is allowed by the model *)
Definition check_history_applicable (c : nat * list hstep) : bool :=
  history_ok (fst c) 0 (snd c) && check_history c.
