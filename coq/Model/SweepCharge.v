(* Total-charge bookkeeping of DMRGEngine.update_local (tenpy/algorithms/dmrg.py), property C13, clause "the state
   returned is in the charge sector of the initial state".  Definitions only (proofs in Proofs/SweepChargeP.v).

   State: the `qtotal` of every site tensor psi._B[i] (a charge vector over Model/Charge.v's chinfo = list of mods).
   MPS.get_total_charge() = chinfo.make_valid(sum_i B_i.qtotal)  [- the charges of the two trivial outer legs for
   only_physical_legs=True; update_local never touches those legs: U keeps a.legs[0], VH keeps a.legs[1]].

   What is transcribed, with make_valid exactly where the code has it:
     npc.tensordot                      qtotal = make_valid(a.qtotal + b.qtotal)
     npc.svd(a, qtotal_LR=[qL, qR])     both None: qR = a.qtotal; qL None: qL = make_valid(a.qtotal - qR);
                                        qR None: qR = make_valid(a.qtotal - qL);
                                        both given: ValueError unless a.qtotal == make_valid(qL + qR);
                                        U.qtotal = make_valid(qL), VH.qtotal = make_valid(qR)   (Array.__init__)
     Mixer.determine_qtotal_L_R         RAW arithmetic (no make_valid): None/None: (0, theta); one None: theta - other;
                                        ValueError unless qL + qR == theta (raw ==)
     Array.gauge_total_charge(ax, q)    qtotal = make_valid(q)
     TwoSiteDMRGEngine.mixed_svd        mixer None: svd_theta(theta, qtotal_LR=[B[i0].qtotal, None])
                                        mixer: qtotal_LR = [old, theta.qtotal - old] (raw), mix_and_decompose_2site
     SingleSiteDMRGEngine.mixed_svd     mixer None: svd_theta(theta, [theta.qtotal, None]) (right move) /
                                        [None, theta.qtotal] (left move), then VH := VH.next_B / U := next_A.U;
                                        SubspaceExpansion (can_decompose_1site): VH := next_B / U := next_A;
                                        DensityMatrixMixer: two-site theta, qtotal_LR = [B[iL].qtotal, B[iR].qtotal]
     DensityMatrixMixer.svd_from_rho    U.gauge_total_charge(1, qL), VH.gauge_total_charge(0, qR)
     SubspaceExpansion.mix_and_decompose_1site
                                        right move: svd_theta(theta_expand, [theta.qtotal, None]); left: [None, theta.qtotal];
                                        theta_expand.qtotal = make_valid(LHeff.qtotal + theta.qtotal)
     Mixer.mix_and_decompose_2site      falls back to mix_and_decompose_1site for SubspaceExpansion (3 cases of
                                        (mix_left, mix_right) = update_LP_RP of the schedule entry)
     set_B                              psi.set_B(i_L, U.split_legs), psi.set_B(i_R, VH.split_legs): qtotal unchanged
   Environment convention: LP/RP/W carry qtotal 0 (init_LP/init_RP are built with qtotal 0 and an MPO `W` built by
   the models has qtotal 0), so LHeff.qtotal = RHeff.qtotal = 0 = `env_q`.
   The eigensolver is an oracle: `None` = theta keeps its qtotal (lanczos, arpack, ED_block and optimize=False),
   `Some q` = diag_method='ED_all' returned a vector of another sector q ("the qtotal of theta may change").
   Site indices are taken modulo L as MPS.get_B / set_B do (infinite bc: i0 + 1 = L is site 0 of the next cell).
   Tie to the code: these definitions are hand-transcribed; the correspondence stream `charge-trace`
   of harness/c13.py (checker `check_charge_run`) replays instrumented runs.  *)
From TenpyV Require Import Base.Prelude Model.Charge Model.Sweep.
Open Scope Z_scope.

Definition charge := list Z.
Definition vsub (a b : charge) : charge := vadd a (vneg b).
Definition vsum (ci : chinfo) (qs : list charge) : charge := fold_right vadd (zero_charge ci) qs.
(* MPS.get_total_charge(only_physical_legs=False) *)
Definition total_charge (ci : chinfo) (qs : list charge) : charge := make_valid ci (vsum ci qs).

Inductive mixk := MixNone | MixDM | MixSub.
(* per local update: which mixer is active (it is switched off after some sweeps), what the eigensolver did *)
Definition cfg := (mixk * option charge)%type.

Definition getq (qs : list charge) (i : nat) : charge := nth (i mod length qs) qs [].
Definition setq (qs : list charge) (i : nat) (q : charge) : list charge := set_nth qs (i mod length qs) q.

Definition env_q (ci : chinfo) : charge := zero_charge ci.
Definition tdot_q (ci : chinfo) (a b : charge) : charge := make_valid ci (vadd a b).
Definition diag_q (ci : chinfo) (dg : option charge) (th : charge) : charge :=
  match dg with None => th | Some q => make_valid ci q end.

(* npc.svd: (U.qtotal, VH.qtotal) or None = ValueError *)
Definition svd_q (ci : chinfo) (a : charge) (ql qr : option charge) : option (charge * charge) :=
  match ql, qr with
  | None, None => Some (make_valid ci (make_valid ci (vsub a a)), make_valid ci a)
  | None, Some r => Some (make_valid ci (make_valid ci (vsub a r)), make_valid ci r)
  | Some l, None => Some (make_valid ci l, make_valid ci (make_valid ci (vsub a l)))
  | Some l, Some r => if list_eqb a (make_valid ci (vadd l r)) then Some (make_valid ci l, make_valid ci r) else None
  end.

(* Mixer.determine_qtotal_L_R: raw arithmetic *)
Definition determine_q (ci : chinfo) (th : charge) (ql qr : option charge) : option (charge * charge) :=
  let lr := match ql, qr with
            | None, None => (zero_charge ci, th)
            | None, Some r => (vsub th r, r)
            | Some l, None => (l, vsub th l)
            | Some l, Some r => (l, r)
            end in
  if list_eqb (vadd (fst lr) (snd lr)) th then Some lr else None.

(* SubspaceExpansion.mix_and_decompose_1site: (U.qtotal, VH.qtotal) *)
Definition sub1_q (ci : chinfo) (th : charge) (move_right : bool) : option (charge * charge) :=
  let te := tdot_q ci (env_q ci) th in
  if move_right then svd_q ci te (Some th) None else svd_q ci te None (Some th).

(* DensityMatrixMixer.mixed_svd_2site = svd_from_rho *)
Definition dm2_q (ci : chinfo) (th : charge) (ql qr : option charge) : option (charge * charge) :=
  match determine_q ci th ql qr with
  | None => None
  | Some (l, r) => Some (make_valid ci l, make_valid ci r)
  end.

(* Mixer.mix_and_decompose_2site for SubspaceExpansion (mixed_svd_2site raises NotImplementedError) *)
Definition sub2_q (ci : chinfo) (th : charge) (mix_left mix_right : bool) (ql qr : option charge)
  : option (charge * charge) :=
  if (mix_left && mix_right)%bool then
    match determine_q ci th ql qr, sub1_q ci th true, sub1_q ci th false with
    | Some (l, r), Some _, Some _ => Some (make_valid ci l, make_valid ci r)
    | _, _, _ => None
    end
  else if mix_left then sub1_q ci th true
  else if mix_right then sub1_q ci th false
  else None.                                              (* ValueError('Expected mix_left=True and/or ...') *)

(* TwoSiteDMRGEngine.update_local at i0: new (B[i0].qtotal, B[i0+1].qtotal) *)
Definition upd2_q (ci : chinfo) (qs : list charge) (i0 : nat) (upl upr : bool) (c : cfg) : option (list charge) :=
  let q0 := getq qs i0 in
  let q1 := getq qs (i0 + 1) in
  let th := diag_q ci (snd c) (tdot_q ci q0 q1) in
  let r := match fst c with
           | MixNone => svd_q ci th (Some q0) None
           | MixDM => dm2_q ci th (Some q0) (Some (vsub th q0))
           | MixSub => sub2_q ci th upl upr (Some q0) (Some (vsub th q0))
           end in
  match r with
  | None => None
  | Some (u, vh) => Some (setq (setq qs i0 u) (i0 + 1) vh)
  end.

(* SingleSiteDMRGEngine.update_local at i0; i_L, i_R = _update_env_inds() *)
Definition upd1_q (ci : chinfo) (qs : list charge) (i0 : nat) (mr upl upr : bool) (c : cfg) : option (list charge) :=
  let iL := fst (env_inds 1 i0 mr) in
  let iR := snd (env_inds 1 i0 mr) in
  let th := diag_q ci (snd c) (getq qs i0) in
  let nxt := if mr then getq qs (i0 + 1) else getq qs (i0 - 1) in
  let r := match fst c with
           | MixNone =>
               if mr then match svd_q ci th (Some th) None with
                          | Some (u, vh) => Some (u, tdot_q ci vh nxt) | None => None end
               else match svd_q ci th None (Some th) with
                    | Some (u, vh) => Some (tdot_q ci nxt u, vh) | None => None end
           | MixSub =>
               match sub1_q ci th mr with
               | Some (u, vh) => Some (if mr then (u, nxt) else (nxt, vh))
               | None => None
               end
           | MixDM =>
               let th2 := if mr then tdot_q ci th nxt else tdot_q ci nxt th in
               dm2_q ci th2 (Some (getq qs iL)) (Some (getq qs iR))
           end in
  match r with
  | None => None
  | Some (u, vh) => Some (setq (setq qs iL u) iR vh)
  end.

Definition upd_q (ci : chinfo) (n : nat) (qs : list charge) (e : entry) (c : cfg) : option (list charge) :=
  match e with (i0, mr, (upl, upr)) =>
    if (n =? 2)%nat then upd2_q ci qs i0 upl upr c else upd1_q ci qs i0 mr upl upr c end.

(* run the local updates of a list of schedule entries, one cfg per entry; None = some update raised *)
Fixpoint run_q (ci : chinfo) (n : nat) (qs : list charge) (es : list entry) (cs : list cfg) : option (list charge) :=
  match es, cs with
  | e :: es', c :: cs' => match upd_q ci n qs e c with
                          | None => None
                          | Some qs' => run_q ci n qs' es' cs'
                          end
  | _, _ => Some qs
  end.

(* ---- correspondence checker: (mods, n, initial qtotals, executed entries with mixer kind (0 none, 1 density matrix,
   2 subspace expansion), qtotals after every update) *)
Definition mixk_of_nat (k : nat) : mixk := match k with O => MixNone | S O => MixDM | _ => MixSub end.
Fixpoint qs_eqb (a b : list charge) : bool :=
  match a, b with
  | [], [] => true
  | x :: a', y :: b' => list_eqb x y && qs_eqb a' b'
  | _, _ => false
  end.
Fixpoint check_charge_steps (ci : chinfo) (n : nat) (qs : list charge) (steps : list (entry * nat * list charge)) : bool :=
  match steps with
  | [] => true
  | (e, k, want) :: t =>
      match upd_q ci n qs e (mixk_of_nat k, None) with
      | Some qs' => qs_eqb qs' want && check_charge_steps ci n qs' t
      | None => false
      end
  end.
Definition check_charge_run (x : chinfo * nat * list charge * list (entry * nat * list charge)) : bool :=
  match x with (ci, n, qs, steps) => check_charge_steps ci n qs steps end.
