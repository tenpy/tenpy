(* Values of tensordot(a, b, axes=k) on the storage model of Model/Tensor.v (definitions only).
   Model/TensorOps.v models tensordot only on the level of _qdata rows / charges (tdot_rows, tdot_legs, tdot_qtot; these are the
   definitions the correspondence stream of harness/c01.py compares with the implementation).  Here the block VALUES are added:

     tdot_block   the block matrix product of one block of a with one block of b (same contracted qindices):
                  entry [ia ++ ib] = sum over the multi-index c INSIDE the contracted charge block of  A[ia ++ c] * B[c ++ ib]
     tdot_pairs   one such product per pair of blocks whose contracted qindices agree; map fst (tdot_pairs k a b) = tdot_rows k a b
     collect      products with the same result row (kept qindices of a ++ kept qindices of b) are added up
                  (the sum over k in  C_{i,j} = sum_k A_{i,k} B_{k,j}  of _tensordot_worker)
     tensordot    legs / qtotal as tdot_legs / tdot_qtot, blocks = collected products sorted by row, _qdata_sorted = True
                  (the worker loops over the lexsorted distinct kept rows of b and, inside, of a, and sets _qdata_sorted = True)
     d_tensordot  np.tensordot on dense arrays given as functions of the multi-index: finite sum over the contracted multi-index.

   NOT modelled here: the look-up of compatible (row_a, col_b) by charge (a_lookup_charges / b_charges_match), which skips pairs of
   kept rows violating the charge rule before looking for common contracted blocks; T02_charge_rule_tensordot proves that every
   pair with a common contracted block passes this filter.  Model/TensorDotFilter.v makes the look-up explicit as a filter on the
   result.
   Tie to the code: through tdot_rows / tdot_legs / tdot_qtot of Model/TensorOps.v (correspondence-checked) and the theorems of
   Proofs/TensorDotP.v linking these definitions to them; the VALUES are compared with the implementation by the checker of
   Model/TensorDotCheck.v (correspondence stream of harness/c01.py). *)
From TenpyV Require Import Base.Prelude Model.Charge Model.Tensor Model.TensorOps.
Open Scope Z_scope.

Definition csum (l : list C) : C := fold_right cadd c0 l.

(* all multi-indices of a box of the given shape, C order *)
Definition multi_idx (shape : list nat) : list (list nat) :=
  fold_right (fun n acc => flat_map (fun i => map (cons i) acc) (seq 0 n)) [[]] shape.

(* sizes of the charge blocks qs of the legs ls *)
Definition box (ls : list leg) (qs : list nat) : list nat := map (fun p => bsize (fst p) (snd p)) (combine ls qs).

(* nk = number of kept legs of a, k = number of contracted legs, lc = the contracted legs (of a) *)
Definition tdot_block (nk k : nat) (lc : list leg) (ba bb : block) : block :=
  (firstn nk (fst ba) ++ skipn k (fst bb),
   fun idx => csum (map (fun c => cmul (snd ba (firstn nk idx ++ c)) (snd bb (c ++ skipn nk idx)))
                        (multi_idx (box lc (skipn nk (fst ba)))))).

Definition tdot_pairs (k : nat) (a b : arr) : list block :=
  flat_map (fun bb => flat_map (fun ba =>
     if row_eqb (skipn (rank a - k) (fst ba)) (firstn k (fst bb))
     then [tdot_block (rank a - k) k (skipn (rank a - k) (legs a)) ba bb] else [])
     (blks a)) (blks b).

Fixpoint add_block (b : block) (l : list block) : list block :=
  match l with
  | [] => [b]
  | c :: t => if row_eqb (fst c) (fst b) then (fst c, badd (snd c) (snd b)) :: t else c :: add_block b t
  end.
Definition collect (l : list block) : list block := fold_right add_block [] l.

Definition tensordot (ci : chinfo) (k : nat) (a b : arr) : arr :=
  mkArr (tdot_legs k a b) (tdot_qtot ci a b) (sort_blocks (collect (tdot_pairs k a b))) true.

(* dense: A has nk + length cshape indices, B has length cshape + ... indices *)
Definition d_tensordot (A B : list nat -> C) (cshape : list nat) (nk : nat) (idx : list nat) : C :=
  csum (map (fun c => cmul (A (firstn nk idx ++ c)) (B (c ++ skipn nk idx))) (multi_idx cshape)).
