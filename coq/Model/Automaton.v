(* Weighted-automaton model of tenpy's MPO graphs (tenpy/networks/mpo.py: MPOGraph, MPO.__add__,
   MPO.dagger; tenpy/networks/terms.py: OnsiteTerms/CouplingTerms.add_to_graph).
   Definitions only (proofs in Proofs/AutomatonP.v, AutomatonP2.v, AutomatonTermsP.v).  Tie to the code: correspondence (K),
   harness/c10.py and harness/c11.py.

   Operators are denoted by polynomials in non-commuting-free form: a finite list of monomials
   (strength, word) where a word is the site-sorted list of (site, operator id) with the identity
   (operator id 0) never stored.  Two polynomials denote the same operator when every word has the
   same total coefficient (`peq`); `normalize` computes the canonical sorted/merged form and `peqb`
   decides equality of canonical forms.  Strengths are Gaussian integers (pairs of Z), so that the
   harness can compare exactly (generators use integer / Gaussian-integer strengths).

   An MPO graph for a finite chain is a list (one entry per site) of edges
   (keyL, keyR, operator id, weight); its denotation is the sum over all paths from IdL on the left
   of site 0 to IdR on the right of the last site of the product of the edge labels. *)
From TenpyV Require Import Base.Prelude.
Open Scope Z_scope.

(* ---- Gaussian integers *)
Definition C := (Z * Z)%type.
Definition c0 : C := (0, 0).
Definition c1 : C := (1, 0).
Definition cadd (x y : C) : C := (fst x + fst y, snd x + snd y).
Definition cmul (x y : C) : C := (fst x * fst y - snd x * snd y, fst x * snd y + snd x * fst y).
Definition cconj (x : C) : C := (fst x, - snd x).
Definition ceqb (x y : C) : bool := (fst x =? fst y) && (snd x =? snd y).

(* ---- keys (states on the bonds) *)
Inductive key : Type :=
| IdL : key
| IdR : key
| Lbl : nat -> Z -> Z -> key      (* ('left', i, opname_i, op_string) of CouplingTerms.add_to_graph *)
| Oth : Z -> key                  (* any other key / index on a virtual leg of a built MPO *)
| InA : key -> key                (* inner states of the first / second summand of MPO.__add__ *)
| InB : key -> key.

Fixpoint key_eqb (k1 k2 : key) : bool :=
  match k1, k2 with
  | IdL, IdL => true
  | IdR, IdR => true
  | Lbl i a s, Lbl i' a' s' => Nat.eqb i i' && (a =? a') && (s =? s')
  | Oth n, Oth n' => n =? n'
  | InA k, InA k' => key_eqb k k'
  | InB k, InB k' => key_eqb k k'
  | _, _ => false
  end.

(* ---- words, monomials, polynomials *)
Definition letter := (nat * Z)%type.          (* (site, operator id <> 0) *)
Definition word := list letter.
Definition mono := (C * word)%type.
Definition poly := list mono.

Definition letter_eqb (x y : letter) : bool := Nat.eqb (fst x) (fst y) && (snd x =? snd y).
Fixpoint word_eqb (u v : word) : bool :=
  match u, v with
  | [], [] => true
  | x :: u', y :: v' => letter_eqb x y && word_eqb u' v'
  | _, _ => false
  end.

Definition letter_cmp (x y : letter) : comparison :=
  match Nat.compare (fst x) (fst y) with Eq => Z.compare (snd x) (snd y) | c => c end.
Fixpoint word_cmp (u v : word) : comparison :=
  match u, v with
  | [], [] => Eq
  | [], _ :: _ => Lt
  | _ :: _, [] => Gt
  | x :: u', y :: v' => match letter_cmp x y with Eq => word_cmp u' v' | c => c end
  end.

(* total coefficient of a word *)
Fixpoint coef (p : poly) (w : word) : C :=
  match p with
  | [] => c0
  | (c, v) :: t => if word_eqb v w then cadd c (coef t w) else coef t w
  end.
(* "the same operator" *)
Definition peq (p q : poly) : Prop := forall w, coef p w = coef q w.

Fixpoint pinsert (m : mono) (p : poly) : poly :=
  match p with
  | [] => [m]
  | (c, v) :: t =>
    match word_cmp (snd m) v with
    | Eq => (cadd (fst m) c, v) :: t
    | Lt => m :: p
    | Gt => (c, v) :: pinsert m t
    end
  end.
Definition normalize (p : poly) : poly :=
  filter (fun m => negb (ceqb (fst m) c0)) (fold_right pinsert [] p).
Definition mono_eqb (m n : mono) : bool := ceqb (fst m) (fst n) && word_eqb (snd m) (snd n).
Fixpoint list_eqb {A} (eqb : A -> A -> bool) (l1 l2 : list A) : bool :=
  match l1, l2 with
  | [], [] => true
  | x :: t1, y :: t2 => eqb x y && list_eqb eqb t1 t2
  | _, _ => false
  end.
Definition peqb (p q : poly) : bool := list_eqb mono_eqb (normalize p) (normalize q).

Definition pscale (c : C) (p : poly) : poly := map (fun m => (cmul c (fst m), snd m)) p.

(* ---- graphs *)
Record edge := mkE { eL : key; eR : key; eop : Z; ew : C }.
Definition graph := list (list edge).

Definition consop (i : nat) (op : Z) (w : word) : word := if op =? 0 then w else (i, op) :: w.

(* all paths through all sites of g (sites numbered from i) starting in state k:
   (product of weights, word, final state) *)
Definition pstep (i : nat) (e : edge) (p : C * word * key) : C * word * key :=
  (cmul (ew e) (fst (fst p)), consop i (eop e) (snd (fst p)), snd p).
Fixpoint paths (g : graph) (i : nat) (k : key) : list (C * word * key) :=
  match g with
  | [] => [(c1, [], k)]
  | es :: g' =>
    flat_map (fun e => if key_eqb (eL e) k then map (pstep i e) (paths g' (S i) (eR e)) else []) es
  end.
Definition ending (kf : key) (l : list (C * word * key)) : poly :=
  map fst (filter (fun p => key_eqb (snd p) kf) l).
(* denotation of state k on the bond left of site i of the (suffix) graph g *)
Definition rden (g : graph) (i : nat) (k : key) : poly := ending IdR (paths g i k).
Definition denote (g : graph) : poly := rden g 0%nat IdL.

(* ---- MPOGraph construction, finite boundary conditions *)
Fixpoint upd_site (j : nat) (f : list edge -> list edge) (g : graph) : graph :=
  match g, j with
  | [], _ => []
  | es :: g', O => f es :: g'
  | es :: g', S j' => es :: upd_site j' f g'
  end.
(* MPOGraph.add(i, keyL, keyR, opname, strength)  (skip_existing=False) *)
Definition add_edge (j : nat) (e : edge) (g : graph) : graph := upd_site j (fun es => es ++ [e]) g.
(* MPOGraph.has_edge *)
Definition has_edge (j : nat) (kl kr : key) (g : graph) : bool :=
  existsb (fun e => key_eqb (eL e) kl && key_eqb (eR e) kr) (nth j g []).
Definition has_edge_op (j : nat) (kl kr : key) (op : Z) (g : graph) : bool :=
  existsb (fun e => key_eqb (eL e) kl && key_eqb (eR e) kr && (eop e =? op)) (nth j g []).
(* MPOGraph.add(..., skip_existing=True) *)
Definition add_skip (j : nat) (e : edge) (g : graph) : graph :=
  if has_edge_op j (eL e) (eR e) (eop e) g then g else add_edge j e g.
(* MPOGraph.add_string_left_to_right for sites k, k+1, ..., k+n-1 (no wrap around: finite) *)
Fixpoint add_string (k n : nat) (ky : key) (op : Z) (g : graph) : graph :=
  match n with
  | O => g
  | S n' => add_string (S k) n' ky op
              (if has_edge k ky ky g then g else add_edge k (mkE ky ky op c1) g)
  end.

(* one entry {i: {(a, s): {j: {b: w}}}} of CouplingTerms.coupling_terms *)
Record cterm := mkCT { ct_i : nat; ct_a : Z; ct_s : Z; ct_j : nat; ct_b : Z; ct_w : C }.
(* one entry of OnsiteTerms.onsite_terms *)
Record oterm := mkOT { ot_i : nat; ot_op : Z; ot_w : C }.

(* body of the loops of CouplingTerms.add_to_graph for one term *)
Definition add_cterm (g : graph) (t : cterm) : graph :=
  let lbl := Lbl (ct_i t) (ct_a t) (ct_s t) in
  let g1 := add_skip (ct_i t) (mkE IdL lbl (ct_a t) c1) g in
  let g2 := add_string (S (ct_i t)) (ct_j t - ct_i t - 1) lbl (ct_s t) g1 in
  add_edge (ct_j t) (mkE lbl IdR (ct_b t) (ct_w t)) g2.
(* body of the loop of OnsiteTerms.add_to_graph *)
Definition add_oterm (g : graph) (t : oterm) : graph :=
  add_edge (ot_i t) (mkE IdL IdR (ot_op t) (ot_w t)) g.

(* MPOGraph.add_missing_IdL_IdR(insert_all_id=True) *)
Definition close_site (es : list edge) : list edge :=
  let es1 := if existsb (fun e => key_eqb (eL e) IdL && key_eqb (eR e) IdL) es then es
             else es ++ [mkE IdL IdL 0 c1] in
  if existsb (fun e => key_eqb (eL e) IdR && key_eqb (eR e) IdR) es1 then es1
  else es1 ++ [mkE IdR IdR 0 c1].
Definition close (g : graph) : graph := map close_site g.

Definition empty_graph (L : nat) : graph := repeat [] L.
(* MPOGraph.from_terms((onsite_terms, coupling_terms), ...) for finite bc *)
Definition from_terms (L : nat) (ots : list oterm) (cts : list cterm) : graph :=
  close (fold_left add_cterm cts (fold_left add_oterm ots (empty_graph L))).

(* the operators the terms stand for *)
Fixpoint wstring (k n : nat) (s : Z) : word :=
  match n with O => [] | S n' => consop k s (wstring (S k) n' s) end.
Definition nf_cterm (t : cterm) : mono :=
  (ct_w t, consop (ct_i t) (ct_a t)
             (wstring (S (ct_i t)) (ct_j t - ct_i t - 1) (ct_s t) ++ consop (ct_j t) (ct_b t) [])).
Definition nf_oterm (t : oterm) : mono := (ot_w t, consop (ot_i t) (ot_op t) []).
Definition cterm_ok (L : nat) (t : cterm) : bool := (ct_i t <? ct_j t)%nat && (ct_j t <? L)%nat.
Definition oterm_ok (L : nat) (t : oterm) : bool := (ot_i t <? L)%nat.

(* ---- well-formedness of graphs built from onsite and coupling terms: every edge has one of the
   four shapes; every label is entered by at most one edge per site (key injectivity); a label has
   outgoing edges only on the site right after an edge entering it (no orphan states). *)
Definition is_lbl (k : key) : bool := match k with Lbl _ _ _ => true | _ => false end.
Definition wf_edge (k : nat) (e : edge) : bool :=
  match eL e, eR e with
  | IdL, IdR => true
  | IdL, Lbl i a s => Nat.eqb i k && (eop e =? a) && ceqb (ew e) c1
  | Lbl i a s, Lbl i' a' s' =>
      Nat.eqb i i' && (a =? a') && (s =? s') && (i <? k)%nat && (eop e =? s) && ceqb (ew e) c1
  | Lbl i a s, IdR => (i <? k)%nat
  | _, _ => false
  end.
Fixpoint nodup_keys (l : list key) : bool :=
  match l with [] => true | k :: t => negb (existsb (key_eqb k) t) && nodup_keys t end.
Definition lbl_targets (es : list edge) : list key := filter is_lbl (map eR es).
Definition entered (prev : list edge) (k : key) : bool := existsb (fun e => key_eqb (eR e) k) prev.
Definition wf_site (k : nat) (prev es : list edge) : bool :=
  forallb (wf_edge k) es && nodup_keys (lbl_targets es) &&
  forallb (fun e => negb (is_lbl (eL e)) || entered prev (eL e)) es.
Fixpoint wf_from (k : nat) (prev : list edge) (g : graph) : bool :=
  match g with
  | [] => true
  | es :: g' => wf_site k prev es && wf_from (S k) es g'
  end.
Definition wf (g : graph) : bool := wf_from 0%nat [] g.

(* ---- MPO.__add__ : union of the two graphs with disjoint inner states, shared IdL / IdR;
   the IdL->IdL and IdR->IdR entries are taken from the first summand only. *)
Definition tagA (k : key) : key := match k with IdL => IdL | IdR => IdR | _ => InA k end.
Definition tagB (k : key) : key := match k with IdL => IdL | IdR => IdR | _ => InB k end.
Definition retag (f : key -> key) (e : edge) : edge := mkE (f (eL e)) (f (eR e)) (eop e) (ew e).
Definition is_loop (e : edge) : bool :=
  (key_eqb (eL e) IdL && key_eqb (eR e) IdL) || (key_eqb (eL e) IdR && key_eqb (eR e) IdR).
Fixpoint gadd (A B : graph) : graph :=
  match A, B with
  | ea :: A', eb :: B' =>
      (map (retag tagA) ea ++ map (retag tagB) (filter (fun e => negb (is_loop e)) eb)) :: gadd A' B'
  | _, _ => []
  end.
(* standard sum form required by MPO.__add__ : exactly one Id edge IdL->IdL and IdR->IdR per site,
   nothing else enters IdL or leaves IdR *)
Definition id_loop (k : key) (e : edge) : bool :=
  key_eqb (eL e) k && key_eqb (eR e) k && (eop e =? 0) && ceqb (ew e) c1.
Definition std_site (es : list edge) : bool :=
  (Nat.eqb (length (filter (id_loop IdL) es)) 1) && (Nat.eqb (length (filter (id_loop IdR) es)) 1) &&
  forallb (fun e => (negb (key_eqb (eR e) IdL) || id_loop IdL e) &&
                    (negb (key_eqb (eL e) IdR) || id_loop IdR e)) es.
Definition std_form (g : graph) : bool := forallb std_site g.
Definition no_tags (k : key) : bool := match k with InA _ | InB _ => false | _ => true end.

(* ---- MPO.dagger : hermitian conjugate of every entry; hc is the involution on operator ids *)
Definition gdagger (hc : Z -> Z) (g : graph) : graph :=
  map (map (fun e => mkE (eL e) (eR e) (hc (eop e)) (cconj (ew e)))) g.
Definition pdagger (hc : Z -> Z) (p : poly) : poly :=
  map (fun m => (cconj (fst m), map (fun l => (fst l, hc (snd l))) (snd m))) p.
(* multiple of an operator: every edge of the first site is scaled; not a tenpy method;
   used for T11_scale_first: scaling all edges of site 0 scales the denotation *)
Definition gscale0 (c : C) (g : graph) : graph :=
  match g with [] => [] | es :: g' => map (fun e => mkE (eL e) (eR e) (eop e) (cmul c (ew e))) es :: g' end.

(* ---- checkers used by the correspondence streams (evaluated with vm_compute) *)
Definition assoc_hc (tbl : list (Z * Z)) (x : Z) : Z :=
  match find (fun p => fst p =? x) tbl with Some p => snd p | None => x end.
Definition edge_eqb (e f : edge) : bool :=
  key_eqb (eL e) (eL f) && key_eqb (eR e) (eR f) && (eop e =? eop f) && ceqb (ew e) (ew f).
Definition count_edge (e : edge) (es : list edge) : nat := length (filter (edge_eqb e) es).
Definition site_mset_eqb (es fs : list edge) : bool :=
  Nat.eqb (length es) (length fs) &&
  forallb (fun e => Nat.eqb (count_edge e es) (count_edge e fs)) es.
Definition graph_mset_eqb (g h : graph) : bool := list_eqb site_mset_eqb g h.

(* graph of the implementation denotes the expected operator *)
Definition check_denote (c : graph * poly) : bool := peqb (denote (fst c)) (snd c).
(* the model of from_terms reproduces the implementation's graph edge for edge, the graph is
   well formed before closing, and it denotes the terms *)
Definition check_build (c : nat * list oterm * list cterm * graph) : bool :=
  let '(L, ots, cts, gi) := c in
  let gm := fold_left add_cterm cts (fold_left add_oterm ots (empty_graph L)) in
  forallb (oterm_ok L) ots && forallb (cterm_ok L) cts && wf gm &&
  graph_mset_eqb (close gm) gi &&
  peqb (denote gi) (map nf_oterm ots ++ map nf_cterm cts).
(* MPO.__add__ : grids of A, B and of the implementation's A + B *)
Definition check_add (c : graph * graph * graph) : bool :=
  let '(a, b, s) := c in
  peqb (denote s) (denote a ++ denote b) &&
  (negb (std_form a && std_form b && Nat.eqb (length a) (length b)) || peqb (denote (gadd a b)) (denote s)).
(* MPO.dagger *)
Definition check_dagger (c : list (Z * Z) * graph * graph) : bool :=
  let '(tbl, g, gd) := c in
  peqb (denote gd) (pdagger (assoc_hc tbl) (denote g)) &&
  peqb (denote (gdagger (assoc_hc tbl) g)) (denote gd).

(* MPO.plus_identity(alpha, beta, sites=[0]) : alpha * 1 + beta * H *)
Definition gplus_id (a b : C) (g : graph) : graph :=
  match g with
  | [] => []
  | es :: g' => (map (fun e => if key_eqb (eL e) IdL then mkE (eL e) (eR e) (eop e) (cmul b (ew e)) else e) es
                 ++ [mkE IdL IdR 0 a]) :: g'
  end.
Definition check_plus_id (c : C * C * graph * graph) : bool :=
  let '(a, b, g, gi) := c in
  peqb (denote gi) ((a, []) :: pscale b (denote g)) && peqb (denote (gplus_id a b g)) (denote gi).
