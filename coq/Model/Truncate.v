(* Model of tenpy/linalg/truncation.py: truncate, _combine_constraints; of TruncationError only the sum of two eps
   (err_add; the class is modelled in Model/TruncBook.v).
   Definitions only (proofs in Proofs/TruncateP.v, TruncPriorityP.v).  Tie to the code: correspondence (K),
   harness/c15.py; _combine_constraints additionally through the translator (Gen/G_truncation.v).

   Spectra are lists of non-negative integers: the harness feeds the implementation dyadic
   rationals S_i = s_i / 2^k (exact in float64) and the model the numerators s_i, with svd_min,
   trunc_cut^2 scaled accordingly, so every comparison the implementation decides in floating
   point is decided identically over Z (generators keep relative gaps >= 2^-20 or exact ties).

   Modelling of  logS = log(choose(S <= 0, [S, 1e-100])):  a zero Schmidt value is the smallest
   value, equal to every other zero; it is degenerate with another zero (log-difference 0 < tol)
   and non-degenerate with every positive value (assumes positive values >= 1e-100 * e^tol);
   it is below every positive svd_min. *)
From TenpyV Require Import Base.Prelude Base.PyLib.
Open Scope Z_scope.

Record opts := mkOpts {
  chi_max : option Z;          (* None = option value None *)
  chi_min : option Z;
  deg_tol : option (Z * Z);    (* Some (p, q): e^tol = p/q with p > q > 0; None: None or 0 *)
  svd_min : option Z;          (* scaled like the spectrum *)
  trunc_cut2 : option Z        (* trunc_cut^2, scaled like the squared spectrum *)
}.

(* ---- stable ascending sort of (value, original index) pairs = np.argsort(logS) up to ties *)
Fixpoint insert (x : Z * nat) (l : list (Z * nat)) : list (Z * nat) :=
  match l with
  | [] => [x]
  | y :: t => if fst x <=? fst y then x :: l else y :: insert x t
  end.
Definition isort (l : list (Z * nat)) : list (Z * nat) := fold_right insert [] l.
Definition sorted_pairs (xs : list Z) : list (Z * nat) := isort (combine xs (seq 0 (length xs))).

(* ---- python slice start normalisation for  a[s:]  on a length-n array *)
Definition slice_start (n s : Z) : Z :=
  let s' := if s <? 0 then s + n else s in Z.max 0 (Z.min n s').

(* good masks, indexed by the cut position c in [0, n) ; ss = sorted spectrum *)
Definition idxs (n : nat) : list nat := seq 0 n.

Definition good_chi_max (n : nat) (m : Z) : list bool :=
  map (fun c => slice_start (Z.of_nat n) (- m) <=? Z.of_nat c) (idxs n).

Definition good_chi_min (n : nat) (m : Z) : list bool :=
  map (fun c => negb (slice_start (Z.of_nat n) (- m + 1) <=? Z.of_nat c)) (idxs n).

Definition nthZ (l : list Z) (k : nat) : Z := nth k l 0.

Definition deg_ok (p q lo hi : Z) : bool :=
  if lo =? 0 then negb (hi =? 0) else p * lo <=? hi * q.

Definition good_deg (ss : list Z) (p q : Z) : list bool :=
  map (fun c => match c with O => true | S c' => deg_ok p q (nthZ ss c') (nthZ ss c) end)
      (idxs (length ss)).

Definition good_svd_min (ss : list Z) (m : Z) : list bool := map (fun s => m <=? s) ss.

Fixpoint cumsum_sq (acc : Z) (l : list Z) : list Z :=
  match l with [] => [] | x :: t => (acc + x * x) :: cumsum_sq (acc + x * x) t end.

Definition good_trunc_cut (ss : list Z) (tc2 : Z) : list bool :=
  map (fun w => tc2 <? w) (cumsum_sq 0 ss).

(* ---- _combine_constraints *)
(* andl = np.logical_and, anyb = np.any : Base/PyLib.v *)
Definition combine_constraints (g1 g2 : list bool) : list bool :=
  let r := andl g1 g2 in if anyb r then r else g1.

Definition opt_apply {A} (o : option A) (f : A -> list bool) (g : list bool) : list bool :=
  match o with Some a => combine_constraints g (f a) | None => g end.

Definition final_good (ss : list Z) (o : opts) : list bool :=
  let n := length ss in
  let g0 := map (fun _ => true) ss in
  let g1 := opt_apply (chi_max o) (good_chi_max n) g0 in
  let g2 := match chi_min o with
            | Some m => if 1 <? m then combine_constraints g1 (good_chi_min n m) else g1
            | None => g1 end in
  let g3 := opt_apply (deg_tol o) (fun pq => good_deg ss (fst pq) (snd pq)) g2 in
  let g4 := opt_apply (svd_min o) (good_svd_min ss) g3 in
  let g5 := opt_apply (trunc_cut2 o) (good_trunc_cut ss) g4 in
  g5.

Fixpoint first_true (l : list bool) : nat :=
  match l with [] => O | true :: _ => O | false :: t => S (first_true t) end.

Definition sq (x : Z) := x * x.

Record result := mkRes {
  r_mask : list bool;       (* True for kept indices, original order *)
  r_kept : list Z;          (* kept values in ascending order (multiset) *)
  r_norm2 : Z;              (* norm_new^2 *)
  r_eps : Z                 (* err.eps = sum of discarded squares *)
}.

Definition truncate (xs : list Z) (o : opts) : result :=
  let sl := sorted_pairs xs in
  let ss := map fst sl in
  let piv := map snd sl in
  let cut := first_true (final_good ss o) in
  let keep := skipn cut piv in
  let mask := map (fun i => existsb (Nat.eqb i) keep) (seq 0 (length xs)) in
  let sel (b : bool) := map (fun mb => if Bool.eqb (fst mb) b then sq (snd mb) else 0) (combine mask xs) in
  mkRes mask (skipn cut ss) (sumZ (sel true)) (sumZ (sel false)).

(* ---- TruncationError bookkeeping (eps only; ov = 1 - 2 eps is a float product chain) *)
Definition err_add (e1 e2 : Z) : Z := e1 + e2.

(* what the correspondence compares (harness/c15.py): number kept, kept multiset, norm^2, eps *)
Definition observe (xs : list Z) (o : opts) : nat * list Z * Z * Z :=
  let r := truncate xs o in
  (length (r_kept r), r_kept r, r_norm2 r, r_eps r).

Definition check_case (c : list Z * opts * (nat * list Z * Z * Z)) : bool :=
  let '(xs, o, (k, kept, n2, e)) := c in
  let '(k', kept', n2', e') := observe xs o in
  Nat.eqb k k' && (if list_eq_dec Z.eq_dec kept kept' then true else false)
  && (n2 =? n2') && (e =? e').
