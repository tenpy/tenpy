(* ZifyBool and ZifyNat let lia read boolean comparisons and nat; ZifyNat also switches on the translation of / and mod into
   their Euclidean equations.  The post-hook requests that translation once more by name, and not idly: without the line lia is
   several times dearer in a few proofs with mod (Proofs/JWP2.v first).
   `simpl never` for the five integer operations: simpl, and cbn without a list, leave them as written instead of unfolding
   2 * x into a match on x; the scripts say what may reduce (cbn [..]) and leave arithmetic to lia and ring. *)
From Coq Require Export ZArith List Bool Lia ZifyBool ZifyNat Arith Permutation Sorted.
Export ListNotations.
Ltac Zify.zify_post_hook ::= Z.to_euclidean_division_equations.

Global Arguments Z.mul : simpl never.
Global Arguments Z.add : simpl never.
Global Arguments Z.sub : simpl never.
Global Arguments Z.div : simpl never.
Global Arguments Z.modulo : simpl never.

Fixpoint sumZ (l : list Z) : Z := match l with [] => 0%Z | x :: t => (x + sumZ t)%Z end.

Lemma sumZ_cons x l : sumZ (x :: l) = (x + sumZ l)%Z.
Proof. reflexivity. Qed.

Lemma sumZ_app l1 l2 : sumZ (l1 ++ l2) = (sumZ l1 + sumZ l2)%Z.
Proof. induction l1 as [|x l1 IH]; cbn [sumZ app]; lia. Qed.

Lemma sumZ_perm l1 l2 : Permutation l1 l2 -> sumZ l1 = sumZ l2.
Proof. induction 1 as [|x l l' _ IH|x y l|l l' l'' _ IH1 _ IH2]; cbn [sumZ]; lia. Qed.

Lemma sumZ_nonneg l : Forall (fun x => 0 <= x)%Z l -> (0 <= sumZ l)%Z.
Proof. induction 1 as [|x l Hx _ IH]; cbn [sumZ]; lia. Qed.

Lemma firstn_skipn_sum (l : list Z) k : sumZ l = (sumZ (firstn k l) + sumZ (skipn k l))%Z.
Proof. rewrite <- sumZ_app, firstn_skipn. reflexivity. Qed.
