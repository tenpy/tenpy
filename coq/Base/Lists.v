(* General facts about lists and the standard predicates over them (Permutation, NoDup, Forall2, StronglySorted) that
   the standard library lacks; nothing of the model is mentioned.  Most serve two or more proof files; a general list
   lemma with a single user file usually stands at the head of that file instead.  By subject: a list taken apart by
   position (firstn, skipn, nth, nth_error, last); map, seq, combine; flat_map; filter; boolean folds; the comparison of
   two lists (forall2b, Forall2); NoDup; sumZ and run functions; StronglySorted (Section SS); insertion sort over an
   abstract test (Section InsertionSort).  A fact under Permutation stands with the function it is about. *)
From TenpyV Require Import Base.Prelude.

Lemma firstn_app_eq {A} n (l1 l2 : list A) : length l1 = n -> firstn n (l1 ++ l2) = l1.
Proof. intros <-. rewrite firstn_app, Nat.sub_diag, firstn_all. apply app_nil_r. Qed.

Lemma skipn_app_eq {A} n (l1 l2 : list A) : length l1 = n -> skipn n (l1 ++ l2) = l2.
Proof. intros <-. rewrite skipn_app, Nat.sub_diag, skipn_all. reflexivity. Qed.

Lemma firstn_app_len {A} (a b : list A) : firstn (length a) (a ++ b) = a.
Proof. exact (firstn_app_eq _ a b eq_refl). Qed.

Lemma skipn_app_len {A} (a b : list A) : skipn (length a) (a ++ b) = b.
Proof. exact (skipn_app_eq _ a b eq_refl). Qed.

Lemma app_split {A} n (l : list A) : (n <= length l)%nat -> exists l1 l2, l = l1 ++ l2 /\ length l1 = n.
Proof. intros H. exists (firstn n l), (skipn n l). split; [symmetry; apply firstn_skipn|]. rewrite firstn_length. lia. Qed.

Lemma length_one_single {A} (l : list A) : length l = 1%nat -> exists x, l = [x].
Proof. destruct l as [|x [|y l]]; intro H; try discriminate H. exists x. reflexivity. Qed.

Lemma snoc_assoc {A} (a : list A) x t : a ++ x :: t = (a ++ [x]) ++ t.
Proof. exact (app_assoc a [x] t). Qed.

Lemma firstn_S_nth {A} (d : A) l : forall i, (i < length l)%nat -> firstn (S i) l = firstn i l ++ [nth i l d].
Proof.
  induction l as [|x l IH]; intros i H; cbn [length] in H; [lia|].
  destruct i as [|i]; cbn [firstn nth app]; [reflexivity|]. f_equal. apply IH. lia.
Qed.

Lemma skipn_nth_cons {A} (d : A) l : forall i, (i < length l)%nat -> skipn i l = nth i l d :: skipn (S i) l.
Proof.
  induction l as [|x l IH]; intros i H; cbn [length] in H; [lia|].
  destruct i as [|i]; cbn [nth skipn]; [reflexivity|]. apply IH. lia.
Qed.

Lemma nth_split_at {A} i (d : A) l : (i < length l)%nat -> l = firstn i l ++ nth i l d :: skipn (S i) l.
Proof. intros H. rewrite <- skipn_nth_cons by exact H. symmetry. apply firstn_skipn. Qed.

Lemma nth_error_some_lt {A} (l : list A) i v : nth_error l i = Some v -> (i < length l)%nat.
Proof. intros H. apply nth_error_Some. rewrite H. discriminate. Qed.

Lemma Forall_nth_d {A} (P : A -> Prop) l n d : Forall P l -> P d -> P (nth n l d).
Proof.
  intros Hf Hd. destruct (nth_in_or_default n l d) as [H | ->]; [|exact Hd]. rewrite Forall_forall in Hf. apply Hf, H.
Qed.

Lemma last_indep {A} (l : list A) d d' : l <> [] -> last l d = last l d'.
Proof. induction l as [|x [|y l] IH]; intros H; [contradiction|reflexivity|]. apply IH. discriminate. Qed.

Lemma nth_map_default {A B} (f : A -> B) l k dA dB : (k < length l)%nat -> nth k (map f l) dB = f (nth k l dA).
Proof. intros H. rewrite (nth_indep _ dB (f dA)) by (rewrite map_length; exact H). apply map_nth. Qed.

Lemma map_nth_seq {A} (d : A) l : map (fun k => nth k l d) (seq 0 (length l)) = l.
Proof.
  induction l as [|x l IH]; [reflexivity|]. cbn [length seq map nth]. f_equal.
  rewrite <- seq_shift, map_map. exact IH.
Qed.

Lemma map_nth_app_seq {A} (d : A) (a l : list A) : map (fun i => nth i (a ++ l) d) (seq (length a) (length l)) = l.
Proof.
  induction a as [|x a IH]; cbn [length app]; [apply map_nth_seq|].
  rewrite <- seq_shift, map_map. exact IH.
Qed.

Lemma nth_map_seq {A} (f : nat -> A) n k d : (k < n)%nat -> nth k (map f (seq 0 n)) d = f k.
Proof.
  intros H. rewrite (nth_indep _ d (f 0%nat)) by (rewrite map_length, seq_length; exact H).
  rewrite map_nth, seq_nth by exact H. reflexivity.
Qed.

Lemma map_fst_combine {A B} (a : list A) : forall b : list B, length a = length b -> map fst (combine a b) = a.
Proof.
  induction a as [|x a IH]; intros [|y b] H; cbn [length] in H; try discriminate; [reflexivity|].
  cbn [combine map fst]. f_equal. apply IH. lia.
Qed.

Lemma map_snd_combine {A B} (a : list A) : forall b : list B, length a = length b -> map snd (combine a b) = b.
Proof.
  induction a as [|x a IH]; intros [|y b] H; cbn [length] in H; try discriminate; [reflexivity|].
  cbn [combine map snd]. f_equal. apply IH. lia.
Qed.

Lemma combine_app2 {A B} (l1 l1' : list A) (l2 l2' : list B) : length l1 = length l2 ->
  combine (l1 ++ l1') (l2 ++ l2') = combine l1 l2 ++ combine l1' l2'.
Proof.
  revert l2. induction l1 as [|x t IH]; intros [|y u] H; cbn [length app combine] in *; try discriminate; [reflexivity|].
  f_equal. apply IH. lia.
Qed.

Lemma combine_seq_In {A} (l : list A) : forall s m e, In (m, e) (combine (seq s (length l)) l) ->
  nth_error l (m - s) = Some e /\ (s <= m)%nat.
Proof.
  induction l as [|x l IH]; intros s m e H; [destruct H|]. destruct H as [H|H].
  - injection H as <- <-. rewrite Nat.sub_diag. split; [reflexivity|lia].
  - destruct (IH (S s) m e H) as [E L]. replace (m - s)%nat with (S (m - S s)) by lia. split; [exact E|lia].
Qed.

Lemma perm_seq_lt p r k : Permutation p (seq 0 r) -> In k p -> (k < r)%nat.
Proof. intros HP Hin. apply (Permutation_in _ HP) in Hin. apply in_seq in Hin. lia. Qed.

Lemma perm_seq_length p r : Permutation p (seq 0 r) -> length p = r.
Proof. intros HP. apply Permutation_length in HP. rewrite seq_length in HP. exact HP. Qed.

Lemma flat_map_map {A B C} (f : B -> list C) (g : A -> B) l : flat_map f (map g l) = flat_map (fun x => f (g x)) l.
Proof. induction l as [|x l IH]; cbn [map flat_map]; [reflexivity|]. rewrite IH. reflexivity. Qed.

Lemma map_flat_map {A B C} (f : B -> C) (g : A -> list B) l : map f (flat_map g l) = flat_map (fun x => map f (g x)) l.
Proof. induction l as [|x l IH]; cbn [map flat_map]; [reflexivity|]. rewrite map_app, IH. reflexivity. Qed.

Lemma flat_map_flat_map {A B X} (f : B -> list X) (g : A -> list B) l :
  flat_map f (flat_map g l) = flat_map (fun x => flat_map f (g x)) l.
Proof.
  induction l as [|x l IH]; cbn [flat_map]; [reflexivity|]. rewrite flat_map_app, IH. reflexivity.
Qed.

Lemma flat_map_ext_in {A B} (f g : A -> list B) l :
  (forall x, In x l -> f x = g x) -> flat_map f l = flat_map g l.
Proof. intro H. rewrite !flat_map_concat_map. f_equal. apply map_ext_in. exact H. Qed.

Lemma flat_map_nil_in {A B} (f : A -> list B) l : (forall x, In x l -> f x = []) -> flat_map f l = [].
Proof.
  induction l as [|x l IH]; intro H; cbn [flat_map]; [reflexivity|].
  rewrite (H x (or_introl eq_refl)), IH; [reflexivity|]. intros y Hy. apply H. right. exact Hy.
Qed.

Lemma length_flat_map_const {A B} (f : A -> list B) l n : (forall x, length (f x) = n) -> length (flat_map f l) = (length l * n)%nat.
Proof. intros H. induction l as [|x l IH]; cbn [flat_map length]; [reflexivity|]. rewrite app_length, H, IH. lia. Qed.

Lemma perm_flat_map_pointwise {A B} (f g : A -> list B) l :
  (forall x, In x l -> Permutation (f x) (g x)) -> Permutation (flat_map f l) (flat_map g l).
Proof.
  induction l as [|x l IH]; intros H; cbn [flat_map]; [constructor|].
  apply Permutation_app; [apply H; left; reflexivity|]. apply IH. intros y Hy. apply H. right. exact Hy.
Qed.

Lemma perm_flat_map_split {A B} (f h : A -> list B) l :
  Permutation (flat_map (fun x => f x ++ h x) l) (flat_map f l ++ flat_map h l).
Proof.
  induction l as [|x l IH]; cbn [flat_map]; [constructor|].
  eapply perm_trans; [apply Permutation_app; [apply Permutation_refl|exact IH]|].
  rewrite <- !app_assoc. apply Permutation_app_head.
  rewrite !app_assoc. apply Permutation_app_tail. apply Permutation_app_comm.
Qed.

Lemma perm_flat_map_swap {A B X} (h : A -> B -> list X) la lb :
  Permutation (flat_map (fun a => flat_map (fun b => h a b) lb) la)
              (flat_map (fun b => flat_map (fun a => h a b) la) lb).
Proof.
  induction la as [|a la IH]; cbn [flat_map].
  - rewrite flat_map_nil_in; [constructor|]. intros b _. reflexivity.
  - eapply perm_trans; [|apply Permutation_sym, perm_flat_map_split].
    apply Permutation_app_head. exact IH.
Qed.

Lemma filter_all {A} (f : A -> bool) l : (forall x, In x l -> f x = true) -> filter f l = l.
Proof.
  induction l as [|x l IH]; intros H; [reflexivity|]. cbn [filter]. rewrite (H x (or_introl eq_refl)).
  f_equal. apply IH. intros y Hy. apply H. right. exact Hy.
Qed.

Lemma filter_none {A} (f : A -> bool) l : (forall x, In x l -> f x = false) -> filter f l = [].
Proof.
  induction l as [|x l IH]; intros H; [reflexivity|]. cbn [filter]. rewrite (H x (or_introl eq_refl)).
  apply IH. intros y Hy. apply H. right. exact Hy.
Qed.

Lemma filter_perm {A} (f : A -> bool) l l' : Permutation l l' -> Permutation (filter f l) (filter f l').
Proof.
  induction 1 as [|x l l' _ IH|x y l|l l' l'' _ IH1 _ IH2]; cbn [filter].
  - constructor.
  - destruct (f x); [constructor|]; exact IH.
  - destruct (f x), (f y); try reflexivity. constructor.
  - exact (perm_trans IH1 IH2).
Qed.

Lemma filter_flat_map {A B} (p : B -> bool) (f : A -> list B) l :
  filter p (flat_map f l) = flat_map (fun x => filter p (f x)) l.
Proof.
  induction l as [|x l IH]; cbn [flat_map]; [reflexivity|]. rewrite filter_app, IH. reflexivity.
Qed.

Lemma flat_map_filter {A B} (p : A -> bool) (f : A -> list B) l :
  flat_map f (filter p l) = flat_map (fun x => if p x then f x else []) l.
Proof.
  induction l as [|x l IH]; cbn [flat_map filter]; [reflexivity|].
  destruct (p x); cbn [flat_map app]; rewrite IH; reflexivity.
Qed.

Lemma filter_map_comm {A B} (p : B -> bool) (f : A -> B) l :
  filter p (map f l) = map f (filter (fun x => p (f x)) l).
Proof.
  induction l as [|x l IH]; cbn [map filter]; [reflexivity|].
  destruct (p (f x)); cbn [map]; rewrite IH; reflexivity.
Qed.

Lemma filter_filter {A} (p q : A -> bool) l : filter p (filter q l) = filter (fun x => q x && p x) l.
Proof.
  induction l as [|x l IH]; cbn [filter]; [reflexivity|].
  destruct (q x); cbn [filter andb]; [destruct (p x)|]; rewrite IH; reflexivity.
Qed.

Lemma filter_single_in {A} (p : A -> bool) l x : filter p l = [x] -> In x l /\ p x = true.
Proof. intro H. apply filter_In. rewrite H. left. reflexivity. Qed.

Lemma existsb_eqb_In i l : existsb (Nat.eqb i) l = true <-> In i l.
Proof.
  induction l as [|x l IH]; cbn [existsb In]; [split; [discriminate|contradiction]|].
  rewrite orb_true_iff, Nat.eqb_eq, IH. intuition congruence.
Qed.

Lemma forallb_comp {A B} (f : B -> bool) (g : A -> B) l : forallb (fun x => f (g x)) l = forallb f (map g l).
Proof. induction l as [|x l IH]; cbn; [reflexivity|]. rewrite IH. reflexivity. Qed.

Lemma forallb_ext_in {A} (f g : A -> bool) l : (forall x, In x l -> f x = g x) -> forallb f l = forallb g l.
Proof.
  intros H. induction l as [|x l IH]; cbn [forallb]; [reflexivity|].
  rewrite (H x (or_introl eq_refl)), IH; [reflexivity|]. intros y Hy. apply H. right. exact Hy.
Qed.

Lemma forallb_perm {A} (f : A -> bool) l l' : Permutation l l' -> forallb f l = forallb f l'.
Proof.
  induction 1 as [|x l l' _ IH|x y l|l l' l'' _ IH1 _ IH2]; cbn; try congruence.
  destruct (f x), (f y); reflexivity.
Qed.

Lemma xor_fold_perm {A : Type} (g : A -> bool) [l l'] : Permutation l l' ->
  fold_right (fun a b => xorb (g a) b) false l = fold_right (fun a b => xorb (g a) b) false l'.
Proof.
  induction 1 as [|y l l' _ IH|y z l|l l' l'' _ IH1 _ IH2]; cbn [fold_right].
  - reflexivity.
  - rewrite IH. reflexivity.
  - destruct (g z), (g y), (fold_right (fun a b => xorb (g a) b) false l); reflexivity.
  - congruence.
Qed.

(* the models' own list comparisons are this Fixpoint at their test, up to conversion *)
Definition forall2b {A B} (e : A -> B -> bool) : list A -> list B -> bool :=
  fix go a b := match a, b with
                | [], [] => true
                | x :: a', y :: b' => e x y && go a' b'
                | _, _ => false
                end.

Lemma forall2b_spec {A B} (e : A -> B -> bool) (R : A -> B -> Prop) :
  (forall x y, e x y = true <-> R x y) -> forall a b, forall2b e a b = true <-> Forall2 R a b.
Proof.
  intros He. induction a as [|x a IH]; intros [|y b]; cbn [forall2b].
  - split; [constructor|reflexivity].
  - split; [discriminate|inversion 1].
  - split; [discriminate|inversion 1].
  - rewrite andb_true_iff, He, IH. split; [intros []; constructor; assumption|inversion 1; subst; split; assumption].
Qed.

Lemma forall2b_eq_spec {A} (e : A -> A -> bool) :
  (forall x y, e x y = true <-> x = y) -> forall a b, forall2b e a b = true <-> a = b.
Proof.
  intros He a b. rewrite (forall2b_spec e eq He). split; [|intros ->; induction b; constructor; auto].
  induction 1; congruence.
Qed.

Lemma Forall2_length {A B} (R : A -> B -> Prop) a b : Forall2 R a b -> length a = length b.
Proof. induction 1; cbn [length]; congruence. Qed.

Lemma NoDup_app_disj {A} (l1 l2 : list A) :
  NoDup l1 -> NoDup l2 -> (forall x, In x l1 -> In x l2 -> False) -> NoDup (l1 ++ l2).
Proof.
  induction 1 as [|a l1 Ha _ IH]; intros H2 D; cbn [app]; [exact H2|]. constructor.
  - rewrite in_app_iff. intros [H|H]; [exact (Ha H)|exact (D a (or_introl eq_refl) H)].
  - apply IH; [exact H2|]. intros x Hx. apply D. right. exact Hx.
Qed.

Lemma NoDup_app_In {A} (l1 l2 : list A) x : NoDup (l1 ++ l2) -> In x l1 -> In x l2 -> False.
Proof.
  induction l1 as [|a l1 IH]; cbn [app]; intros ND H1 H2; [destruct H1|].
  inversion ND as [|? ? Hn ND']; subst.
  destruct H1 as [->|H1]; [apply Hn, in_or_app; right; exact H2|apply IH; assumption].
Qed.

Lemma NoDup_map_in {A B} (f : A -> B) l :
  (forall x y, In x l -> In y l -> f x = f y -> x = y) -> NoDup l -> NoDup (map f l).
Proof.
  intros Hinj. induction 1 as [|x l Hx _ IH]; cbn [map]; constructor.
  - intros Hin. apply in_map_iff in Hin. destruct Hin as [y [Hy Hin]].
    apply Hx. rewrite (Hinj x y); [exact Hin|left; reflexivity|right; exact Hin|symmetry; exact Hy].
  - apply IH. intros y z Hy Hz. apply Hinj; right; assumption.
Qed.

Lemma NoDup_snoc {A} (l : list A) a : NoDup l -> ~ In a l -> NoDup (l ++ [a]).
Proof.
  intros Hn Ha. eapply Permutation_NoDup; [apply Permutation_cons_append|]. constructor; assumption.
Qed.

Lemma NoDup_map_filter {A B} (f : A -> B) (p : A -> bool) l : NoDup (map f l) -> NoDup (map f (filter p l)).
Proof.
  induction l as [|y t IH]; cbn [filter map]; intros Hn; [constructor|].
  inversion Hn as [|? ? Hy Ht]; subst.
  destruct (p y); [|apply IH; exact Ht].
  cbn [map]. constructor; [|apply IH; exact Ht].
  intros Hin. apply Hy. apply in_map_iff in Hin. destruct Hin as (x & Hx & Hin).
  apply filter_In in Hin. rewrite <- Hx. apply in_map. tauto.
Qed.

Lemma nodup_flat_map_inj {A B} (f : A -> list B) l :
  (forall a, In a l -> NoDup (f a)) ->
  (forall a a' b, In a l -> In a' l -> In b (f a) -> In b (f a') -> a = a') ->
  NoDup l -> NoDup (flat_map f l).
Proof.
  intros Hf Hinj Hnd. induction Hnd as [|a l Ha Hnd IH]; cbn [flat_map]; [constructor|].
  apply NoDup_app_disj.
  - apply Hf. now left.
  - apply IH; [intros; apply Hf; now right|intros a1 a2 b H1 H2; apply Hinj; now right].
  - intros b Hb1 Hb2. apply in_flat_map in Hb2. destruct Hb2 as (a' & Ha' & Hb2).
    assert (a = a') by (apply (Hinj a a' b); [now left|now right|exact Hb1|exact Hb2]). subst. contradiction.
Qed.

Lemma sumZ_map_zero {A} (f : A -> Z) l : (forall x, In x l -> f x = 0%Z) -> sumZ (map f l) = 0%Z.
Proof.
  induction l as [|x l IH]; intros H; cbn [map sumZ]; [reflexivity|].
  rewrite (H x (or_introl eq_refl)), IH; [reflexivity|]. intros y Hy. apply H. right. exact Hy.
Qed.

Lemma sumZ_map_scale {A} c (f : A -> Z) l : (c * sumZ (map f l) = sumZ (map (fun x => c * f x) l))%Z.
Proof. induction l as [|x l IH]; cbn [map sumZ]; [lia|]. rewrite <- IH. lia. Qed.

Lemma sumZ_map_add {A} (f g : A -> Z) l : (sumZ (map (fun e => f e + g e) l) = sumZ (map f l) + sumZ (map g l))%Z.
Proof. induction l as [|x l IH]; cbn [map sumZ]; [reflexivity|]. rewrite IH. lia. Qed.

(* the cons case of the models' run functions, which thread a state and collect outputs *)
Lemma run_cons_proj {A B} (p : A * B) (f : A -> A * list B) :
  (let (a, x) := p in let (a', xs) := f a in (a', x :: xs)) = (fst (f (fst p)), snd p :: snd (f (fst p))).
Proof. destruct p as [a x]. cbn [fst snd]. destruct (f a). reflexivity. Qed.

Section SS.
  Context {A : Type} (R : A -> A -> Prop).

  Lemma ss_app (a b : list A) : StronglySorted R a -> StronglySorted R b ->
    (forall x y, In x a -> In y b -> R x y) -> StronglySorted R (a ++ b).
  Proof.
    induction 1 as [|x a Ha IH Hx]; intros Hb Hab; [exact Hb|]. cbn [app]. constructor.
    - apply IH; [exact Hb|]. intros u v Hu Hv. apply Hab; [right; exact Hu|exact Hv].
    - apply Forall_app. split; [exact Hx|]. apply Forall_forall. intros y Hy. apply Hab; [left; reflexivity|exact Hy].
  Qed.

  Lemma ss_app_inv (l1 l2 : list A) :
    StronglySorted R (l1 ++ l2) -> forall a b, In a l1 -> In b l2 -> R a b.
  Proof.
    induction l1 as [|x t IH]; cbn [app]; intros H a b Ha Hb; [destruct Ha|].
    inversion H as [|? ? Ht Hx]; subst.
    destruct Ha as [<-|Ha].
    - rewrite Forall_forall in Hx. apply (Hx b). apply in_or_app. right. exact Hb.
    - eapply IH; eassumption.
  Qed.

  Lemma ss_app_l (a b : list A) : StronglySorted R (a ++ b) -> StronglySorted R a.
  Proof.
    induction a as [|x a IH]; intros Hs; [constructor|].
    cbn [app] in Hs. apply StronglySorted_inv in Hs as [Hs Hf].
    constructor; [apply IH; exact Hs|]. apply Forall_app in Hf. tauto.
  Qed.

  Lemma ss_nth (l : list A) d : StronglySorted R l -> forall i j, (i < j)%nat -> (j < length l)%nat ->
    R (nth i l d) (nth j l d).
  Proof.
    induction 1 as [|x l Hl IH Hx]; intros i j Hij Hj; cbn [length] in Hj; [lia|].
    destruct j as [|j]; [lia|]. destruct i as [|i]; cbn [nth].
    - rewrite Forall_forall in Hx. apply Hx, nth_In. lia.
    - apply IH; lia.
  Qed.

  Lemma nth_ss (l : list A) d :
    (forall i j, (i < j)%nat -> (j < length l)%nat -> R (nth i l d) (nth j l d)) -> StronglySorted R l.
  Proof.
    induction l as [|x l IH]; intros H; constructor.
    - apply IH. intros i j Hij Hj. apply (H (S i) (S j)); cbn [length]; lia.
    - apply Forall_forall. intros y Hy. destruct (In_nth _ _ d Hy) as (k & Hk & <-).
      apply (H 0%nat (S k)); cbn [length]; lia.
  Qed.

  Lemma ss_filter (f : A -> bool) (l : list A) : StronglySorted R l -> StronglySorted R (filter f l).
  Proof.
    induction 1 as [|x l Hl IH Hx]; cbn [filter]; [constructor|]. destruct (f x); [|exact IH].
    constructor; [exact IH|]. rewrite Forall_forall in *. intros y Hy. apply filter_In in Hy. apply Hx, Hy.
  Qed.

  Lemma ss_weaken_in (Q : A -> A -> Prop) (l : list A) :
    (forall x y, In x l -> In y l -> R x y -> Q x y) -> StronglySorted R l -> StronglySorted Q l.
  Proof.
    intros H S0. induction S0 as [|x l Hl IH Hx]; constructor.
    - apply IH. intros a b Ha Hb. apply H; right; assumption.
    - rewrite Forall_forall in *. intros y Hy. apply H; [left; reflexivity|right; exact Hy|apply Hx, Hy].
  Qed.

  Lemma ss_nodup (l : list A) : (forall x, ~ R x x) -> StronglySorted R l -> NoDup l.
  Proof.
    intros Hirr. induction 1 as [|x l Hl IH Hx]; constructor; [|exact IH].
    intros Hin. rewrite Forall_forall in Hx. exact (Hirr x (Hx x Hin)).
  Qed.

  Lemma ss_map {B} (Q : B -> B -> Prop) (f : A -> B) l :
    (forall x y, R x y -> Q (f x) (f y)) -> StronglySorted R l -> StronglySorted Q (map f l).
  Proof.
    intros H. induction 1 as [|x l Hl IH Hx]; cbn [map]; constructor; [exact IH|].
    rewrite Forall_forall in *. intros y Hy. apply in_map_iff in Hy. destruct Hy as (z & <- & Hz). apply H, Hx, Hz.
  Qed.

  Lemma ss_and (P Q : A -> A -> Prop) l :
    (forall a b, R a b -> P a b -> Q a b) -> StronglySorted R l -> StronglySorted P l -> StronglySorted Q l.
  Proof.
    intros HQ. induction l as [|x t IH]; intros HR HP; [constructor|].
    inversion HR as [|? ? HRt HRx]; subst. inversion HP as [|? ? HPt HPx]; subst.
    constructor; [apply IH; assumption|].
    rewrite Forall_forall in *. intros b Hb. apply HQ; [apply HRx|apply HPx]; exact Hb.
  Qed.
End SS.

Lemma sorted_perm_eq (l1 l2 : list Z) : StronglySorted Z.le l1 -> StronglySorted Z.le l2 -> Permutation l1 l2 -> l1 = l2.
Proof.
  revert l2. induction l1 as [|x t IH]; intros [|y u] S1 S2 P.
  - reflexivity.
  - apply Permutation_nil in P. discriminate.
  - apply Permutation_sym, Permutation_nil in P. discriminate.
  - inversion S1 as [|? ? S1t Hx]; inversion S2 as [|? ? S2u Hy]; subst. rewrite Forall_forall in Hx, Hy.
    (* each head is the least element of both lists *)
    assert (x = y).
    { destruct (Permutation_in x P (or_introl eq_refl)) as [->|Hxin]; [reflexivity|].
      destruct (Permutation_in y (Permutation_sym P) (or_introl eq_refl)) as [->|Hyin]; [reflexivity|].
      specialize (Hx _ Hyin). specialize (Hy _ Hxin). lia. }
    subst y. f_equal. apply IH; [assumption|assumption|]. apply (Permutation_cons_inv P).
Qed.

(* `ins` is a parameter known by its two equations: the models define their own insertions, which satisfy both by
   reflexivity *)
Section InsertionSort.
  Context {A : Type} (leb : A -> A -> bool) (ins : A -> list A -> list A).
  Hypothesis ins_nil : forall x, ins x [] = [x].
  Hypothesis ins_cons : forall x y t, ins x (y :: t) = if leb x y then x :: y :: t else y :: ins x t.

  Lemma insertion_perm x l : Permutation (ins x l) (x :: l).
  Proof.
    induction l as [|y t IH]; [rewrite ins_nil; reflexivity|]. rewrite ins_cons.
    destruct (leb x y); [reflexivity|]. rewrite IH. apply perm_swap.
  Qed.

  Lemma insertion_sort_perm l : Permutation (fold_right ins [] l) l.
  Proof. induction l as [|x t IH]; [reflexivity|]. cbn [fold_right]. rewrite insertion_perm, IH. reflexivity. Qed.

  Section Sorted.
    Variable R : A -> A -> Prop.
    Hypothesis leb_true : forall x y, leb x y = true -> R x y.
    Hypothesis leb_false : forall x y, leb x y = false -> R y x.

    Lemma insertion_sorted x l : Sorted R l -> Sorted R (ins x l).
    Proof.
      induction 1 as [|y t Ht IH Hy]; [rewrite ins_nil; repeat constructor|]. rewrite ins_cons.
      destruct (leb x y) eqn:E; [repeat constructor; auto|].
      constructor; [exact IH|]. apply leb_false in E.
      destruct Hy as [|z t' Hyz]; [rewrite ins_nil|rewrite ins_cons; destruct (leb x z)]; constructor; assumption.
    Qed.

    Lemma insertion_sort_sorted l : Sorted R (fold_right ins [] l).
    Proof. induction l as [|x t IH]; [constructor|]. cbn [fold_right]. apply insertion_sorted, IH. Qed.

    Lemma insertion_sort_ss l : (forall x y z, R x y -> R y z -> R x z) -> StronglySorted R (fold_right ins [] l).
    Proof. intros HT. apply Sorted_StronglySorted; [exact HT|apply insertion_sort_sorted]. Qed.
  End Sorted.

  Section Stable.
    Variable T : A -> A -> Prop.
    Hypothesis leb_false_T : forall x y, leb x y = false -> T y x.

    Lemma insertion_stable x l : Forall (T x) l -> StronglySorted T l -> StronglySorted T (ins x l).
    Proof.
      intros Hx Hl. revert Hx. induction Hl as [|y t Ht IH Hy]; intros Hx; [rewrite ins_nil; repeat constructor|].
      rewrite ins_cons. destruct (leb x y) eqn:E; [constructor; [constructor; assumption|exact Hx]|].
      inversion Hx as [|? ? _ Hxt]; subst. constructor; [apply IH, Hxt|].
      rewrite insertion_perm. constructor; [apply leb_false_T, E|exact Hy].
    Qed.

    Lemma insertion_sort_stable l : StronglySorted T l -> StronglySorted T (fold_right ins [] l).
    Proof.
      induction 1 as [|x t Ht IH Hx]; [constructor|]. cbn [fold_right]. apply insertion_stable; [|exact IH].
      rewrite insertion_sort_perm. exact Hx.
    Qed.
  End Stable.
End InsertionSort.
